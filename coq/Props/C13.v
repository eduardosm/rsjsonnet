(* Props/C13.v — pinned statements for property C13 (imports resolve
   deterministically, load once and deliver exact content).  Statements closed by
   [exact lemma] or in a few lines from the lemmas of Proofs/Import_proofs.v,
   non-vacuity Examples, and [Print Assumptions]. *)
From RJ Require Import Base.Outcome Model.Import Proofs.Import_proofs.
Local Open Scope string_scope.
Local Open Scope list_scope.
Local Open Scope N_scope.

(* a relative import resolves to the first existing candidate, the candidates being
   the importing file's directory (of the spelling it was loaded by) followed by
   the search paths in stored order *)
Theorem C13_search_order : forall fs st from p q,
  is_absolute p = false ->
  (find_import fs st from p = Some q <->
   exists pre b post, bases st from = pre ++ b :: post /\ q = join b p /\
                      exists_ fs (join b p) = true /\
                      Forall (fun b' => exists_ fs (join b' p) = false) pre).
Proof. exact search_order. Qed.

Theorem C13_search_none : forall fs st from p,
  is_absolute p = false ->
  (find_import fs st from p = None <->
   Forall (fun b => exists_ fs (join b p) = false) (bases st from)).
Proof.
  intros fs st from p Hrel. unfold find_import. rewrite Hrel. unfold candidates. apply find_map_none.
Qed.

Theorem C13_importer_dir_first : forall fs st from p d,
  is_absolute p = false ->
  from_dir st from = Some d ->
  exists_ fs (join d p) = true ->
  find_import fs st from p = Some (join d p).
Proof.
  intros fs st from p d Hrel Hd He. apply search_order; [assumption|].
  exists [], d, (s_search st). unfold bases. rewrite Hd. repeat split; auto.
Qed.

(* main.rs stores the -J list reversed: among the -J directories the right-most
   one that has the file wins *)
Theorem C13_rightmost_J_wins : forall fs jpaths st from p l1 d l2,
  is_absolute p = false ->
  jpaths = l1 ++ d :: l2 ->
  s_search st = s_search (cli_session jpaths) ->
  (forall d0, from_dir st from = Some d0 -> exists_ fs (join d0 p) = false) ->
  exists_ fs (join d p) = true ->
  Forall (fun d' => exists_ fs (join d' p) = false) l2 ->
  find_import fs st from p = Some (join d p).
Proof.
  intros fs jpaths st from p l1 d l2 Hrel Hj Hs. subst jpaths.
  exact (rightmost_J_wins fs st from p l1 d l2 Hrel Hs).
Qed.

Theorem C13_absolute_bypass : forall fs st from p,
  is_absolute p = true ->
  find_import fs st from p = if exists_ fs p then Some p else None.
Proof. exact absolute_bypass. Qed.

(* a virtual source (-e "<cmdline>", stdin "<stdin>", --ext-code "<ext:v>", --tla-code
   "<tla:x>": registered without a source_paths entry) has no importer directory: its
   relative imports see the -J directories only — and with no -J at all nothing; its
   ABSOLUTE imports still resolve by their own existence, with no base directory needed *)
Theorem C13_virtual_bases_are_search_paths : forall st sid r,
  nthN (s_sources st) sid = Some (r, false) -> bases st (Some sid) = s_search st.
Proof. intros st sid r H. unfold bases, from_dir. rewrite H. reflexivity. Qed.

Theorem C13_absolute_bypass_virtual : forall fs st sid r p,
  nthN (s_sources st) sid = Some (r, false) ->
  s_search st = [] ->
  is_absolute p = true ->
  find_import fs st (Some sid) p = if exists_ fs p then Some p else None.
Proof. intros fs st sid r p _ _. apply absolute_bypass. Qed.

Theorem C13_virtual_relative_needs_J : forall fs st sid r p,
  nthN (s_sources st) sid = Some (r, false) ->
  s_search st = [] ->
  is_absolute p = false ->
  find_import fs st (Some sid) p = None.
Proof.
  intros fs st sid r p Hv Hs Hrel. apply C13_search_none; [assumption|].
  rewrite (C13_virtual_bases_are_search_paths _ _ _ Hv), Hs. constructor.
Qed.

Theorem C13_once_virtual : forall fs canon prog_of fuel jpaths repr data,
  let st := fst (run_virtual fs canon prog_of fuel jpaths repr data) in
  NoDup (loaded_cps st) /\ NoDup (evaled st).
Proof.
  intros. pose proof (run_virtual_inv fs canon prog_of fuel jpaths repr data) as (H1 & H2 & _).
  split; assumption.
Qed.

(* rsjsonnet -e with no -J: absolute imports deliver, std.thisFile is "<cmdline>", a relative
   import of an existing ./x.libsonnet is NOT found; with -J . it is *)
Example C13_nonvacuous_virtual :
  let '(st, r) := ex_run_virtual [] ex_vprog in
  nthN (s_sources st) 0 = Some (str_of "<cmdline>", false) /\ s_search st = [] /\
  is_absolute (str_of "/R/a/d.txt") = true /\
  r = Ok (VArr [VStr (str_of "<cmdline>"); VBytes [1; 2];
                VArr [VStr (str_of "x"); VStr (str_of "/R/x.libsonnet")]]) /\
  snd (ex_run_virtual [] ex_vprog_rel) =
    Err (ImportFailed WNotFound (str_of "<cmdline>") 1 (str_of "x.libsonnet")) /\
  snd (ex_run_virtual ["."] ex_vprog_rel) =
    Ok (VArr [VStr (str_of "<cmdline>"); VArr [VStr (str_of "x"); VStr (str_of "./x.libsonnet")]]).
Proof. vm_compute. repeat split. Qed.

(* a second spelling of a loaded file is a cache hit: same thunk, nothing read,
   the session (sources, thunks, log) unchanged *)
Theorem C13_cache_by_canonical : forall fs canon prog_of st p1 st1 sid p2,
  load_real_file fs canon prog_of st p1 = (st1, inr sid) ->
  exists_ fs p2 = true ->
  canon p2 = canon p1 ->
  load_real_file fs canon prog_of st1 p2 = (st1, inr sid).
Proof. exact cache_by_canonical. Qed.

(* in EVERY run of the session (any world, any -J list, any main file, any outcome,
   errors included): no canonical path is loaded (read + parsed + registered) twice,
   and no file is evaluated (its std.trace line printed) twice — however many
   spellings and importers reach it *)
Theorem C13_loaded_once : forall fs canon prog_of fuel jpaths main,
  NoDup (loaded_cps (fst (run_main fs canon prog_of fuel jpaths main))).
Proof. intros. apply run_main_inv. Qed.

Theorem C13_evaluated_once : forall fs canon prog_of fuel jpaths main,
  NoDup (evaled (fst (run_main fs canon prog_of fuel jpaths main))).
Proof. intros. apply run_main_inv. Qed.

Theorem C13_thisfile_is_as_loaded : forall fs canon prog_of st p1 st1 sid,
  load_real_file fs canon prog_of st p1 = (st1, inr sid) ->
  assoc_path (canon p1) (s_cache st) = None ->
  length (s_sources st) = length (s_thunks st) ->
  repr_path st1 sid = p1 /\
  forall p2 st2 sid2, exists_ fs p2 = true -> canon p2 = canon p1 ->
    load_real_file fs canon prog_of st1 p2 = (st2, inr sid2) -> sid2 = sid /\ repr_path st2 sid2 = p1.
Proof. intros fs canon prog_of st p1 st1 sid H Hn _. exact (thisfile_is_as_loaded fs canon prog_of st p1 st1 sid H Hn). Qed.

Theorem C13_missing_is_import_error_at_site : forall fs canon prog_of forcef st sid pos p,
  find_import fs st (Some sid) p = None ->
  let st' := with_log st (EvMsg WNotFound p) in
  let e := Err (ImportFailed WNotFound (repr_path st sid) pos p) in
  eval_expr fs canon prog_of forcef sid pos (IImport p) st = (st', e) /\
  eval_expr fs canon prog_of forcef sid pos (IImportStr p) st = (st', e) /\
  eval_expr fs canon prog_of forcef sid pos (IImportBin p) st = (st', e).
Proof. exact missing_is_import_error_at_site. Qed.

Theorem C13_unreadable_is_import_error_at_site : forall fs canon prog_of forcef st sid pos p q,
  find_import fs st (Some sid) p = Some q ->
  (fs q = Dir \/ fs q = Unreadable) ->
  exists e,
    read fs q = inl e /\
    eval_expr fs canon prog_of forcef sid pos (IImportStr p) st =
      (with_log st (EvMsg (WRead e) q), Err (ImportFailed (WRead e) (repr_path st sid) pos p)) /\
    eval_expr fs canon prog_of forcef sid pos (IImportBin p) st =
      (with_log st (EvMsg (WRead e) q), Err (ImportFailed (WRead e) (repr_path st sid) pos p)) /\
    (assoc_path (canon q) (s_cache st) = None ->
     eval_expr fs canon prog_of forcef sid pos (IImport p) st =
      (with_log st (EvMsg (WRead e) q), Err (ImportFailed (WRead e) (repr_path st sid) pos p))).
Proof. exact unreadable_is_import_error_at_site. Qed.

Theorem C13_importstr_is_lossy_decode : forall fs st from p q b,
  find_import fs st from p = Some q -> fs q = File b ->
  cb_import_str fs st from p = (with_log st (EvRead q), inr (lossy b)).
Proof. exact importstr_is_lossy_decode. Qed.

(* on a file that is well-formed UTF-8 the lossy decoding is the exact text: every
   string of Unicode scalar values survives encode-then-importstr unchanged *)
Theorem C13_lossy_of_valid_utf8 : forall s,
  forallb is_scalar s = true -> lossy (utf8_enc s) = s.
Proof.
  intros s H. rewrite <- (app_nil_r (utf8_enc s)), (lossy_valid_prefix s [] H). apply app_nil_r.
Qed.

Example C13_nonvacuous_lossy :
  forallb is_scalar [104; 233; 2047; 2048; 26085; 55295; 57344; 65533; 65536; 119070; 1114111] = true /\
  utf8_enc [233; 26085; 119070] = [195; 169; 230; 151; 165; 240; 157; 132; 158] /\
  lossy [65; 192; 128; 237; 160; 128; 244; 144; 128; 128; 230; 151; 90; 240; 157; 132] = [65; 65533; 65533; 65533; 65533; 65533; 65533; 65533; 65533; 65533; 65533; 90; 65533].
Proof. vm_compute. repeat split. Qed.

Theorem C13_importbin_exact : forall fs st from p q b,
  find_import fs st from p = Some q -> fs q = File b ->
  cb_import_bin fs st from p = (with_log st (EvRead q), inr b).
Proof. exact importbin_exact. Qed.

(* the resolution of an import does not depend on what was loaded before (cache,
   other sources, thunk states), and sees the world only through the existence of
   its candidates *)
Theorem C13_resolution_deterministic : forall fs st1 st2 from1 from2 p,
  s_search st1 = s_search st2 ->
  from_dir st1 from1 = from_dir st2 from2 ->
  find_import fs st1 from1 p = find_import fs st2 from2 p.
Proof. exact resolution_deterministic. Qed.

Theorem C13_resolution_depends_only_on_existence : forall fs1 fs2 st from p,
  (forall q, In q (p :: candidates st from p) -> exists_ fs1 q = exists_ fs2 q) ->
  find_import fs1 st from p = find_import fs2 st from p.
Proof. exact resolution_depends_only_on_existence. Qed.

(* ---- non-vacuity on a concrete tree (Proofs/Import_proofs.v: ex_tree) ---- *)

(* -J a -J b: y.libsonnet exists in both, the right-most (b) wins; x.libsonnet is
   reached by four spellings (one through a symlink) and loaded/evaluated once,
   std.thisFile keeps the first spelling; importstr is the lossy decoding,
   importbin the exact bytes (from b/y.libsonnet, d.txt is found through -J a); an absolute path bypasses the search *)
Example C13_nonvacuous :
  let '(st, r) := ex_run ["a"; "b"] "main.jsonnet" in
  let x := VArr [VStr (str_of "x"); VStr (str_of "x.libsonnet")] in
  r = Ok (VArr [VStr (str_of "main"); VStr (str_of "main.jsonnet"); x; x; x; x;
                VArr [VStr (str_of "yb"); VStr (str_of "b/y.libsonnet"); VBytes [1; 2]];
                VStr [104; 65533; 105; 233]; VBytes [104; 255; 105; 195; 169]; VBytes [1; 2]]) /\
  eval_tags st = [str_of "main"; str_of "x"; str_of "yb"] /\
  count_loaded st = 3%nat /\ length (loaded_cps st) = 3%nat /\ evaled st = [2; 1; 0].
Proof. vm_compute. repeat split. Qed.

(* with the options in the other order, a wins *)
Example C13_nonvacuous_J_order :
  let '(st, r) := ex_run ["b"; "a"] "./main.jsonnet" in
  eval_tags st = [str_of "main"; str_of "x"; str_of "ya"] /\
  repr_path st 0 = str_of "./main.jsonnet" /\ repr_path st 1 = str_of "./x.libsonnet".
Proof. vm_compute. repeat split. Qed.

(* hypotheses of the search/cache/delivery theorems are met in this world *)
Example C13_nonvacuous_hyps :
  let st := fst (ex_run ["a"; "b"] "main.jsonnet") in
  is_absolute (str_of "y.libsonnet") = false /\
  from_dir st (Some 0) = Some [] /\
  exists_ ex_fs (join [] (str_of "y.libsonnet")) = false /\
  exists_ ex_fs (join (str_of "b") (str_of "y.libsonnet")) = true /\
  exists_ ex_fs (join (str_of "a") (str_of "y.libsonnet")) = true /\
  s_search st = s_search (cli_session [str_of "a"; str_of "b"]) /\
  find_import ex_fs st (Some 0) (str_of "y.libsonnet") = Some (str_of "b/y.libsonnet") /\
  find_import ex_fs st (Some 0) (str_of "nope.libsonnet") = None /\
  is_absolute (str_of "/R/a/d.txt") = true /\
  find_import ex_fs st (Some 0) (str_of "/R/a/d.txt") = Some (str_of "/R/a/d.txt") /\
  ex_canon (str_of "b/lx") = ex_canon (str_of "x.libsonnet") /\
  ex_canon (str_of "a/../x.libsonnet") = str_of "/R/x.libsonnet" /\
  ex_fs (str_of "d.txt") = File [104; 255; 105; 195; 169] /\
  ex_fs (str_of "dirx.libsonnet") = Dir /\
  find_import ex_fs st (Some 0) (str_of "dirx.libsonnet") = Some (str_of "dirx.libsonnet").
Proof. vm_compute. repeat split. Qed.

(* a missing import fails at its site (file as loaded, expression number); an
   import cycle is an infinite-recursion error *)
Example C13_nonvacuous_failures :
  snd (ex_run ["a"] "m2.jsonnet") = Err (ImportFailed WNotFound (str_of "m2.jsonnet") 1 (str_of "nope.libsonnet")) /\
  snd (ex_run [] "m3.jsonnet") = Err (InfiniteRecursion 1) /\
  snd (ex_run [] "nope.jsonnet") = Err (MainLoadFailed WNoFile) /\
  snd (ex_run [] "main.jsonnet/x") = Err (MainLoadFailed WCanon) /\
  snd (ex_run [] "a") = Err (MainLoadFailed (WRead IoIsDir)).
Proof. vm_compute. repeat split. Qed.

Print Assumptions C13_search_order.
Print Assumptions C13_search_none.
Print Assumptions C13_importer_dir_first.
Print Assumptions C13_rightmost_J_wins.
Print Assumptions C13_absolute_bypass.
Print Assumptions C13_virtual_bases_are_search_paths.
Print Assumptions C13_absolute_bypass_virtual.
Print Assumptions C13_virtual_relative_needs_J.
Print Assumptions C13_once_virtual.
Print Assumptions C13_nonvacuous_virtual.
Print Assumptions C13_cache_by_canonical.
Print Assumptions C13_loaded_once.
Print Assumptions C13_evaluated_once.
Print Assumptions C13_thisfile_is_as_loaded.
Print Assumptions C13_missing_is_import_error_at_site.
Print Assumptions C13_unreadable_is_import_error_at_site.
Print Assumptions C13_importstr_is_lossy_decode.
Print Assumptions C13_lossy_of_valid_utf8.
Print Assumptions C13_nonvacuous_lossy.
Print Assumptions C13_importbin_exact.
Print Assumptions C13_resolution_deterministic.
Print Assumptions C13_resolution_depends_only_on_existence.
Print Assumptions C13_nonvacuous.
Print Assumptions C13_nonvacuous_J_order.
Print Assumptions C13_nonvacuous_hyps.
Print Assumptions C13_nonvacuous_failures.
