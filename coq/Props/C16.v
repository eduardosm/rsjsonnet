(* Props/C16.v — pinned statements for property C16 (span identifiers round-trip;
   stack-trace cropping stays inside the stack).  This file contains nothing but
   statements closed by [exact lemma] or a few lines from the lemmas of Proofs/, and
   [Print Assumptions]. *)
From RJ Require Import Base.Outcome Model.Span Proofs.Span_proofs Gen.SpanConsts.
Local Open Scope N_scope.

(* T: the constants found in the current source satisfy the packing discipline *)
Theorem C16_consts_ok : consts_ok src_consts.
Proof. repeat split. Qed.

(* every history of context/span registrations: every id ever handed out still
   decodes to exactly the (file, start, end) it was registered with *)
Theorem C16_span_history_roundtrip : forall rs,
  let '(mf, logf) := play src_consts empty_mgr [] rs in
  small mf ->
  Forall (fun p => get_span src_consts mf (fst p) = Ok (snd p)) logf.
Proof. intros rs. exact (span_history_roundtrip src_consts rs C16_consts_ok). Qed.

(* in every reachable manager a request inside its file is accepted (no assert
   fires, no arithmetic overflows) and round-trips *)
Theorem C16_span_valid_request_accepted : forall rs ctx a b,
  let m := fst (play src_consts empty_mgr [] rs) in
  in_range m (ctx, a, b) ->
  exists m' id, intern_span src_consts m ctx a b = Ok (m', id) /\
                (small m' -> get_span src_consts m' id = Ok (ctx, a, b)).
Proof. intros rs ctx a b. exact (span_valid_request_accepted src_consts rs ctx a b C16_consts_ok). Qed.

(* the binary search used for offset -> context is the counting specification *)
Theorem C16_lookup_is_count : forall m off, sorted (contexts m) ->
  get_context_from_offset m off = count_le off (contexts m).
Proof. exact lookup_is_count. Qed.

(* spanning a node from its first to its last token (parser) never trips an assert and
   yields exactly (file, first start, last end) *)
Theorem C16_surrounding_span_valid : forall m ia ib c sa ea sb eb,
  wf m ->
  get_span src_consts m ia = Ok (c, sa, ea) -> get_span src_consts m ib = Ok (c, sb, eb) ->
  in_range m (c, sb, eb) -> sa <= eb ->
  exists m' id, make_surrounding_span src_consts m ia ib = Ok (m', id) /\
                (small m' -> get_span src_consts m' id = Ok (c, sa, eb)).
Proof. intros *. exact (surrounding_span_valid src_consts m ia ib c sa ea sb eb C16_consts_ok). Qed.

Theorem C16_crop_slices_in_range : forall stack_len max_trace f h s,
  crop stack_len max_trace = Some (f, h, s) ->
  f <= stack_len /\ s <= stack_len /\ f + s = max_trace /\
  h = stack_len - max_trace /\ f + h + s = stack_len /\ 0 < h /\
  s <= f /\ f <= s + 1.
Proof. exact crop_slices_in_range. Qed.

(* non-vacuity: a history with two files, the second beyond the inline range,
   and spans on both encoding paths, meets every hypothesis *)
Example C16_nonvacuous :
  let rs := [RCtx 10; RCtx (2 ^ 39); RCtx 5;
             RSpan 0 2 7; RSpan 1 0 (2 ^ 26); RSpan 1 (2 ^ 38) (2 ^ 38 + 3); RSpan 2 5 5] in
  let '(mf, logf) := play src_consts empty_mgr [] rs in
  small mf /\ length logf = 4%nat /\ length (idx_to_span mf) = 3%nat.
Proof. vm_compute. repeat split. Qed.

Print Assumptions C16_consts_ok.
Print Assumptions C16_span_history_roundtrip.
Print Assumptions C16_span_valid_request_accepted.
Print Assumptions C16_lookup_is_count.
Print Assumptions C16_surrounding_span_valid.
Print Assumptions C16_crop_slices_in_range.
Print Assumptions C16_nonvacuous.
