(* Props/C02.v — pinned theorems of C02 (the core language evaluates as the Jsonnet specification defines).
   Model: Model/RefCore.v (desugaring), Model/RefValue.v, Model/RefEval.v (reference interpreter). *)
From RJ Require Import Base.Outcome Base.F64 Model.Token Model.Ast Model.RefCore Model.RefValue Model.RefEval.
From RJ Require Import Proofs.RefSem_proofs Proofs.RefSem_laws Proofs.RefSem_params.
From RJ Require Import Model.Analyze Proofs.RefScope_defs Proofs.RefScope_main Proofs.RefScope_static.
From RJ Require Import Proofs.RefInherit_proofs Proofs.RefNeed_proofs.
From RJ Require Import Proofs.RefDead_defs Proofs.RefDead_proofs Proofs.RefDead_main Proofs.RefDead_thm Proofs.RefDead_builtins Proofs.RefDead_final Proofs.RefCoin_proofs Proofs.RefShift_proofs Proofs.RefShift_thm.
Local Open Scope N_scope.

(* ---- the interpreter is a function; more fuel / a larger stack limit never change a verdict ---- *)
Theorem C02_refsem_deterministic : forall fuel c e r1 r2, run fuel c e = r1 -> run fuel c e = r2 -> r1 = r2.
Proof. exact run_deterministic. Qed.

Theorem C02_fuel_monotone : forall fuel fuel' c e r,
  run fuel c e = r -> snd r <> OutOfFuel -> (fuel <= fuel')%nat -> run fuel' c e = r.
Proof. exact fuel_monotone. Qed.

Theorem C02_limit_monotone : forall fuel c c' e r,
  run fuel c e = r -> snd r <> Err EStackOverflow ->
  c_bfs c = c_bfs c' -> c_ts_tail c = c_ts_tail c' -> c_limit c <= c_limit c' ->
  run fuel c' e = r.
Proof. exact limit_monotone. Qed.

Theorem C02_evaluates_functional : forall c e r1 r2, evaluates c e r1 -> evaluates c e r2 -> r1 = r2.
Proof. exact evaluates_functional. Qed.

(* ---- the specification's desugaring laws, in every syntactic position (io, tl arbitrary) ---- *)
Theorem C02_ne_desugars : forall io tl sp sp1 sp2 l r,
  ds_expr io tl (EBinary sp l BNe r) = ds_expr io tl (EUnary sp1 ULogicNot (EBinary sp2 l BEq r)).
Proof. exact ne_desugars. Qed.

Theorem C02_objext_desugars : forall io tl sp sp1 sp2 e o osp,
  ds_expr io tl (EObjExt sp e o osp) = ds_expr io tl (EBinary sp1 e BAdd (EObject sp2 o)).
Proof. exact objext_desugars. Qed.

Theorem C02_if_no_else_desugars : forall io tl sp sp1 sp2 c t,
  ds_expr io tl (EIf sp c t None) = ds_expr io tl (EIf sp1 c t (Some (ENull sp2))).
Proof. exact if_no_else_desugars. Qed.

Theorem C02_local_function_desugars : forall io tl sp sp1 f ps psp b rest body,
  ds_expr io tl (ELocal sp (MkBind f (Some (ps, psp)) b :: rest) body)
  = ds_expr io tl (ELocal sp (MkBind f None (EFunc sp1 ps b) :: rest) body).
Proof. exact local_function_desugars. Qed.

Theorem C02_field_function_desugars : forall io tl sp sp1 name ps psp vis b before after,
  ds_expr io tl (EObject sp (OMembers (before ++ MField (FFunc name ps psp vis b) :: after)))
  = ds_expr io tl (EObject sp (OMembers (before ++ MField (FValue name false vis (EFunc sp1 ps b)) :: after))).
Proof. exact field_function_desugars. Qed.

Theorem C02_paren_transparent : forall sp e, desugar (EParen sp e) = desugar e.
Proof. exact paren_transparent. Qed.

Theorem C02_dollar_is_outermost_self : forall tl sp s1 s2 s3 ms,
  ds_expr false tl (EObject sp (OMembers ms))
  = CObject (ds_bind true (MkBind {| id_value := dollar; id_span := s1 |} None (ESelf s2)) :: flat_map ds_local_of ms)
            (flat_map ds_assert_of ms) (flat_map (ds_field_of false) ms)
  /\ ds_expr true tl (EObject sp (OMembers ms))
     = CObject (flat_map ds_local_of ms) (flat_map ds_assert_of ms) (flat_map (ds_field_of true) ms)
  /\ (forall io, ds_expr io tl (EDollar s3) = ds_expr io tl (EIdent s3 {| id_value := dollar; id_span := s1 |})).
Proof. exact dollar_is_outermost_self. Qed.

(* equal desugarings evaluate equally: each law above is an equality of evaluation *)
Theorem C02_desugar_eq_run : forall e1 e2, desugar e1 = desugar e2 -> forall fuel c, run fuel c e1 = run fuel c e2.
Proof. exact desugar_eq_run. Qed.

(* ---- the same laws read semantically on the core interpreter ---- *)
Theorem C02_ne_is_not_eq : forall f c en l r d,
  run_task (S (S f)) c (TEval en (CUn ULogicNot (CBin BEq l r))) d
  = run_task (S f) c (TEval en (CBin BNe l r)) d.
Proof. exact ne_is_not_eq. Qed.

Theorem C02_assert_is_if_error : forall f c en cnd m m' body d t1,
  run_task f c (TEval en cnd) d = (t1, Ok (AVal (VBool true))) ->
  run_task (S f) c (TEval en (CAssert cnd m body)) d
  = run_task (S f) c (TEval en (CIte cnd body (CError m'))) d.
Proof. exact assert_is_if_error. Qed.

Theorem C02_assert_true_transparent : forall f c en cnd m body d t1 t2 v,
  run_task f c (TEval en cnd) d = (t1, Ok (AVal (VBool true))) ->
  run_task f c (TEval en body) d = (t2, Ok (AVal v)) ->
  run_task (S f) c (TEval en (CAssert cnd m body)) d = (t1 ++ t2, Ok (AVal v)).
Proof. exact assert_true_transparent. Qed.

Theorem C02_if_true : forall f c en cnd a b d t1 t2 v,
  run_task f c (TEval en cnd) d = (t1, Ok (AVal (VBool true))) ->
  run_task f c (TEval en a) d = (t2, Ok (AVal v)) ->
  run_task (S f) c (TEval en (CIte cnd a b)) d = (t1 ++ t2, Ok (AVal v)).
Proof. intros f c en cnd a b d t1 t2 v. exact (if_branch f c en cnd a b d t1 t2 v true). Qed.

Theorem C02_if_false : forall f c en cnd a b d t1 t2 v,
  run_task f c (TEval en cnd) d = (t1, Ok (AVal (VBool false))) ->
  run_task f c (TEval en b) d = (t2, Ok (AVal v)) ->
  run_task (S f) c (TEval en (CIte cnd a b)) d = (t1 ++ t2, Ok (AVal v)).
Proof. intros f c en cnd a b d t1 t2 v. exact (if_branch f c en cnd a b d t1 t2 v false). Qed.

(* ---- error messages ---- *)
Theorem C02_error_message_string : forall f c en e d t s,
  fits c d ->
  run_task f c (TEval en e) (d + 1) = (t, Ok (AVal (VStr s))) ->
  run_task (S f) c (TEval en (CError e)) d = (t, Err (EExplicit s)).
Proof. exact error_message_string. Qed.

Theorem C02_error_message : forall f c en e d t v t2 j s,
  fits c d ->
  run_task f c (TEval en e) (d + 1) = (t, Ok (AVal v)) ->
  (forall s0, v <> VStr s0) ->
  run_task f c (TManifest true v) (d + 1) = (t2, Ok (AJson j)) ->
  render j = Some s ->
  run_task (S f) c (TEval en (CError e)) d = (t ++ t2, Err (EExplicit s)).
Proof. exact error_message. Qed.

Theorem C02_assert_message : forall f c en cnd m body d t1 t2 s,
  run_task f c (TEval en cnd) d = (t1, Ok (AVal (VBool false))) ->
  run_task f c (TEval en m) d = (t2, Ok (AVal (VStr s))) ->
  run_task (S f) c (TEval en (CAssert cnd (Some m) body)) d = (t1 ++ t2, Err (EAssertFailed (Some s))).
Proof. exact assert_message. Qed.

Theorem C02_assert_no_message : forall f c en cnd body d t1,
  run_task f c (TEval en cnd) d = (t1, Ok (AVal (VBool false))) ->
  run_task (S f) c (TEval en (CAssert cnd None body)) d = (t1, Err (EAssertFailed None)).
Proof. exact assert_nomsg. Qed.

(* ---- parameter binding ---- *)
Theorem C02_defaults_see_all_params : forall ps pos named b ds fenv,
  bind_args ps pos named = Ok (b, ds) ->
  (forall x, In x (map fst ps) -> lookup_var x (FVars b ds :: fenv) <> None) /\
  (forall x de, assoc x b = None -> assoc x ds = Some de ->
                lookup_var x (FVars b ds :: fenv) = Some (Th de (FVars b ds :: fenv))).
Proof. exact defaults_see_all_params. Qed.

Theorem C02_named_positional_disjoint : forall ps pos named bpos rest x t t',
  NoDup (map fst ps) ->
  bind_positional ps pos = Some (bpos, rest) ->
  assoc x bpos = Some t -> In (x, t') named ->
  exists e, bind_args ps pos named = Err e.
Proof. exact named_positional_disjoint. Qed.

(* ---- run-time scope soundness (C09, second sentence, over this evaluator) ---- *)
Theorem C02_core_no_static_error : forall x, closed [s_std] false x ->
  forall fuel c, ~ static_error (run_core fuel c x).
Proof. exact core_no_static_error. Qed.

Theorem C02_static_ok_closed : forall e, StaticOK [s_std] false e -> closed [s_std] false (desugar e).
Proof. exact static_ok_closed. Qed.

Theorem C02_refeval_no_static_error : forall e, StaticOK [s_std] false e ->
  forall fuel c, ~ static_error (run fuel c e).
Proof. exact refeval_no_static_error. Qed.

(* ---- inheritance laws (C07) over this evaluator ---- *)
Theorem C02_plus_assoc : forall f c en a b c0 d ta tb tc la lb lc ca cb cc,
  run_task f c (TEval en a) d = (ta, Ok (AVal (VObj la ca))) ->
  run_task f c (TEval en b) d = (tb, Ok (AVal (VObj lb cb))) ->
  run_task f c (TEval en c0) d = (tc, Ok (AVal (VObj lc cc))) ->
  run_task (S (S f)) c (TEval en (CBin BAdd (CBin BAdd a b) c0)) d = (ta ++ tb ++ tc, Ok (AVal (VObj (lc ++ lb ++ la) false)))
  /\ run_task (S (S f)) c (TEval en (CBin BAdd a (CBin BAdd b c0))) d = (ta ++ tb ++ tc, Ok (AVal (VObj (lc ++ lb ++ la) false))).
Proof. exact plus_assoc. Qed.

Theorem C02_plus_empty_l : forall e lo, l_fields e = [] ->
  (forall from n, from <= lenN lo -> find_field (lo ++ [e]) from n = find_field lo from n) /\
  (forall from n, from <= lenN lo -> has_field (lo ++ [e]) from n = has_field lo from n) /\
  (forall n, RefValue.field_vis (lo ++ [e]) n = RefValue.field_vis lo n) /\
  (forall n, is_visible (lo ++ [e]) n = is_visible lo n) /\
  all_names (lo ++ [e]) = all_names lo /\
  visible_names (lo ++ [e]) = visible_names lo.
Proof. exact plus_empty_l. Qed.

Theorem C02_plus_empty_r : forall e lo, l_fields e = [] ->
  (forall n, find_field (e :: lo) 0 n = option_map (shift 1) (find_field lo 0 n)) /\
  (forall n, has_field (e :: lo) 0 n = has_field lo 0 n) /\
  (forall n, RefValue.field_vis (e :: lo) n = RefValue.field_vis lo n) /\
  (forall n, is_visible (e :: lo) n = is_visible lo n) /\
  all_names (e :: lo) = all_names lo /\
  visible_names (e :: lo) = visible_names lo.
Proof. exact plus_empty_r. Qed.

Theorem C02_override_wins : forall la lb n, has_field lb 0 n = true -> find_field (lb ++ la) 0 n = find_field lb 0 n.
Proof. exact override_wins. Qed.

Theorem C02_inherited_field : forall la lb n, has_field lb 0 n = false ->
  find_field (lb ++ la) 0 n = option_map (shift (lenN lb)) (find_field la 0 n).
Proof. exact inherited_field. Qed.

Theorem C02_self_field_is_top_lookup : forall f c en ls i g d t o,
  lookup_obj en = Some (ls, i, true) -> fits c d -> has_field ls 0 g = true ->
  run_task (S f) c (TField ls 0 g) (d + 1) = (t, o) ->
  (forall v, o = Ok (AVal v) -> run_task (S (S f)) c (TEval en (CField CSelf g)) d = (t, Ok (AVal v))) /\
  (forall e, o = Err e -> run_task (S (S f)) c (TEval en (CField CSelf g)) d = (t, Err e)).
Proof. exact self_field_is_top_lookup. Qed.

Theorem C02_self_is_final : forall f c la lb i l fld g d t o,
  fits c d -> has_field lb 0 g = true ->
  run_task (S f) c (TField (lb ++ la) 0 g) (d + 1) = (t, o) ->
  find_field (lb ++ la) 0 g = find_field lb 0 g /\
  (forall v, o = Ok (AVal v) ->
     run_task (S (S f)) c (TEval (field_env (lb ++ la) i l fld) (CField CSelf g)) d = (t, Ok (AVal v))) /\
  (forall e, o = Err e ->
     run_task (S (S f)) c (TEval (field_env (lb ++ la) i l fld) (CField CSelf g)) d = (t, Err e)).
Proof. exact self_is_final. Qed.

(* ---- call-by-need rewrite laws (C04) over this evaluator ---- *)
Theorem C02_rw_array_proj : forall f c en e d t o,
  fits c d -> run_task f c (TEval en e) (d + 1) = (t, o) -> passes o ->
  run_task (S (S f)) c (TEval en (CIndex (CArray [e]) (CNum f_zero))) d = (t, o).
Proof. exact rw_array_proj. Qed.

Theorem C02_rw_identity : forall f c en x e tl d t o,
  fits c d -> fits c (d + 1) -> run_task f c (TEval en e) (d + 1 + 1) = (t, o) -> passes o ->
  run_task (S (S (S (S f)))) c (TEval en (CCall (CFunc [(x, None)] (CVar x)) [e] [] false tl)) d = (t, o).
Proof. exact rw_identity. Qed.

(* local x = e; x  is  e  in the environment extended by that very binding (the step from there
   to the bare environment, for x not free in e, is the coincidence goal) *)
Theorem C02_rw_local_name : forall f c en x e d t o,
  fits c d -> run_task f c (TEval (FVars [] [(x, e)] :: en) e) (d + 1) = (t, o) -> passes o ->
  run_task (S (S (S f))) c (TEval en (CLocal [(x, e)] (CVar x))) d = (t, o).
Proof. exact rw_local_name. Qed.

(* ---- a dead local binding is irrelevant: value, error AND trace, every fuel / limit / switch ---- *)
Theorem C02_builtin_sim : forall x e1 e2, builtin_sim_at x e1 e2.
Proof. exact builtin_sim. Qed.

Theorem C02_dead_local_core : forall x e1 e2 body,
  closed (rm x [s_std]) false body ->
  forall fuel c, run_core fuel c (CLocal [(x, e1)] body) = run_core fuel c (CLocal [(x, e2)] body).
Proof. exact dead_local_core_full. Qed.

Theorem C02_dead_local_irrelevant : forall sp xid e1 e2 body,
  id_value xid <> s_std ->
  StaticOK [s_std] false body ->
  forall fuel c, run fuel c (ELocal sp [MkBind xid None e1] body) = run fuel c (ELocal sp [MkBind xid None e2] body).
Proof. exact dead_local_irrelevant_full. Qed.

(* ---- coincidence for an unused extra frame, and  local x = e; x  ==  e  (bare) ---- *)
Theorem C02_extra_frame_invisible : forall x e body fuel c d,
  closed (rm x [s_std]) false body ->
  rrel (ans_rel x (dframe x e) [])
       (run_task fuel c (TEval (FVars [] [(x, e)] :: init_env) body) d)
       (run_task fuel c (TEval init_env body) d).
Proof. exact extra_frame_invisible. Qed.

Theorem C02_rw_local_name_bare : forall x e f c,
  closed (rm x [s_std]) false e -> fits c 0 ->
  settled (snd (run_top_at 1 e c (run_task f c))) ->
  run_core (S (S (S f))) c (CLocal [(x, e)] (CVar x)) = run_top_at 1 e c (run_task f c).
Proof. exact rw_local_name_bare. Qed.

Theorem C02_rw_local_name_source : forall sp sp2 xid e f c,
  id_value xid <> s_std -> StaticOK [s_std] false e -> fits c 0 ->
  settled (snd (run_top_at 1 (desugar e) c (run_task f c))) ->
  run (S (S (S f))) c (ELocal sp [MkBind xid None e] (EIdent sp2 xid)) = run_top_at 1 (desugar e) c (run_task f c).
Proof. exact rw_local_name_source. Qed.

(* depth-shift invariance: depth d+1 under limit L+1 is depth d under limit L *)
Theorem C02_depth_shift : forall c c' f t d, cfgs c c' -> run_task f c' t (d + 1) = run_task f c t d.
Proof. exact depth_shift. Qed.

(* local x = e; x  gives exactly the result of the program e (one more frame of stack, three more units of fuel) *)
Theorem C02_rw_local_name_full : forall x e f c c',
  cfgs c c' -> closed (rm x [s_std]) false e ->
  settled (snd (run_core f c e)) -> snd (run_core f c e) <> Err EStackOverflow ->
  run_core (S (S (S f))) c' (CLocal [(x, e)] (CVar x)) = run_core f c e.
Proof. exact rw_local_name_full. Qed.

(* ---- not proved (kept as goals): the two documented deviations of the implementation can only
        change WHICH error is reported, or turn an error into a value — never a value ---- *)
Definition C02_goal_comprehension_order : Prop := forall fuel lim ts e t j,
  run fuel {| c_limit := lim; c_bfs := false; c_ts_tail := ts |} e = (t, Ok j) ->
  exists fuel' t', run fuel' {| c_limit := lim; c_bfs := true; c_ts_tail := ts |} e = (t', Ok j).
Definition C02_goal_tailstrict_position : Prop := forall fuel lim b e t j,
  run fuel {| c_limit := lim; c_bfs := b; c_ts_tail := false |} e = (t, Ok j) ->
  exists fuel' lim' t', run fuel' {| c_limit := lim'; c_bfs := b; c_ts_tail := true |} e = (t', Ok j).

(* ---- non-vacuity: concrete programs through the kernel (vm_compute) ---- *)
Definition sp0 : span := (0, 0).
Definition idn (s : str) : ident := {| id_value := s; id_span := sp0 |}.
Definition num1 (d : N) : expr := ENumber sp0 {| num_digits := [d + 48]; num_exp := 0%Z |}.
Definition cfg0 : cfg := {| c_limit := 50; c_bfs := false; c_ts_tail := false |}.
(* { a: 1, b: self.a + 2 } *)
Definition prog_obj : expr :=
  EObject sp0 (OMembers [MField (FValue (FnIdent (idn [97])) false VisDefault (num1 1));
                         MField (FValue (FnIdent (idn [98])) false VisDefault
                                   (EBinary sp0 (EField sp0 (ESelf sp0) (idn [97])) BAdd (num1 2)))]).
(* local f(x, y = x) = [x, y]; f(1) != [1, 2] *)
Definition prog_call : expr :=
  ELocal sp0 [MkBind (idn [102]) (Some ([MkParam (idn [120]) None; MkParam (idn [121]) (Some (EIdent sp0 (idn [120])))], sp0))
                (EArray sp0 [EIdent sp0 (idn [120]); EIdent sp0 (idn [121])])]
    (EBinary sp0 (ECall sp0 (EIdent sp0 (idn [102])) [APositional (num1 1)] false) BNe (EArray sp0 [num1 1; num1 2])).
(* assert 1 == 2 : "m"; null *)
Definition prog_assert : expr :=
  EAssert sp0 (MkAssert sp0 (EBinary sp0 (num1 1) BEq (num1 2)) (Some (EString sp0 [109]))) (ENull sp0).
(* error "a" + 1 *)
Definition prog_error : expr := EError sp0 (EBinary sp0 (EString sp0 [97]) BAdd (num1 1)).
(* local x = x; x *)
Definition prog_loop : expr := ELocal sp0 [MkBind (idn [120]) None (EIdent sp0 (idn [120]))] (EIdent sp0 (idn [120])).

Example C02_nonvacuous :
  run 40 cfg0 prog_obj = ([], Ok (JObj [([97], JNum (f_of_Z 1)); ([98], JNum (f_of_Z 3))]))
  /\ run 40 cfg0 prog_call = ([], Ok (JBool true))
  /\ run 40 cfg0 prog_assert = ([], Err (EAssertFailed (Some [109])))
  /\ run 40 cfg0 prog_error = ([], Err (EExplicit [97; 49]))
  /\ run 200 cfg0 prog_loop = ([], Err EStackOverflow)
  /\ run 3 cfg0 prog_obj = ([], OutOfFuel)
  /\ evaluates cfg0 prog_obj ([], Ok (JObj [([97], JNum (f_of_Z 1)); ([98], JNum (f_of_Z 3))]))
  /\ fits cfg0 7
  /\ run_task 5 cfg0 (TEval init_env (CStr [97])) 8 = ([], Ok (AVal (VStr [97])))
  /\ run_task 5 cfg0 (TEval init_env (CBin BEq (CNum (f_of_Z 1)) (CNum (f_of_Z 2)))) 0 = ([], Ok (AVal (VBool false)))
  /\ bind_args [([120], None); ([121], Some (CVar [120]))] [Tv VNull] [] = Ok ([([120], Tv VNull)], [([121], CVar [120])])
  /\ NoDup (map fst [([120], @None cexpr); ([121], None)])
  /\ bind_positional [([120], @None cexpr); ([121], None)] [Tv VNull] = Some ([([120], Tv VNull)], [([121], None)])
  /\ (exists e, bind_args [([120], @None cexpr); ([121], None)] [Tv VNull] [([120], Tv VNull); ([121], Tv VNull)] = Err e).
Proof.
  split; [vm_compute; reflexivity|]. split; [vm_compute; reflexivity|]. split; [vm_compute; reflexivity|].
  split; [vm_compute; reflexivity|]. split; [vm_compute; reflexivity|]. split; [vm_compute; reflexivity|].
  split; [exists 40%nat; split; [vm_compute; reflexivity | vm_compute; discriminate]|].
  split; [vm_compute; reflexivity|]. split; [vm_compute; reflexivity|]. split; [vm_compute; reflexivity|].
  split; [vm_compute; reflexivity|].
  split; [repeat constructor; simpl; intuition discriminate|].
  split; [vm_compute; reflexivity|].
  eexists. vm_compute. reflexivity.
Qed.

(* the static rules accept the object program (self inside an object) and a use of std *)
Example C02_static_nonvacuous : StaticOK [s_std] false prog_obj /\ StaticOK [s_std] false (EIdent sp0 (idn s_std))
  /\ static_error (@pair (list str) (outcome json err) [] (Err (EStatic "UnknownVariable"))).
Proof.
  split; [|split].
  - unfold prog_obj. repeat (econstructor; simpl); intuition discriminate.
  - constructor. left. reflexivity.
  - eexists. reflexivity.
Qed.

Example C02_laws_nonvacuous :
  run_task 5 cfg0 (TEval init_env (CObject [] [] [])) 0 = ([], Ok (AVal (VObj [MkLayer [] [] [] init_env false] false)))
  /\ passes (Ok (AVal VNull)) /\ passes (Err (EExplicit [97])) /\ fits cfg0 0 /\ fits cfg0 (0 + 1)
  /\ run_task 5 cfg0 (TEval init_env (CNum (f_of_Z 1))) (0 + 1) = ([], Ok (AVal (VNum (f_of_Z 1))))
  /\ has_field [MkLayer [] [] [([103], MkField VisDefault false CNull None)] [] false] 0 [103] = true
  /\ l_fields (MkLayer [] [] [] init_env false) = [].
Proof.
  repeat split; try (vm_compute; reflexivity).
  - left. eexists. reflexivity.
  - right. eexists. reflexivity.
Qed.

Print Assumptions C02_refsem_deterministic.
Print Assumptions C02_fuel_monotone.
Print Assumptions C02_limit_monotone.
Print Assumptions C02_evaluates_functional.
Print Assumptions C02_ne_desugars.
Print Assumptions C02_objext_desugars.
Print Assumptions C02_if_no_else_desugars.
Print Assumptions C02_local_function_desugars.
Print Assumptions C02_field_function_desugars.
Print Assumptions C02_paren_transparent.
Print Assumptions C02_dollar_is_outermost_self.
Print Assumptions C02_desugar_eq_run.
Print Assumptions C02_ne_is_not_eq.
Print Assumptions C02_assert_is_if_error.
Print Assumptions C02_assert_true_transparent.
Print Assumptions C02_if_true.
Print Assumptions C02_if_false.
Print Assumptions C02_error_message_string.
Print Assumptions C02_error_message.
Print Assumptions C02_assert_message.
Print Assumptions C02_assert_no_message.
Print Assumptions C02_defaults_see_all_params.
Print Assumptions C02_named_positional_disjoint.
Print Assumptions C02_nonvacuous.
Print Assumptions C02_core_no_static_error.
Print Assumptions C02_static_ok_closed.
Print Assumptions C02_refeval_no_static_error.
Print Assumptions C02_static_nonvacuous.
Print Assumptions C02_plus_assoc.
Print Assumptions C02_plus_empty_l.
Print Assumptions C02_plus_empty_r.
Print Assumptions C02_override_wins.
Print Assumptions C02_inherited_field.
Print Assumptions C02_self_field_is_top_lookup.
Print Assumptions C02_self_is_final.
Print Assumptions C02_rw_array_proj.
Print Assumptions C02_rw_identity.
Print Assumptions C02_rw_local_name.
Print Assumptions C02_laws_nonvacuous.
Print Assumptions C02_builtin_sim.
Print Assumptions C02_dead_local_core.
Print Assumptions C02_dead_local_irrelevant.
Print Assumptions C02_extra_frame_invisible.
Print Assumptions C02_rw_local_name_bare.
Print Assumptions C02_rw_local_name_source.
Print Assumptions C02_depth_shift.
Print Assumptions C02_rw_local_name_full.
