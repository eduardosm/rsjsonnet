(* Props/C08.v — pinned statements for property C08: `==` is a structural equivalence and `<`
   a total order, mutually consistent.  Nothing but statements closed by [exact lemma] or a
   few lines from the lemmas of Proofs/, non-vacuity examples, and [Print Assumptions].

   Vocabulary (Proofs/Compare_proofs.v): [wf a] — the invariants of implementation values
   (finite numbers, well-formed strings, distinct field names), hereditarily; [to_json a = Some j] —
   a has the JSON value j (visible fields only, -0 = 0; no failing thunk, function or failing
   assert in a visible position); [has_ty t a] — a is a number / a string / an array of values of
   one ordered type.  A theorem that only assumes an *answer* of the model ([compare a b = Ok c],
   [op_lt a b = Ok true]) holds for every tree, failing leaves included. *)
From Coq Require Import Floats.SpecFloat.
From RJ Require Import Base.Outcome Base.F64 Model.Utf8Order Model.Compare
                       Proofs.Utf8Order_proofs Proofs.Compare_proofs.
Local Open Scope N_scope.

(* ---- strings: Rust compares UTF-8 bytes; that is the code-point order ---- *)
Theorem C08_utf8_order_is_cp_order : forall s t, str_ok s -> str_ok t ->
  lex_compare (utf8 s) (utf8 t) = lex_compare s t.
Proof. exact utf8_order_is_cp_order. Qed.

Theorem C08_str_compare_is_cp_order : forall s t, str_ok s -> str_ok t ->
  str_compare s t = lex_compare s t.
Proof. intros s t _ _. apply utf8_lex. Qed.

Theorem C08_str_eqb_is_eq : forall s t, str_ok s -> str_ok t -> (str_eqb s t = true <-> s = t).
Proof. intros s t _ _. apply str_eqb_is_eq. Qed.

(* ---- numbers: finite doubles are totally ordered, == is equality up to the sign of zero ---- *)
Theorem C08_f64_order_laws : forall x y z,
  f_is_finite x = true -> f_is_finite y = true -> f_is_finite z = true ->
  f_compare x x = Some Eq /\
  (exists c, f_compare x y = Some c) /\
  (forall c, f_compare x y = Some c -> f_compare y x = Some (CompOpp c)) /\
  (forall c1 c2 c3, f_compare x y = Some c1 -> f_compare y z = Some c2 -> ctrans c1 c2 = Some c3 ->
                    f_compare x z = Some c3) /\
  (f_compare x y = Some Eq <-> fnorm x = fnorm y).
Proof. exact f64_order_laws. Qed.

Theorem C08_f64_eqb_iff_same_json_number : forall x y,
  f_is_finite x = true -> f_is_finite y = true -> (f_eqb x y = true <-> fnorm x = fnorm y).
Proof. exact f64_eqb_iff. Qed.

(* the order of doubles is the order of their exact values (scaled by 2^1074 they are integers) *)
Theorem C08_f64_compare_is_value_order : forall a b,
  f_is_finite (f_of_bits a) = true -> f_is_finite (f_of_bits b) = true ->
  f_compare (f_of_bits a) (f_of_bits b) = Some (zval (f_of_bits a) ?= zval (f_of_bits b))%Z.
Proof. exact f_compare_bits_value. Qed.

(* ---- == on values that have a JSON value ---- *)
Theorem C08_equals_total : forall a b ja jb,
  wf a -> wf b -> to_json a = Some ja -> to_json b = Some jb -> exists r, equals a b = Ok r.
Proof. exact equals_total. Qed.

Theorem C08_equals_iff_same_json : forall a b ja jb,
  wf a -> wf b -> to_json a = Some ja -> to_json b = Some jb -> (equals a b = Ok true <-> ja = jb).
Proof. exact equals_iff_same_json. Qed.

Theorem C08_equals_refl : forall a ja, wf a -> to_json a = Some ja -> equals a a = Ok true.
Proof. exact equals_refl. Qed.

Theorem C08_equals_sym : forall a b ja jb,
  wf a -> wf b -> to_json a = Some ja -> to_json b = Some jb -> equals b a = equals a b.
Proof. exact equals_sym. Qed.

Theorem C08_equals_trans : forall a b c ja jb jc,
  wf a -> wf b -> wf c -> to_json a = Some ja -> to_json b = Some jb -> to_json c = Some jc ->
  equals a b = Ok true -> equals b c = Ok true -> equals a c = Ok true.
Proof. exact equals_trans. Qed.

(* == is transitive on ALL trees: two answers `true` suffice (hidden / unvisited parts may fail) *)
Theorem C08_equals_trans_lazy : forall a b c, wf a -> wf b -> wf c ->
  equals a b = Ok true -> equals b c = Ok true -> equals a c = Ok true.
Proof. intros a b c _. apply equals_trans_lazy. Qed.

Theorem C08_ne_is_negb_eq : forall a b, op_ne a b = omap negb (op_eq a b).
Proof. exact ne_is_negb_eq. Qed.

Theorem C08_std_equals_agrees : forall a b, std_equals a b = op_eq a b.
Proof. exact std_equals_agrees. Qed.

Theorem C08_primitive_equals_agrees : forall a b, is_prim a = true \/ is_prim b = true ->
  std_primitive_equals a b = op_eq a b.
Proof. exact primitive_equals_agrees. Qed.

Theorem C08_primitive_equals_non_primitive :
  (forall xs ys, std_primitive_equals (LArr xs) (LArr ys) = Err (EPrimEqNonPrimitive TyArray)) /\
  (forall a fa b fb, std_primitive_equals (LObj a fa) (LObj b fb) = Err (EPrimEqNonPrimitive TyObject)) /\
  (forall a b, is_fail a = false -> is_fail b = false -> ty_of a <> ty_of b -> std_primitive_equals a b = Ok false).
Proof. exact primitive_equals_non_primitive. Qed.

(* ---- the order ---- *)
Theorem C08_compare_total : forall t a b, has_ty t a -> has_ty t b -> exists c, compare a b = Ok c.
Proof. exact compare_total. Qed.

(* on numbers, strings and arrays of these exactly one of a < b, a == b, a > b holds *)
Theorem C08_compare_trichotomy : forall t a b, has_ty t a -> has_ty t b ->
  exists l e g, op_lt a b = Ok l /\ op_eq a b = Ok e /\ op_gt a b = Ok g /\ exactly_one l e g.
Proof. exact compare_trichotomy. Qed.

(* ... and whenever the order answers at all (any trees, lazily failing parts included) *)
Theorem C08_compare_trichotomy_gen : forall a b c, compare a b = Ok c ->
  op_lt a b = Ok (is_lt c) /\ op_eq a b = Ok (is_eqc c) /\ op_gt a b = Ok (is_gt c) /\
  exactly_one (is_lt c) (is_eqc c) (is_gt c).
Proof. exact compare_trichotomy_gen. Qed.

Theorem C08_compare_eq_iff_equals : forall a b c, compare a b = Ok c -> (c = Eq <-> equals a b = Ok true).
Proof. exact compare_eq_iff_equals. Qed.

Theorem C08_compare_antisym : forall a b r,
  (op_lt a b = Ok r -> op_gt b a = Ok r) /\ (op_gt a b = Ok r -> op_lt b a = Ok r) /\
  (op_le a b = Ok r -> op_ge b a = Ok r) /\ (op_ge a b = Ok r -> op_le b a = Ok r).
Proof. exact compare_antisym. Qed.

Theorem C08_compare_trans : forall a b c,
  op_lt a b = Ok true -> op_lt b c = Ok true -> op_lt a c = Ok true.
Proof. exact compare_trans. Qed.

Theorem C08_compare_le_trans : forall a b c,
  op_le a b = Ok true -> op_le b c = Ok true -> op_le a c = Ok true.
Proof. exact compare_le_trans. Qed.

(* general form: equal values can be exchanged on either side *)
Theorem C08_compare_trans_eq : forall a b c c1 c2 c3,
  compare a b = Ok c1 -> compare b c = Ok c2 -> ctrans c1 c2 = Some c3 -> compare a c = Ok c3.
Proof. exact compare_gtrans. Qed.

Theorem C08_le_ge_consistent : forall a b r, op_le a b = Ok r ->
  op_ge b a = Ok r /\ op_gt a b = Ok (negb r) /\
  exists l e, op_lt a b = Ok l /\ op_eq a b = Ok e /\ r = (l || e)%bool.
Proof. exact le_ge_consistent. Qed.

Theorem C08_compare_array_lex : forall xs ys,
  (compare (LArr xs) (LArr ys) = Ok Eq <-> Forall2 cmp_Eq xs ys) /\
  (compare (LArr xs) (LArr ys) = Ok Lt <-> lex_lt xs ys).
Proof. exact compare_array_lex. Qed.

Theorem C08_std_compare_agrees : forall a b,
  (forall z, std_compare a b = Ok z ->
     (z = (-1)%Z /\ op_lt a b = Ok true) \/ (z = 0%Z /\ op_eq a b = Ok true) \/ (z = 1%Z /\ op_gt a b = Ok true)) /\
  (forall e, op_lt a b = Err e -> std_compare a b = Err e) /\
  (forall r, op_lt a b = Ok r -> exists z, std_compare a b = Ok z).
Proof. exact std_compare_agrees. Qed.

Theorem C08_std_compare_array_agrees :
  (forall xs ys, std_compare_array (LArr xs) (LArr ys) = std_compare (LArr xs) (LArr ys)) /\
  (forall a b, is_fail a = false -> is_fail b = false -> is_arr a = false ->
     std_compare_array a b = Err (EInvalidArg 0 (ty_of a))) /\
  (forall a b, is_fail a = false -> is_fail b = false -> is_arr a = true -> is_arr b = false ->
     std_compare_array a b = Err (EInvalidArg 1 (ty_of b))).
Proof. exact std_compare_array_agrees. Qed.

(* null, booleans, objects, functions, mixed types: an error, never an answer *)
Theorem C08_compare_unordered_errors : forall a b,
  is_fail a = false -> is_fail b = false -> ordered_pair a b = false ->
  compare a b = Err (unordered_err a b).
Proof. exact compare_unordered_errors. Qed.

Theorem C08_equals_no_panic : forall a b, wf a -> wf b -> no_panic (equals a b).
Proof. intros a b _. apply equals_no_panic. Qed.

Theorem C08_compare_no_panic : forall a b, wf a -> wf b -> no_panic (compare a b).
Proof. exact compare_no_panic. Qed.

(* ---- laziness: nothing after the deciding position is forced ---- *)
Theorem C08_equals_early_exit : forall pa pb x y qa qb,
  Forall2 eq_true pa pb -> equals x y <> Ok true -> length qa = length qb ->
  equals (LArr (pa ++ x :: qa)) (LArr (pb ++ y :: qb)) = equals x y.
Proof. exact equals_early_exit. Qed.

Theorem C08_equals_length_first : forall xs ys,
  length xs <> length ys -> equals (LArr xs) (LArr ys) = Ok false.
Proof. exact equals_length_first. Qed.

Theorem C08_equals_object_early_exit : forall fa fb pa pb x y qa qb,
  NoDup (map fname fb) -> vis_names fa = vis_names fb ->
  vvals fa = pa ++ x :: qa -> vvals fb = pb ++ y :: qb ->
  Forall2 eq_true pa pb -> equals x y <> Ok true ->
  equals (LObj None fa) (LObj None fb) = equals x y.
Proof. exact equals_object_early_exit. Qed.

Theorem C08_equals_hidden_never_forced : forall g h aa fa ab fb, NoDup (map fname fb) ->
  equals (LObj aa (map_hidden g fa)) (LObj ab (map_hidden h fb)) = equals (LObj aa fa) (LObj ab fb).
Proof. exact equals_hidden_never_forced. Qed.

Theorem C08_compare_early_exit : forall pa pb x y qa qb,
  Forall2 cmp_Eq pa pb -> compare x y <> Ok Eq ->
  compare (LArr (pa ++ x :: qa)) (LArr (pb ++ y :: qb)) = compare x y.
Proof. exact compare_early_exit. Qed.

Theorem C08_compare_prefix_early_exit : forall pa pb y qb x qa, Forall2 cmp_Eq pa pb ->
  compare (LArr pa) (LArr (pb ++ y :: qb)) = Ok Lt /\ compare (LArr (pa ++ x :: qa)) (LArr pb) = Ok Gt.
Proof. exact compare_prefix_early_exit. Qed.

(* ---- non-vacuity ---- *)
Definition num (bits : N) : lval := LNum (f_of_bits bits).
Definition boom : lval := LFail (EUser [0x62; 0x6f; 0x6f; 0x6d]).

(* [-0, "～", {a: 1, b:: error}]  and  [0, "～", {a::: 1}] : same JSON value, == true both ways *)
Definition exA : lval :=
  LArr [num 0x8000000000000000; LStr [0xFF5E];
        LObj None [([0x61], VDefault, num 0x3ff0000000000000); ([0x62], VHidden, boom)]].
Definition exB : lval :=
  LArr [num 0; LStr [0xFF5E]; LObj None [([0x61], VForce, num 0x3ff0000000000000)]].
(* ["～", 1] < ["𐀀", 1, error] < ["𐀀", 2, 0]: code-point order (UTF-16 units would say >); the failing element is never forced *)
Definition exC : lval := LArr [LStr [0xFF5E]; num 0x3ff0000000000000].
Definition exD : lval := LArr [LStr [0x10000]; num 0x3ff0000000000000; boom].
Definition exE : lval := LArr [LStr [0x10000]; num 0x4000000000000000; num 0].

Ltac vc := vm_compute; reflexivity.
Ltac solve_wf :=
  repeat (first [ constructor | reflexivity | progress cbn | intros [H|H]; [discriminate H | revert H] | intros [] ]).

Example C08_nonvacuous :
  (* hypotheses of the == theorems *)
  wf exA /\ wf exB /\ (exists j, to_json exA = Some j /\ to_json exB = Some j) /\
  equals exA exB = Ok true /\ equals exB exA = Ok true /\ equals exA exC = Ok false /\
  (* hypotheses of the order theorems *)
  has_ty (TArr TStr) (LArr [LStr [0xFF5E]]) /\ has_ty (TArr TStr) (LArr [LStr [0x10000]; LStr []]) /\
  compare exC exD = Ok Lt /\ compare exD exE = Ok Lt /\ compare exC exE = Ok Lt /\
  op_le exC exD = Ok true /\ std_compare exD exC = Ok 1%Z /\
  compare (LArr [LNull]) (LArr [LNull]) = Err ECompareNull /\
  compare (num 0) (LStr []) = Err (ECompareDifferentTypes TyNumber TyString) /\
  (* early exit: [1, 2, error] vs [1, 3, error] *)
  Forall2 eq_true [num 0x3ff0000000000000] [num 0x3ff0000000000000] /\
  equals (num 0x4000000000000000) (num 0x4008000000000000) <> Ok true /\
  equals (LArr [num 0x3ff0000000000000; num 0x4000000000000000; boom])
         (LArr [num 0x3ff0000000000000; num 0x4008000000000000; boom]) = Ok false /\
  equals (LArr [boom]) (LArr [boom; boom]) = Ok false /\
  (* strings and numbers *)
  str_ok [0xFF5E; 0x10FFFF] /\ lex_compare (utf8 [0xFF5E]) (utf8 [0x10000]) = Lt /\
  f_compare (f_of_bits 0x8000000000000000) (f_of_bits 0) = Some Eq /\
  f_compare (f_of_bits 0x4340000000000000) (f_of_bits 0x4340000000000001) = Some Lt /\
  zval (f_of_bits 1) = 1%Z /\ f_is_finite (f_of_bits 0x7fefffffffffffff) = true /\
  (* == true twice with a failing hidden field in the middle value *)
  equals exB exA = Ok true /\ equals exA exB = Ok true.
Proof.
  split; [solve_wf|]. split; [solve_wf|].
  split; [eexists; split; vm_compute; reflexivity|].
  split; [vc|]. split; [vc|]. split; [vc|].
  split; [solve_wf|]. split; [solve_wf|].
  split; [vc|]. split; [vc|]. split; [vc|]. split; [vc|]. split; [vc|]. split; [vc|]. split; [vc|].
  split; [solve_wf|].
  split; [vm_compute; discriminate|].
  split; [vc|]. split; [vc|].
  split; [solve_wf|].
  split; [vc|]. split; [vc|]. split; [vc|]. split; [vc|]. split; [vc|]. split; [vc|]. vc.
Qed.

Print Assumptions C08_utf8_order_is_cp_order.
Print Assumptions C08_str_compare_is_cp_order.
Print Assumptions C08_str_eqb_is_eq.
Print Assumptions C08_f64_order_laws.
Print Assumptions C08_f64_eqb_iff_same_json_number.
Print Assumptions C08_f64_compare_is_value_order.
Print Assumptions C08_equals_total.
Print Assumptions C08_equals_iff_same_json.
Print Assumptions C08_equals_refl.
Print Assumptions C08_equals_sym.
Print Assumptions C08_equals_trans.
Print Assumptions C08_equals_trans_lazy.
Print Assumptions C08_ne_is_negb_eq.
Print Assumptions C08_std_equals_agrees.
Print Assumptions C08_primitive_equals_agrees.
Print Assumptions C08_primitive_equals_non_primitive.
Print Assumptions C08_compare_total.
Print Assumptions C08_compare_trichotomy.
Print Assumptions C08_compare_trichotomy_gen.
Print Assumptions C08_compare_eq_iff_equals.
Print Assumptions C08_compare_antisym.
Print Assumptions C08_compare_trans.
Print Assumptions C08_compare_le_trans.
Print Assumptions C08_compare_trans_eq.
Print Assumptions C08_le_ge_consistent.
Print Assumptions C08_compare_array_lex.
Print Assumptions C08_std_compare_agrees.
Print Assumptions C08_std_compare_array_agrees.
Print Assumptions C08_compare_unordered_errors.
Print Assumptions C08_equals_no_panic.
Print Assumptions C08_compare_no_panic.
Print Assumptions C08_equals_early_exit.
Print Assumptions C08_equals_length_first.
Print Assumptions C08_equals_object_early_exit.
Print Assumptions C08_equals_hidden_never_forced.
Print Assumptions C08_compare_early_exit.
Print Assumptions C08_compare_prefix_early_exit.
Print Assumptions C08_nonvacuous.
