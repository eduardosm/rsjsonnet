(* Props/C20.v — pinned statements for property C20 (parsing, encoding and hashing
   builtins compute the standard functions; each decoder inverts its encoder).
   Only statements closed by [exact lemma] or a few lines from the lemmas of Proofs/,
   non-vacuity Examples and [Print Assumptions]. *)
From RJ Require Import Base.Outcome Base.F64.
From RJ Require Import Model.Radix Proofs.Radix_float_proofs Proofs.Radix_proofs Proofs.Radix_long_proofs.
From Coq Require Import Reals.
From Flocq Require Import Core.Core IEEE754.BinarySingleNaN.
From RJ Require Model.Base64 Proofs.Base64_arith_proofs Proofs.Base64_proofs.
From RJ Require Model.Utf8Codec Proofs.Utf8Codec_proofs.
From RJ Require Model.JsonParse Proofs.JsonParse_proofs Proofs.JsonString_proofs Proofs.JsonRoundtrip_proofs.
From RJ Require Model.Esc Proofs.Esc_proofs.
From RJ Require Model.Hash Proofs.Hash_proofs.
Local Open Scope N_scope.

(* ======================= std.parseOctal / std.parseHex ======================= *)

(* no string makes parse_num_radix panic (the byte-slice panic of the snapshot is gone) *)
Theorem C20_radix_no_panic : forall radix s, radix_ok radix ->
  is_panic (parse_num_radix radix s) = false.
Proof. exact radix_no_panic. Qed.

(* "invalid digit c" is answered exactly when the string (after its leading zeros) has a
   character that is not a digit of the radix, and c is the first such character *)
Theorem C20_radix_invalid_digit_iff : forall radix s c, radix_ok radix -> s <> [] ->
  (parse_num_radix radix s = Err (RInvalidDigit c) <->
   exists pre post, trim_zeros s = pre ++ c :: post /\ Forall (valid radix) pre /\ to_digit radix c = None).
Proof. exact radix_invalid_digit_iff. Qed.

(* the exact path (at most 32 hexadecimal / 42 octal significant digits): the result is the
   nearest-even double of the integer the digits denote *)
Theorem C20_radix_value_exact : forall radix s, radix_ok radix -> s <> [] ->
  Forall (valid radix) (trim_zeros s) ->
  (length (trim_zeros s) <= N.to_nat (max_digits_128 radix))%nat ->
  parse_num_radix radix s = Ok (f_of_N (value radix (trim_zeros s))) /\
  value radix (trim_zeros s) < 2 ^ 128.
Proof. exact radix_value_exact. Qed.

Example C20_radix_nonvacuous :
  radix_ok 16 /\ [102; 70; 48] <> [] /\ Forall (valid 16) (trim_zeros [48; 102; 70; 48]) /\
  parse_num_radix 16 [48; 102; 70; 48] = Ok (f_of_bits 0x40afe00000000000) /\
  parse_num_radix 8 [55; 56] = Err (RInvalidDigit 56) /\
  parse_num_radix 16 (w_panic) = Err (RInvalidDigit 233).
Proof.
  split; [right; reflexivity|]. split; [discriminate|]. split.
  - repeat constructor; unfold valid; vm_compute; discriminate.
  - vm_compute. repeat split; reflexivity.
Qed.

(* the snapshot version of the function (kept as parse_num_radix_orig): both expected
   defects, as kernel-checked witnesses *)
Theorem C20_radix_orig_panic_refuted :
  exists s site, parse_num_radix_orig 16 s = Panic site.
Proof. exists w_panic. eexists. exact radix_orig_panics. Qed.

Theorem C20_radix_orig_long_refuted :
  exists s x, Forall (valid 16) s /\ parse_num_radix_orig 16 s = Ok x /\ x <> f_of_N (value 16 s).
Proof.
  exists w_tie, (f_of_bits 0x47f0000000000002). split; [|split].
  - repeat constructor; unfold valid; vm_compute; discriminate.
  - vm_compute. reflexivity.
  - vm_compute. discriminate.
Qed.

(* the repaired function on the same inputs *)
Example C20_radix_long_witness :
  parse_num_radix 16 w_tie = Ok (f_of_N (value 16 w_tie)) /\
  parse_num_radix 16 w_tie = Ok (f_of_bits 0x47f0000000000003).
Proof. vm_compute. split; reflexivity. Qed.

(* every length: the result is the nearest-even double of the integer the digits denote, or
   the overflow error when that double is not finite (the sticky bit of the repaired code) *)
Theorem C20_radix_long_is_rne : forall radix s, radix_ok radix -> s <> [] -> Forall (valid radix) s ->
  parse_num_radix radix s =
    (if f_is_finite (f_of_N (value radix s)) then Ok (f_of_N (value radix s)) else Err ROverflow).
Proof. exact radix_long_is_rne. Qed.

(* [f_of_N] is SpecFloat.binary_normalize: through Flocq it is the IEEE-754 round-to-nearest-even
   of the integer whenever that rounding is below 2^1024 *)
Theorem C20_f_of_Z_is_rne : forall z : Z,
  (Rabs (rne (IZR z)) < bpow radix2 1024)%R ->
  f_is_finite (f_of_Z z) = true /\ SF2R radix2 (f_of_Z z) = rne (IZR z).
Proof. exact f_of_Z_correct. Qed.

Example C20_radix_long_nonvacuous :
  radix_ok 16 /\ w_tie <> [] /\ Forall (valid 16) w_tie /\ length w_tie = 33%nat /\
  f_is_finite (f_of_N (value 16 w_tie)) = true /\
  parse_num_radix 16 (repeat 102 257) = Err ROverflow.
Proof.
  split; [right; reflexivity|]. split; [discriminate|]. split.
  - repeat constructor; unfold valid; vm_compute; discriminate.
  - vm_compute. repeat split; reflexivity.
Qed.

(* ================================ base64 ===================================== *)
Import Model.Base64 Proofs.Base64_arith_proofs Proofs.Base64_proofs.

Theorem C20_base64_decode_encode : forall bs, bytes bs -> b64_decode (b64_encode bs) = Ok bs.
Proof. exact decode_encode. Qed.

Theorem C20_base64_string_roundtrip : forall s r, base64_string s = Ok r -> base64_decode r = Ok s.
Proof. exact decode_encode_string. Qed.

(* the encoding is made of groups of four alphabet characters, the last one possibly ending
   in one or two '=' ; its length is 4 * ceil(n / 3) *)
Theorem C20_base64_alphabet_padding : forall bs, bytes bs ->
  wf_b64 (b64_encode bs) = true /\
  N.of_nat (length (b64_encode bs)) = 4 * ((N.of_nat (length bs) + 2) / 3).
Proof. intros bs H. split; [now apply encode_wf | apply encode_length]. Qed.

(* the decoder accepts exactly the well-formed strings, and blames the length exactly when
   it is not a multiple of four *)
Theorem C20_base64_rejects_exactly : forall s,
  is_ok (b64_decode s) = wf_b64 s /\
  (b64_decode s = Err BBadLength <-> (N.of_nat (length s)) mod 4 <> 0).
Proof. intros s. split; [apply decode_ok_iff_wf | apply decode_bad_length_iff]. Qed.

Example C20_base64_nonvacuous :
  bytes [104; 105; 255] /\ b64_encode [104; 105; 255] = [97; 71; 110; 47] /\
  b64_decode [97; 71; 107; 61] = Ok [104; 105] /\
  b64_decode [97; 71; 61; 107] = Err (BBadChar 61) /\ b64_decode [97; 71; 107] = Err BBadLength /\
  base64_string [104; 256] = Err BNotByteChar.
Proof. split; [repeat constructor|]. vm_compute. repeat split; reflexivity. Qed.

(* ============================ UTF-8 encode / decode ========================== *)
Import Model.Utf8Codec Proofs.Utf8Codec_proofs.

Theorem C20_utf8_decode_encode : forall s, scalars s -> decode_lossy (encode_utf8 s) = s.
Proof. exact Utf8Codec_proofs.decode_encode. Qed.

(* the encoder's output is well-formed UTF-8 (the strict decoder reads it back) made of bytes *)
Theorem C20_utf8_encode_valid : forall s, scalars s ->
  decode_strict (encode_utf8 s) = Some s /\ Forall (fun b => b < 256) (encode_utf8 s).
Proof. intros s H. split; [now apply encode_valid | now apply encode_bytes]. Qed.

(* decodeUTF8 is total, agrees with strict decoding wherever that is defined, and always
   yields scalar values (ill-formed parts become U+FFFD) *)
Theorem C20_decode_utf8_is_lossy : forall bs,
  (forall s, decode_strict bs = Some s -> decode_lossy bs = s) /\
  (Forall (fun b => b < 256) bs -> scalars (decode_lossy bs)).
Proof. intros bs. split; [intros s; apply decode_is_lossy | intros _; apply lossy_scalars]. Qed.

Example C20_utf8_nonvacuous :
  scalars [233; 26085; 128512; 65] /\
  encode_utf8 [233; 26085; 128512; 65] = [195; 169; 230; 151; 165; 240; 159; 152; 128; 65] /\
  decode_strict [237; 160; 128] = None /\ decode_lossy [237; 160; 128] = [65533; 65533; 65533] /\
  decode_lossy [240; 159; 152; 65] = [65533; 65].
Proof. split; [repeat constructor|]. vm_compute. repeat split; reflexivity. Qed.

(* ================================ std.parseJson =============================== *)
Import Model.JsonParse Proofs.JsonParse_proofs.

(* no successfully parsed value contains an object with a repeated key, and the step that
   would insert one answers RepeatedFieldName *)
Theorem C20_json_rejects_dup_keys :
  (forall s v, parse_json s = Ok v -> keys_nodup v) /\
  (forall lx st fields key v, has_key key fields = true ->
     unwind lx (SObj fields key :: st) v =
     UDone (Err {| je_line := lx_line lx; je_col := lx_col lx; je_kind := ERepeatedFieldName key |})).
Proof. split; [exact result_keys_nodup | exact rejects_dup_key_step]. Qed.

Theorem C20_json_rejects_control_chars : forall s1 c s2, Forall plain s1 -> c < 32 ->
  parse_json (34 :: s1 ++ c :: s2) =
  Err {| je_line := 0; je_col := 1 + N.of_nat (length s1); je_kind := EInvalidChrInString |}.
Proof. exact rejects_control_chars. Qed.

Theorem C20_json_rejects_leading_zero : forall d s, is_digit d = true ->
  parse_json (48 :: d :: s) = Err {| je_line := 0; je_col := 0; je_kind := EInvalidNumber |} /\
  parse_json (45 :: 48 :: d :: s) = Err {| je_line := 0; je_col := 0; je_kind := EInvalidNumber |}.
Proof. intros d s H. split; [now apply rejects_leading_zero | now apply rejects_leading_zero_neg]. Qed.

(* the parser succeeds only with the whole input consumed; anything left after the value
   (and the whitespace after it) is ExpectedEof *)
Theorem C20_json_rejects_trailing :
  (forall lx v, unwind lx [] v = UDone (Ok v) <-> lx_rem lx = []) /\
  (forall lx v c r, lx_rem lx = c :: r ->
     unwind lx [] v = UDone (Err {| je_line := lx_line lx; je_col := lx_col lx; je_kind := EExpectedEof |})) /\
  (forall c s, is_ws c = false ->
     exists line col, parse_json ([110; 117; 108; 108] ++ c :: s) =
                      Err {| je_line := line; je_col := col; je_kind := EExpectedEof |}).
Proof. split; [exact unwind_done_iff|]. split; [exact rejects_trailing_unwind | exact rejects_trailing_null]. Qed.

(* whitespace is exactly TAB, LF, CR, SPACE: skipping stops at every other character, and a
   document starting with a character that is neither whitespace nor the start of a value
   is rejected at line 0, column 0 *)
Theorem C20_json_ws_exact :
  (forall c r line col, lx_rem (skip_ws line col (c :: r)) = c :: r <-> is_ws c = false) /\
  (forall c s, is_ws c = false -> value_start c = false ->
     parse_json (c :: s) = Err {| je_line := 0; je_col := 0; je_kind := EExpectedValue |}).
Proof. split; [exact ws_exact | exact rejects_non_value_start]. Qed.

(* round trip of strings with the model's minimal printer (quote, backslash and C0 controls
   escaped, everything else raw): the lexer reads the printed string back, whatever follows *)
Theorem C20_json_string_roundtrip : forall s,
  parse_json (print_string s) = Ok (JStr s) /\
  (forall rest line col, exists col',
     lex_string {| lx_line := line; lx_col := col; lx_rem := print_string s ++ rest |} =
     Ok (Some (s, {| lx_line := line; lx_col := col'; lx_rem := rest |}))).
Proof. intros s. split; [apply JsonString_proofs.parse_print_string | apply JsonString_proofs.lex_string_print_string]. Qed.

(* round trip with the minimal printer: for every printable value (null, booleans, naturals
   given by their decimal digits, strings, arrays, objects with pairwise distinct keys, nested
   to any depth) the parser reads the printed text back as that value *)
Theorem C20_json_roundtrip : forall p, JsonRoundtrip_proofs.wf p ->
  parse_json (JsonRoundtrip_proofs.print p) = Ok (JsonRoundtrip_proofs.embed p).
Proof. exact JsonRoundtrip_proofs.parse_print. Qed.

(* and anything but whitespace after a complete document is rejected (ExpectedEof) *)
Theorem C20_json_rejects_trailing_any : forall p c t, JsonRoundtrip_proofs.wf p -> is_ws c = false ->
  JsonRoundtrip_proofs.follow_ok p (c :: t) ->
  exists line col, parse_json (JsonRoundtrip_proofs.print p ++ c :: t) =
                   Err {| je_line := line; je_col := col; je_kind := EExpectedEof |}.
Proof. exact JsonRoundtrip_proofs.parse_print_trailing. Qed.

Example C20_json_roundtrip_nonvacuous :
  let p := JsonRoundtrip_proofs.PObj
             [([97], JsonRoundtrip_proofs.PArr [JsonRoundtrip_proofs.PNat [49; 50]; JsonRoundtrip_proofs.PStr [34; 10; 233];
                                               JsonRoundtrip_proofs.PNull; JsonRoundtrip_proofs.PArr []]);
              ([98], JsonRoundtrip_proofs.PObj [([], JsonRoundtrip_proofs.PBool true)]);
              ([99], JsonRoundtrip_proofs.PNat [48])] in
  JsonRoundtrip_proofs.wf p /\
  JsonRoundtrip_proofs.print p =
    [123; 34; 97; 34; 58; 91; 49; 50; 44; 34; 92; 34; 92; 117; 48; 48; 48; 97; 233; 34; 44; 110; 117; 108; 108; 44; 91; 93; 93; 44;
     34; 98; 34; 58; 123; 34; 34; 58; 116; 114; 117; 101; 125; 44; 34; 99; 34; 58; 48; 125] /\
  JsonRoundtrip_proofs.follow_ok p [120].
Proof.
  cbv zeta. split; [|split; [vm_compute; reflexivity|exact I]].
  cbn [JsonRoundtrip_proofs.wf map fst]. split.
  - repeat constructor; cbn; intuition discriminate.
  - repeat split; try (left; reflexivity); try (vm_compute; reflexivity).
    + right. exists 49, [50]. split; [reflexivity|]. split; [reflexivity|]. repeat constructor.
    + repeat constructor. intros [].
Qed.

Example C20_json_nonvacuous :
  (* {"a":1,"a":2} *)
  parse_json [123; 34; 97; 34; 58; 49; 44; 34; 97; 34; 58; 50; 125] =
    Err {| je_line := 0; je_col := 12; je_kind := ERepeatedFieldName [97] |} /\
  (* {"a":[1,"x"]} parses and has distinct keys *)
  (exists v, parse_json [123; 34; 97; 34; 58; 91; 49; 44; 34; 120; 34; 93; 125] = Ok v /\ keys_nodup v) /\
  Forall plain [97; 233] /\ is_digit 55 = true /\
  is_ws 160 = false /\ value_start 160 = false /\ is_ws 11 = false /\ value_start 65279 = false /\
  parse_json [110; 117; 108; 108; 32; 10] = Ok JNull.
Proof.
  split; [vm_compute; reflexivity|]. split.
  - eexists. split; [vm_compute; reflexivity|]. cbn. repeat split; repeat constructor; cbn; intuition discriminate.
  - split; [repeat constructor; cbv; intuition discriminate|]. vm_compute. repeat split; reflexivity.
Qed.

(* ================================ escapers ===================================== *)
Import Model.Esc Proofs.Esc_proofs.

(* a POSIX shell reads std.escapeStringBash(s) back as s *)
Theorem C20_bash_unescape_escape : forall s, bash_unquote 0 (escape_bash s) = Some s.
Proof. exact bash_unescape_escape. Qed.

(* no less-than, greater-than, double quote or apostrophe survives, and decoding the five predefined entities gives the input back *)
Theorem C20_xml_escape_no_specials : forall s,
  forallb (fun c => negb (xml_special c)) (escape_xml s) = true /\
  xml_unescape (length (escape_xml s)) (escape_xml s) = s.
Proof. intros s. split; [apply xml_escape_no_specials | apply xml_unescape_escape; apply le_n]. Qed.

Theorem C20_dollars_doubling : forall s,
  undouble (escape_dollars s) = s /\
  count 36 (escape_dollars s) = (2 * count 36 s)%nat /\
  length (escape_dollars s) = (length s + count 36 s)%nat /\
  (forall x, x <> 36 -> count x (escape_dollars s) = count x s).
Proof. intros s. split; [apply dollars_undouble | apply dollars_doubling]. Qed.

(* std.parseJson(std.escapeStringJson(s)) = s, for the escaper with the C0 range of the current
   source (0x1F; the check verifies on every run that the source still has that range) *)
Theorem C20_parse_escape_json : forall s, JsonParse.parse_json (escape_json 31 s) = Ok (JsonParse.JStr s).
Proof. exact JsonString_proofs.parse_escape_json. Qed.

(* with the snapshot's range (0x19) the property failed: U+001A is emitted raw and rejected *)
Theorem C20_escape_json_0x19_refuted : exists s e,
  JsonParse.parse_json (escape_json 25 s) = Err e.
Proof. exists [26]. eexists. exact JsonString_proofs.escape_json_0x19_refuted. Qed.

Example C20_esc_nonvacuous :
  escape_bash [97; 39; 98] = [39; 97; 39; 34; 39; 34; 39; 98; 39] /\
  escape_xml [60; 38; 39] = [38; 108; 116; 59; 38; 97; 109; 112; 59; 38; 97; 112; 111; 115; 59] /\
  escape_dollars [36; 97; 36] = [36; 36; 97; 36; 36] /\
  escape_json 31 [26; 34; 233] = [34; 92; 117; 48; 48; 49; 97; 92; 34; 233; 34].
Proof. vm_compute. repeat split; reflexivity. Qed.

(* ================================ digests ======================================= *)
(* executable specifications written from RFC 1321 / FIPS 180-4 / FIPS 202 (Model/Hash.v), not
   models of the external crates: they reproduce the standards' test vectors (and the padding
   boundary lengths), pad to a block boundary, and give digests of the standard length; the
   implementation is compared with them on every run through the correspondence check *)
Theorem C20_hash_vectors :
  Hash.be_word (Hash.md5 Hash_proofs.abc) = 0x900150983cd24fb0d6963f7d28e17f72 /\
  Hash.be_word (Hash.sha1 Hash_proofs.abc) = 0xa9993e364706816aba3e25717850c26c9cd0d89d /\
  Hash.be_word (Hash.sha256 Hash_proofs.abc) = 0xba7816bf8f01cfea414140de5dae2223b00361a396177a9cb410ff61f20015ad /\
  Hash.be_word (Hash.sha512 Hash_proofs.abc) =
    0xddaf35a193617abacc417349ae20413112e6fa4e89a97ea20a9eeee64b55d39a2192992a274fc1a836ba3c23a3feebbd454d4423643ce80e2a9ac94fa54ca49f /\
  Hash.be_word (Hash.sha3_512 Hash_proofs.abc) =
    0xb751850b1a57168a5693cd924b6b096e08f621827444f70d884f5d0240d2712e10e116e9192af3c91a7ec57647e3934057340b4cf408d5a56592f8274eec53f0.
Proof.
  split; [exact (proj1 (proj2 Hash_proofs.md5_vectors))|].
  split; [exact (proj1 (proj2 Hash_proofs.sha1_vectors))|].
  split; [exact (proj1 (proj2 Hash_proofs.sha256_vectors))|].
  split; [exact (proj1 (proj2 Hash_proofs.sha512_vectors))|].
  exact (proj1 (proj2 Hash_proofs.sha3_512_vectors)).
Qed.

Theorem C20_hash_pad_length : forall block lenbytes be msg, (0 < block)%nat ->
  (length (Hash.md_pad block lenbytes be msg) mod block = 0)%nat /\
  (length msg + 1 + lenbytes <= length (Hash.md_pad block lenbytes be msg))%nat.
Proof. exact Hash_proofs.md_pad_length. Qed.

Theorem C20_hash_output_length : forall s,
  length (Hash.std_md5 s) = 32%nat /\ length (Hash.std_sha1 s) = 40%nat /\ length (Hash.std_sha256 s) = 64%nat /\
  length (Hash.std_sha512 s) = 128%nat /\ length (Hash.std_sha3 s) = 128%nat.
Proof. exact Hash_proofs.std_hash_lengths. Qed.

Print Assumptions C20_radix_no_panic.
Print Assumptions C20_radix_invalid_digit_iff.
Print Assumptions C20_radix_value_exact.
Print Assumptions C20_radix_nonvacuous.
Print Assumptions C20_radix_orig_panic_refuted.
Print Assumptions C20_radix_orig_long_refuted.
Print Assumptions C20_radix_long_witness.
Print Assumptions C20_radix_long_is_rne.
Print Assumptions C20_f_of_Z_is_rne.
Print Assumptions C20_radix_long_nonvacuous.
Print Assumptions C20_base64_decode_encode.
Print Assumptions C20_base64_string_roundtrip.
Print Assumptions C20_base64_alphabet_padding.
Print Assumptions C20_base64_rejects_exactly.
Print Assumptions C20_base64_nonvacuous.
Print Assumptions C20_utf8_decode_encode.
Print Assumptions C20_utf8_encode_valid.
Print Assumptions C20_decode_utf8_is_lossy.
Print Assumptions C20_utf8_nonvacuous.
Print Assumptions C20_json_rejects_dup_keys.
Print Assumptions C20_json_rejects_control_chars.
Print Assumptions C20_json_rejects_leading_zero.
Print Assumptions C20_json_rejects_trailing.
Print Assumptions C20_json_ws_exact.
Print Assumptions C20_json_string_roundtrip.
Print Assumptions C20_json_roundtrip.
Print Assumptions C20_json_rejects_trailing_any.
Print Assumptions C20_json_roundtrip_nonvacuous.
Print Assumptions C20_json_nonvacuous.
Print Assumptions C20_bash_unescape_escape.
Print Assumptions C20_xml_escape_no_specials.
Print Assumptions C20_dollars_doubling.
Print Assumptions C20_parse_escape_json.
Print Assumptions C20_escape_json_0x19_refuted.
Print Assumptions C20_esc_nonvacuous.
Print Assumptions C20_hash_vectors.
Print Assumptions C20_hash_pad_length.
Print Assumptions C20_hash_output_length.
