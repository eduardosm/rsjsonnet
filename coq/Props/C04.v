(* Props/C04.v — pinned statements for property C04 (evaluation is call-by-need:
   unused parts never run, used parts run once; meaning-preserving rewrites leave
   value, error message and std.trace output unchanged).

   The rewrite laws are equalities of [run_in fe fc fm r e]: the complete observable
   outcome of a run (list of std.trace messages in order, and the manifested JSON tree
   or the error / panic site / OutOfFuel) of the call-by-name evaluator of the lazy core
   fragment (Model/LazyCore.v), for ARBITRARY expressions and environments.  [fe] is the
   fuel of the evaluation, [fc] of each closure forced during manifestation, [fm] the
   nesting bound of manifestation; a law "S (S fe) on the left, fe on the right" says the
   redex costs exactly two more levels of fuel and is otherwise indistinguishable
   (in particular: the left side has a proper result iff the right side has, and then
   the same one).
   The machine theorems are about Model/Memo.v (ThunkData::switch_state / set_done,
   State::DoThunk / GotThunk).  This file contains only statements closed by
   [exact lemma] or in a few lines from the lemmas of Proofs/, non-vacuity examples,
   and Print Assumptions. *)
From RJ Require Import Base.Outcome Model.LazyCore Model.Memo Proofs.LazyCore_proofs Proofs.Memo_proofs.

(* coincidence / weakening: evaluation ignores every binding that is not free in the
   expression — environments that give the same closures to the free variables (and the
   same self, if self is mentioned) are indistinguishable *)
Theorem C04_coincidence : forall fe fc fm r1 r2 e,
  (forall x, fvb x e = true -> lookup x r1 = lookup x r2) ->
  (selfb e = true -> self_of r1 = self_of r2) ->
  run_in fe fc fm r1 e = run_in fe fc fm r2 e.
Proof. intros. apply coincidence. split; assumption. Qed.

(* local x = e; x  ==  e *)
Theorem C04_rw_local_name : forall fe fc fm r x e, fvb x e = false ->
  run_in (S (S fe)) fc fm r (ELocal [(x, e)] (EVar x)) = run_in fe fc fm r e.
Proof. exact rw_local_name. Qed.

(* the fuel offset is bookkeeping: both sides have the same proper results *)
Theorem C04_rw_local_name_results : forall fc fm r x e res, fvb x e = false -> snd res <> OutOfFuel ->
  ((exists fe, run_in fe fc fm r (ELocal [(x, e)] (EVar x)) = res) <->
   (exists fe, run_in fe fc fm r e = res)).
Proof. exact rw_local_name_results. Qed.

(* (function(x) x)(e)  ==  e *)
Theorem C04_rw_identity : forall fe fc fm r x e,
  run_in (S (S fe)) fc fm r (ECall (EFunc [(x, None)] (EVar x)) [e]) = run_in fe fc fm r e.
Proof. exact rw_identity. Qed.

(* [e][0]  ==  e *)
Theorem C04_rw_array_proj : forall fe fc fm r e,
  run_in (S (S fe)) fc fm r (EIndex (EArr [e]) (ENum 0)) = run_in (S fe) fc fm r e.
Proof. exact rw_array_proj. Qed.

(* {f: e}.f  ==  e   when e does not mention self (h: the field may be hidden or not) *)
Theorem C04_rw_object_proj : forall fe fc fm r f h e, selfb e = false ->
  run_in (S (S fe)) fc fm r (EField (EObj [(f, (h, e))]) f) = run_in (S fe) fc fm r e.
Proof. exact rw_object_proj. Qed.

(* local x = e0; body  ==  body   when x is not free in body *)
Theorem C04_rw_dead_local : forall fe fc fm r x e0 body, fvb x body = false ->
  run_in (S fe) fc fm r (ELocal [(x, e0)] body) = run_in fe fc fm r body.
Proof. exact rw_dead_local. Qed.

(* a dead bind added anywhere inside an existing, mutually recursive local *)
Theorem C04_rw_dead_bind : forall fe fc fm r bs1 bs2 x e0 body,
  (forall y ey, In (y, ey) (bs1 ++ bs2) -> fvb x ey = false) -> fvb x body = false ->
  run_in fe fc fm r (ELocal (bs1 ++ (x, e0) :: bs2) body) = run_in fe fc fm r (ELocal (bs1 ++ bs2) body).
Proof. exact rw_dead_bind. Qed.

(* a dead hidden field d added to an object that is then used by arbitrary code:
   nothing anywhere (body, the other fields, the closures of the environment) accesses .d *)
Theorem C04_rw_dead_field : forall fe fc fm r d fs1 fs2 e0 o body,
  env_nofld d r = true ->
  forallb (fun f : field => nofld d (snd (snd f))) (fs1 ++ (d, (true, e0)) :: fs2) = true ->
  nofld d body = true ->
  run_in fe fc fm r (ELocal [(o, EObj (fs1 ++ (d, (true, e0)) :: fs2))] body) =
  run_in fe fc fm r (ELocal [(o, EObj (fs1 ++ fs2))] body).
Proof. exact rw_dead_field. Qed.

(* ... and when the object is the value that gets manifested *)
Theorem C04_rw_dead_field_value : forall fe fc fm r d fs1 fs2 e0,
  env_nofld d r = true ->
  forallb (fun f : field => nofld d (snd (snd f))) (fs1 ++ (d, (true, e0)) :: fs2) = true ->
  run_in fe fc fm r (EObj (fs1 ++ (d, (true, e0)) :: fs2)) = run_in fe fc fm r (EObj (fs1 ++ fs2)).
Proof.
  intros fe fc fm r d fs1 fs2 e0 Hr Hfs. destruct (dead_field_sim d fs1 fs2 e0 Hfs) as (Es & O1 & O2).
  apply (run_rel_eq (Some d)). apply trelw_intro; [exact Es|exact O1|exact O2|].
  intros k. split; [intros y _; apply lookup_refl; exact Hr|intros _; apply self_refl; exact Hr].
Qed.

(* a dead optional parameter added to a function that is applied *)
Theorem C04_rw_dead_param : forall fe fc fm r ps p e0 body args,
  length args <= length ps -> fvb p body = false ->
  (forall q dq, In (q, Some dq) ps -> fvb p dq = false) ->
  run_in fe fc fm r (ECall (EFunc (ps ++ [(p, Some e0)]) body) args) =
  run_in fe fc fm r (ECall (EFunc ps body) args).
Proof. exact rw_dead_param. Qed.

(* dead-code irrelevance: what an unused binding is bound to cannot change the outcome *)
Theorem C04_dead_code_irrelevance : forall fe fc fm r x e1 e2 body, fvb x body = false ->
  run_in fe fc fm r (ELocal [(x, e1)] body) = run_in fe fc fm r (ELocal [(x, e2)] body).
Proof.
  intros fe fc fm r x e1 e2 body H. destruct fe as [|fe]; [reflexivity|].
  rewrite !rw_dead_local by exact H. reflexivity.
Qed.

Theorem C04_dead_bind_irrelevance : forall fe fc fm r bs1 bs2 x e1 e2 body,
  (forall y ey, In (y, ey) (bs1 ++ bs2) -> fvb x ey = false) -> fvb x body = false ->
  run_in fe fc fm r (ELocal (bs1 ++ (x, e1) :: bs2) body) =
  run_in fe fc fm r (ELocal (bs1 ++ (x, e2) :: bs2) body).
Proof. intros. rewrite !rw_dead_bind by assumption. reflexivity. Qed.

(* in particular a failing expression in a dead position cannot change the outcome *)
Theorem C04_error_in_dead_code : forall fe fc fm r x e msg body, fvb x body = false ->
  run_in fe fc fm r (ELocal [(x, EError (EStr msg))] body) = run_in fe fc fm r (ELocal [(x, e)] body).
Proof. intros. apply C04_dead_code_irrelevance. assumption. Qed.

(* ---- the thunk machine *)

(* in every trace of the machine, from every state, each thunk is Run at most once *)
Theorem C04_run_once : forall (V : Type) (m : mstate V) (es : list (event V)) (id : nat),
  count_run V id (snd (exec V m es)) <= 1.
Proof. exact run_once. Qed.

(* a Done cell stays Done with the same value whatever happens next, and answers a
   DoThunk without running anything and without changing the machine *)
Theorem C04_done_is_stable : forall (V : Type) (es : list (event V)) (m : mstate V) id v,
  nth_error (cells V m) id = Some (Done v) ->
  nth_error (cells V (fst (exec V m es))) id = Some (Done v) /\
  (halted V m = false -> step V m (EvForce id) = (m, OHit id v)).
Proof.
  intros V es m id v H. split.
  - exact (done_is_stable V es m id v H).
  - intros Hh. exact (done_answers_without_run V m id v Hh H).
Qed.

(* no transition leads back to Pending *)
Theorem C04_never_back_to_pending : forall (V : Type) (es : list (event V)) (m : mstate V) id,
  nth_error (cells V m) id = Some InProgress \/ (exists v, nth_error (cells V m) id = Some (Done v)) ->
  nth_error (cells V (fst (exec V m es))) id <> Some Pending /\
  count_run V id (snd (exec V m es)) = 0.
Proof.
  intros V es m id H. split.
  - exact (proj1 (never_back_to_pending V es m id H)).
  - exact (started_never_reruns V m es id H).
Qed.

(* the assert in ThunkData::set_done cannot fire in any run started from the empty machine *)
Theorem C04_set_done_assert_never_fires : forall (V : Type) (es : list (event V)),
  ~ In OPanic (snd (exec V init es)).
Proof. intros V es. apply set_done_assert_never_fires. apply inv_init. Qed.

(* re-entering a thunk under evaluation is reported (InfiniteRecursion) and ends the run *)
Theorem C04_inprogress_reentry_fails : forall (V : Type) (m : mstate V) id,
  halted V m = false -> nth_error (cells V m) id = Some InProgress ->
  snd (step V m (EvForce id)) = OCycle id /\ halted V (fst (step V m (EvForce id))) = true.
Proof. exact inprogress_reentry_fails. Qed.

(* ---- laziness monotonicity: a binding (local, or function argument) that may be free in
   the body but is never demanded in this run can be replaced by anything (a failing
   expression in particular).  Demand is observed by the marker [e1][std.trace(m, 0)],
   which emits m strictly before e1 is evaluated: if m is absent from the trace output of
   a run that did not run out of fuel, rebinding x to any e2 gives exactly the same run. *)
Theorem C04_laziness_monotone : forall fe fc fm r x e1 e2 body m,
  let res := run_in fe fc fm r (ELocal [(x, EIndex (EArr [e1]) (ETrace (EStr m) (ENum 0)))] body) in
  ~ In m (fst res) -> snd res <> OutOfFuel ->
  run_in fe fc fm r (ELocal [(x, e2)] body) = res.
Proof. exact laziness_monotone. Qed.

Theorem C04_laziness_monotone_arg : forall fe fc fm r x e1 e2 body m,
  let res := run_in fe fc fm r (ECall (EFunc [(x, None)] body) [EIndex (EArr [e1]) (ETrace (EStr m) (ENum 0))]) in
  ~ In m (fst res) -> snd res <> OutOfFuel ->
  run_in fe fc fm r (ECall (EFunc [(x, None)] body) [e2]) = res.
Proof. exact laziness_monotone_arg. Qed.

(* ... and for an array item that is never demanded (the array is bound by a local and used
   by arbitrary code) *)
Theorem C04_laziness_monotone_item : forall fe fc fm r x es1 es2 e1 e2 body m,
  let res := run_in fe fc fm r
               (ELocal [(x, EArr (es1 ++ EIndex (EArr [e1]) (ETrace (EStr m) (ENum 0)) :: es2))] body) in
  ~ In m (fst res) -> snd res <> OutOfFuel ->
  run_in fe fc fm r (ELocal [(x, EArr (es1 ++ e2 :: es2))] body) = res.
Proof. exact laziness_monotone_item. Qed.

(* not proved: the same statement for an arbitrary subterm position (object field, nested
   contexts); the implementation-only search checks it at every binding position *)
Definition C04_goal_laziness_monotone_any_context : Prop :=
  forall fe fc fm r c e1 e2 m,
    let res := run_in fe fc fm r (plug c (EIndex (EArr [e1]) (ETrace (EStr m) (ENum 0)))) in
    ~ In m (fst res) -> snd res <> OutOfFuel ->
    run_in fe fc fm r (plug c e2) = res.

(* ---- non-vacuity *)
Local Open Scope N_scope.

Definition nx : name := [120].            (* "x" *)
Definition nf : name := [102].            (* "f" *)
Definition nd : name := [100].            (* "d" *)
Definition msg_t : str := [116].          (* "t" *)
Definition traced_sum : expr := ETrace (EStr msg_t) (EAdd (ENum 1) (ENum 2)).

(* every law has instances whose sides are proper results (a trace and a value / a user
   error), and the dead positions hold failing expressions *)
Example C04_nonvacuous_rewrites :
  fvb nx traced_sum = false /\ selfb traced_sum = false /\
  run_in 12 12 12 RNil (ELocal [(nx, traced_sum)] (EVar nx)) = ([msg_t], Ok (JNum 3)) /\
  run_in 12 12 12 RNil (ECall (EFunc [(nx, None)] (EVar nx)) [traced_sum]) = ([msg_t], Ok (JNum 3)) /\
  run_in 12 12 12 RNil (EIndex (EArr [traced_sum]) (ENum 0)) = ([msg_t], Ok (JNum 3)) /\
  run_in 12 12 12 RNil (EField (EObj [(nf, (false, traced_sum))]) nf) = ([msg_t], Ok (JNum 3)) /\
  run_in 12 12 12 RNil (ELocal [(nx, EError (EStr msg_t))] traced_sum) = ([msg_t], Ok (JNum 3)) /\
  run_in 12 12 12 RNil (ELocal [(nx, EObj ([(nf, (false, traced_sum))] ++ (nd, (true, EError (EStr msg_t))) :: []))] (EVar nx))
    = ([msg_t], Ok (JObj [(nf, JNum 3)])) /\
  run_in 12 12 12 RNil (ECall (EFunc ([(nf, None)] ++ [(nx, Some (EError (EStr msg_t)))]) (EVar nf)) [traced_sum])
    = ([msg_t], Ok (JNum 3)) /\
  run_in 12 12 12 RNil (ELocal [(nx, traced_sum)] (EError (EAdd (EStr msg_t) (EVar nx))))
    = ([msg_t], Err (ExplicitError [116; 51])) /\
  (* call-by-name re-evaluates: the same binding used twice traces twice in the model *)
  fst (run_in 12 12 12 RNil (ELocal [(nx, traced_sum)] (EAdd (EVar nx) (EVar nx)))) = [msg_t; msg_t].
Proof. vm_compute. repeat split. Qed.

(* laziness monotonicity is not vacuous: x is free in the body (in the untaken branch), the
   marker does not fire, the run has a proper result; and when x is demanded the marker fires *)
Example C04_nonvacuous_laziness :
  let mk : str := [109] in
  let body := EIf (EEq (ENum 1) (ENum 1)) traced_sum (EVar nx) in
  fvb nx body = true /\
  run_in 12 12 12 RNil (ELocal [(nx, EIndex (EArr [EError (EStr msg_t)]) (ETrace (EStr mk) (ENum 0)))] body)
    = ([msg_t], Ok (JNum 3)) /\
  fst (run_in 12 12 12 RNil (ELocal [(nx, EIndex (EArr [EError (EStr msg_t)]) (ETrace (EStr mk) (ENum 0)))] (EVar nx)))
    = [mk] /\
  (* an array whose second item is never demanded *)
  run_in 12 12 12 RNil
    (ELocal [(nx, EArr ([traced_sum] ++ EIndex (EArr [EError (EStr msg_t)]) (ETrace (EStr mk) (ENum 0)) :: []))]
            (EIndex (EVar nx) (ENum 0)))
    = ([msg_t], Ok (JNum 3)).
Proof. vm_compute. repeat split. Qed.

Example C04_nonvacuous_machine :
  snd (exec nat init [EvAlloc Pending; EvAlloc Pending;
                      EvForce 0; EvForce 1; EvReturn 21%nat; EvForce 1; EvReturn 42%nat; EvForce 0; EvForce 1])
  = [OAlloc 0; OAlloc 1; ORun 0; ORun 1; OStored 1 21%nat; OHit 1 21%nat; OStored 0 42%nat; OHit 0 42%nat; OHit 1 21%nat]
  /\ snd (exec nat init [EvAlloc Pending; EvForce 0; EvForce 0]) = [OAlloc 0; ORun 0; OCycle 0].
Proof. vm_compute. split; reflexivity. Qed.

Print Assumptions C04_coincidence.
Print Assumptions C04_rw_local_name.
Print Assumptions C04_rw_local_name_results.
Print Assumptions C04_rw_identity.
Print Assumptions C04_rw_array_proj.
Print Assumptions C04_rw_object_proj.
Print Assumptions C04_rw_dead_local.
Print Assumptions C04_rw_dead_bind.
Print Assumptions C04_rw_dead_field.
Print Assumptions C04_rw_dead_field_value.
Print Assumptions C04_rw_dead_param.
Print Assumptions C04_dead_code_irrelevance.
Print Assumptions C04_dead_bind_irrelevance.
Print Assumptions C04_error_in_dead_code.
Print Assumptions C04_run_once.
Print Assumptions C04_done_is_stable.
Print Assumptions C04_never_back_to_pending.
Print Assumptions C04_set_done_assert_never_fires.
Print Assumptions C04_inprogress_reentry_fails.
Print Assumptions C04_laziness_monotone.
Print Assumptions C04_laziness_monotone_arg.
Print Assumptions C04_laziness_monotone_item.
Print Assumptions C04_nonvacuous_rewrites.
Print Assumptions C04_nonvacuous_laziness.
Print Assumptions C04_nonvacuous_machine.
