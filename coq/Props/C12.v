(* Props/C12.v — pinned statements for property C12 (the command-line tool's exit
   status, streams and output modes form one contract).  [run] is the model of
   main.rs as it stands ([run_gen CODE_FLUSHES]); statements closed by [exact lemma] or in
   a few lines from the lemmas of Proofs/Cli_proofs.v, non-vacuity Examples, and
   [Print Assumptions]. *)
From RJ Require Import Base.Outcome Model.Cli Proofs.Cli_proofs Gen.CliConsts.
From Coq Require Import Permutation.
Local Open Scope N_scope.

(* T: the constants found in the current main.rs / cli.rs (exit status mapping, the checked
   flush of stdout, the YAML stream literals, the virtual file names, the order in which the
   variable arguments are processed, splitting at the first '=') are the ones the model uses *)
Theorem C12_source_constants :
  src_exit_generic = r_exit (fail_result []) /\ src_exit_usage = r_exit usage_result /\
  src_flushes = CODE_FLUSHES /\
  src_yaml_sep = s_dashes /\ src_yaml_item_end = [NL] /\ src_yaml_end = s_dots /\ src_yaml_end_nl = s_dots ++ [NL] /\
  src_cmdline = s_cmdline /\ src_stdin = s_stdin /\ src_ext_prefix = lit_ext /\ src_tla_prefix = lit_tla /\
  src_var_order = [0; 1; 2; 3; 4; 5; 6; 7] /\ src_split_first = true.
Proof. repeat split; reflexivity. Qed.

(* the exit status is 0, 1 or 2 — in particular no panic site of the glue is reachable *)
Theorem C12_cli_exit_in_012 : forall c w,
  r_exit (run c w) = 0 \/ r_exit (run c w) = 1 \/ r_exit (run c w) = 2.
Proof. intros c w. exact (cli_exit_in_012 CODE_FLUSHES c w). Qed.

Theorem C12_no_panic : forall c w, r_exit (run c w) <> 134.
Proof. intros c w. destruct (C12_cli_exit_in_012 c w) as [H|[H|H]]; rewrite H; discriminate. Qed.

(* exit 2 exactly for usage errors (clap's verdict, or -S with -y), and then nothing else happens;
   a var=file argument without '=' is such an error *)
Theorem C12_usage_is_2 : forall c w,
  (r_exit (run c w) = 2 <-> (w_clap_ok w = false \/ (c_string c && c_yaml c) = true)) /\
  (r_exit (run c w) = 2 -> run c w = usage_result) /\
  (forall rc, (exists s, In s (rc_ext_str_file rc) /\ ~ In EQ s) -> run_raw rc w = usage_result).
Proof.
  intros c w. destruct (usage_is_2 CODE_FLUSHES c w) as [A B]. split; [exact A|]. split; [exact B|].
  intros rc H. unfold run_raw, parse_config. rewrite (parse_var_files_none _ H). reflexivity.
Qed.

(* exit <> 0: stderr explains; nothing reached stdout and no -o write happened, or the
   failure IS the write and what the sink holds is a proper prefix of the output *)
Theorem C12_stdout_only_on_success : forall c w,
  r_exit (run c w) <> 0 -> failure_shape_r c w (run c w).
Proof. intros c w. exact (stdout_only_on_success CODE_FLUSHES c w). Qed.

(* exit 0 (stdout not closed): load, evaluation and manifestation succeeded, every fs::write
   succeeded, and the complete output is in the -o file / on stdout *)
Theorem C12_write_failure_is_exit1 : forall c w,
  is_dev (w_stdout w) -> r_exit (run c w) = 0 -> delivered_r c w (run c w).
Proof. exact write_failure_is_exit1. Qed.

(* and with healthy sinks a completed computation is always delivered with exit 0 *)
Theorem C12_healthy_run_succeeds : forall c w out files warned,
  w_stdout w = SoDev None -> (forall p, c_output c = Some p -> w_target w p = TDev None) ->
  compute c w = CReady out files warned ->
  r_exit (run c w) = 0 /\ delivered_r c w (run c w).
Proof. intros c w. exact (healthy_run_succeeds CODE_FLUSHES c w). Qed.

(* why the flush is needed (the finding repaired by the fix: commit): main.rs without it
   (write_all only, [run_gen false]) exits 0 on a full device with the output lost, although
   the same output with a trailing newline exits 1 *)
Example C12_needs_flush :
  let c := ex_cfg true false true None None in
  let w := ex_world [(1, ShStr ex_abc)] [] (SoDev (Some 0)) in
  compute c w = CReady ex_abc [] false /\ r_exit (run_gen false c w) = 0 /\ r_stdout (run_gen false c w) = [] /\
  r_exit (run_gen true c w) = 1 /\
  r_exit (run_gen false (ex_cfg true false false None None) w) = 1.
Proof. vm_compute. repeat split. Qed.

(* -S: the output is the string itself (plus the newline unless --no-trailing-newline) *)
Theorem C12_string_mode_is_value : forall c w out files warned,
  c_string c = true -> c_multi c = None -> compute c w = CReady out files warned ->
  exists s v str, prepare c w = POk s v warned /\ w_shape w v = ShStr str /\
                  out = str ++ nl_unless_ntn c /\ files = [].
Proof. exact string_mode_is_value. Qed.

(* -y: "---\n" item "\n" for every element's JSON, then "..." ; nothing at all for [] *)
Theorem C12_yaml_stream_shape : forall c w out files warned,
  c_yaml c = true -> c_string c = false -> c_multi c = None -> compute c w = CReady out files warned ->
  exists s v items texts, prepare c w = POk s v warned /\ w_shape w v = ShArr items /\
    Forall2 (fun i t => w_manifest w s i = Some t) items texts /\
    out = match texts with
          | [] => []
          | _ => concat (map (fun t => s_dashes ++ t ++ [NL]) texts) ++ s_dots ++ nl_unless_ntn c
          end /\ files = [].
Proof. exact yaml_stream_shape. Qed.

(* -m: one file per visible field, at dir/name, holding that field's view; stdout lists the paths *)
Theorem C12_multi_files_are_visible_fields : forall c w dir out files warned,
  c_multi c = Some dir -> compute c w = CReady out files warned ->
  exists s v fields reprs, prepare c w = POk s v warned /\ w_shape w v = ShObj fields /\
    Forall2 (fun fv r => value_to_repr c w s (snd fv) = Some r) fields reprs /\
    files = map (fun fr => (path_join dir (fst (fst fr)), FsWrote (snd fr) true)) (combine fields reprs) /\
    out = concat (map (fun fv => path_join dir (fst fv) ++ [NL]) fields).
Proof. exact multi_files_are_visible_fields. Qed.

(* --no-trailing-newline drops exactly the final newline (the empty YAML stream has none to drop) *)
Theorem C12_no_trailing_newline_only_last : forall c w,
  (forall s v out, value_to_repr (with_ntn false c) w s v = Some out ->
     exists out', value_to_repr (with_ntn true c) w s v = Some out' /\
       (out = out' ++ [NL] \/
        (out = [] /\ out' = [] /\ c_string c = false /\ c_yaml c = true /\ w_shape w v = ShArr []))) /\
  (forall out files warned, c_multi c = None -> compute (with_ntn false c) w = CReady out files warned ->
     exists out', compute (with_ntn true c) w = CReady out' files warned /\
       (out = out' ++ [NL] \/ (out = [] /\ out' = [] /\ c_string c = false /\ c_yaml c = true))).
Proof.
  intros c w. split.
  - intros s v out. exact (value_to_repr_ntn c w s v out).
  - intros out files warned. exact (no_trailing_newline_only_last c w out files warned).
Qed.

(* top-level arguments bind by name: a successful binding gives every parameter the argument
   of its own name and the default otherwise; it succeeds exactly when the names are distinct,
   all are parameters, and every parameter without default is named *)
Theorem C12_tla_bind_by_name : forall params named, NoDup (map fst params) ->
  (forall bs, bind_tla params named = Ok bs ->
     bs = bind_spec params named /\ NoDup (map fst named) /\ incl (map fst named) (map fst params) /\
     (forall p, In (p, false) params -> In p (map fst named))) /\
  (NoDup (map fst named) -> incl (map fst named) (map fst params) ->
   (forall p, In (p, false) params -> In p (map fst named)) ->
   bind_tla params named = Ok (bind_spec params named)).
Proof.
  intros params named Hnd. split.
  - intros bs. apply bind_tla_iff. exact Hnd.
  - intros Hndn Hincl Hreq. apply (bind_tla_iff params named _ Hnd). auto.
Qed.

Theorem C12_tla_bind_permutation : forall params named named' bs,
  NoDup (map fst params) -> Permutation named named' ->
  bind_tla params named = Ok bs -> bind_tla params named' = Ok bs.
Proof. exact bind_tla_permutation. Qed.

(* the glue evaluates nothing but the root of the input: code given with --ext-code /
   --tla-code is loaded (a source that does not load is exit 1) and handed over unevaluated *)
Theorem C12_ext_code_lazy : forall c w,
  (forall e, (forall s id, load_input c w = Some id -> e s (ThLoaded id) = w_eval w s (ThLoaded id)) ->
     run c (with_eval e w) = run c w) /\
  (forall a rest, w_clap_ok w = true -> (c_string c && c_yaml c) = false ->
     c_ext_str c = [] -> c_ext_str_file c = [] -> c_ext_code c = a :: rest ->
     ext_code_to_thunk w lit_ext a = None -> r_exit (run c w) = 1).
Proof.
  intros c w. split.
  - intros e. exact (ext_code_lazy CODE_FLUSHES c w e).
  - intros a rest Hclap Hsy H1 H2 H3 Hload. unfold run. rewrite load_failure_run; auto.
    right. unfold all_ext. rewrite H1, H2, H3. cbn. rewrite Hload. reflexivity.
Qed.

(* what std.extVar can see: when the value to print is known, the session the evaluator ran
   with carries, in argument order (str, str-file, code, code-file), one binding per external
   variable under the argument's own name, all names distinct, each made by the matching
   constructor; and --ext-str k=v binds k to exactly the bytes after the first '=' *)
Theorem C12_ext_bindings_exact : forall c w s v warned,
  prepare c w = POk s v warned ->
  (exists t1 t2 t3 t4,
    Forall2 (fun a t => ext_str_to_thunk w a = Some t) (c_ext_str c) t1 /\
    Forall2 (fun a t => ext_str_file_to_thunk w a = Some t) (c_ext_str_file c) t2 /\
    Forall2 (fun a t => ext_code_to_thunk w lit_ext a = Some t) (c_ext_code c) t3 /\
    Forall2 (fun a t => ext_code_file_to_thunk w a = Some t) (c_ext_code_file c) t4 /\
    s_ext s = combine (map vo_var (c_ext_str c)) t1 ++ combine (map vf_var (c_ext_str_file c)) t2 ++
              combine (map vo_var (c_ext_code c)) t3 ++ combine (map vf_var (c_ext_code_file c)) t4 /\
    NoDup (map vo_var (c_ext_str c) ++ map vf_var (c_ext_str_file c) ++
           map vo_var (c_ext_code c) ++ map vf_var (c_ext_code_file c))) /\
  s_max_stack s = c_max_stack c /\ s_max_trace s = c_max_trace c /\ s_jpath s = rev (c_jpath c) /\
  (forall k val, ~ In EQ k -> ext_str_to_thunk w (parse_var_opt_val (k ++ EQ :: val)) = Some (ThStr val)).
Proof.
  intros c w s v warned H.
  pose proof (prepare_spec c w) as P. rewrite H in P.
  destruct P as (_ & root & ext & tla & v0 & _ & He & _ & -> & _). cbn.
  split; [exact (ext_bindings_exact c w ext He)|]. repeat split.
  intros k val Hn. destruct (var_split_at_first_eq k val Hn) as [Hp _]. rewrite Hp. reflexivity.
Qed.

(* an input that cannot be read (stdin failure, missing / unreadable file) or loaded: exit 1 and nothing else *)
Theorem C12_input_failure_is_exit1 : forall c w,
  w_clap_ok w = true -> (c_string c && c_yaml c) = false ->
  (load_input c w = None -> run c w = fail_result []) /\
  (c_exec c = false -> c_input c = s_minus -> w_stdin w = None -> run c w = fail_result []).
Proof.
  intros c w Hclap Hsy. split.
  - intros Hl. apply load_failure_run; auto.
  - intros He Hi Hs. apply load_failure_run; auto. left. unfold load_input. rewrite He, Hi, Hs. reflexivity.
Qed.

(* top-level arguments given twice, or given to a program that is not a function, never end with exit 0 *)
Theorem C12_tla_misuse_never_succeeds : forall c w tla warned,
  (forall v params, w_shape w v = ShFunc params -> NoDup (map fst params)) ->
  all_tla c w = Some (tla, warned) ->
  (~ NoDup (map fst tla) \/
   (tla <> [] /\ forall s id v, load_input c w = Some id -> w_eval w s (ThLoaded id) = Some v ->
                                forall params, w_shape w v <> ShFunc params)) ->
  r_exit (run c w) <> 0.
Proof. intros c w. exact (tla_misuse_never_succeeds CODE_FLUSHES c w). Qed.

(* var[=val] and var=file split at the first '=' *)
Theorem C12_var_split_at_first_eq : forall k v, ~ In EQ k ->
  parse_var_opt_val (k ++ EQ :: v) = {| vo_var := k; vo_val := Some v |} /\
  parse_var_file (k ++ EQ :: v) = Some {| vf_var := k; vf_file := v |}.
Proof. exact var_split_at_first_eq. Qed.

(* non-vacuity: the hypotheses of the mode theorems are met by running worlds *)
Example C12_nonvacuous :
  (* -S "abc" on a healthy stdout *)
  run (ex_cfg true false false None None) (ex_world [(1, ShStr ex_abc)] [] (SoDev None))
    = {| r_exit := 0; r_stdout := ex_abc ++ [NL]; r_stderr := false; r_files := [] |} /\
  (* -y [1, [ ]] *)
  run (ex_cfg false true true None None)
      (ex_world [(1, ShArr [2; 3])] [(2, Some [49]); (3, Some [91; 32; 93])] (SoDev None))
    = {| r_exit := 0; r_stdout := [45; 45; 45; 10; 49; 10; 45; 45; 45; 10; 91; 32; 93; 10; 46; 46; 46];
         r_stderr := false; r_files := [] |} /\
  (* -m d {a: 1, b: "x"} with -o o *)
  run (ex_cfg false false false (Some [100]) (Some [111]))
      (ex_world [(1, ShObj [([97], 2); ([98], 3)])] [(2, Some [49]); (3, Some [34; 120; 34])] (SoDev None))
    = {| r_exit := 0; r_stdout := []; r_stderr := false;
         r_files := [([100; 47; 97], FsWrote [49; 10] true); ([100; 47; 98], FsWrote [34; 120; 34; 10] true);
                     ([111], FsWrote [100; 47; 97; 10; 100; 47; 98; 10] true)] |} /\
  (* a full -o device *)
  r_exit (run (ex_cfg true false true None (Some [102])) (ex_world [(1, ShStr ex_abc)] [] (SoDev None))) = 1 /\
  (* a value of the wrong type, and -S with -y *)
  r_exit (run (ex_cfg true false false None None) (ex_world [(1, ShOther)] [(1, Some [49])] (SoDev None))) = 1 /\
  r_exit (run (ex_cfg true true false None None) (ex_world [(1, ShStr ex_abc)] [] (SoDev None))) = 2 /\
  (* binding: a named, b defaulted; unknown / repeated / unbound *)
  bind_tla [([97], false); ([98], true)] [([97], ThStr [120])] = Ok [BArg (ThStr [120]); BDefault] /\
  bind_tla [([97], false)] [([122], ThStr [])] = Err UnknownCallParam /\
  bind_tla [([97], false)] [([97], ThStr []); ([97], ThStr [])] = Err RepeatedCallParam /\
  bind_tla [([97], false); ([98], true)] [([98], ThStr [])] = Err CallParamNotBound.
Proof. vm_compute. repeat split. Qed.

Print Assumptions C12_source_constants.
Print Assumptions C12_cli_exit_in_012.
Print Assumptions C12_usage_is_2.
Print Assumptions C12_stdout_only_on_success.
Print Assumptions C12_write_failure_is_exit1.
Print Assumptions C12_healthy_run_succeeds.
Print Assumptions C12_string_mode_is_value.
Print Assumptions C12_yaml_stream_shape.
Print Assumptions C12_multi_files_are_visible_fields.
Print Assumptions C12_no_trailing_newline_only_last.
Print Assumptions C12_tla_bind_by_name.
Print Assumptions C12_tla_bind_permutation.
Print Assumptions C12_ext_code_lazy.
Print Assumptions C12_ext_bindings_exact.
Print Assumptions C12_input_failure_is_exit1.
Print Assumptions C12_tla_misuse_never_succeeds.
Print Assumptions C12_var_split_at_first_eq.
Print Assumptions C12_no_panic.
Print Assumptions C12_needs_flush.
Print Assumptions C12_nonvacuous.
