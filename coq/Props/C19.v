(* Props/C19.v — pinned statements for property C19 (std.format and % follow printf-style
   formatting).  Statements closed by [exact lemma] or a few lines from the lemmas of Proofs/,
   non-vacuity Examples and Print Assumptions. *)
From RJ Require Import Base.Outcome Base.F64 Model.Format Proofs.Format_proofs.
From Coq Require Import Floats.SpecFloat.
Local Open Scope N_scope.

(* every format string yields codes or one of the five format-string errors (truncated,
   width / precision too large, missing precision digits, unknown conversion): no panic,
   no divergence *)
Theorem C19_format_parse_total : forall fmt,
  match parse_format_codes fmt with
  | Ok _ => True
  | Err e => is_parse_err e = true
  | _ => False
  end.
Proof. exact format_parse_total. Qed.

(* for every format string and every (finite-number) argument, and whatever libm's log10
   returns, std.format yields a string or an error: never a panic, never a loop *)
Theorem C19_format_no_panic : forall lf fmt a, finite_args a ->
  match format lf fmt a with Ok _ | Err _ => True | _ => False end.
Proof. exact format_no_crash. Qed.

(* an array argument is accepted only when it has exactly one item per conversion
   (other than %%), per * width and per * precision; otherwise the outcome is an error
   (by C19_format_no_panic it is not a panic) *)
Theorem C19_arg_count_errors : forall lf parts rest used s,
  format_array lf parts rest used = Ok s -> lenN rest = needed parts.
Proof. exact format_array_count. Qed.

(* a rendered field is never shorter than its width, counted in characters *)
Theorem C19_pad_reaches_width : forall s w l, w <= lenN (field_pad s w l).
Proof. exact pad_reaches_width. Qed.

(* ... for every directive of the array machine (inline width, or * taken from the array)
   and of the object machine *)
Theorem C19_field_width_ok : forall lf c,
  (forall rest used s rest' used', array_code lf c rest used = Ok (s, rest', used') ->
     (forall v, fw c = Some (FInline v) -> v <= lenN s) /\
     (forall x t v, fw c = Some FExternal -> rest = VNum x :: t -> try_to_u32 x = Some v -> v <= lenN s)) /\
  (forall fs s v, object_code lf c fs = Ok s -> fw c = Some (FInline v) -> v <= lenN s).
Proof.
  intros lf c. split.
  - intros rest used s rest' used' H. apply (array_code_spec lf) in H. tauto.
  - exact (object_code_width lf c).
Qed.

(* zero flag / precision: at least min_chars characters, at least min_digits digits after the sign *)
Theorem C19_decorate_min_width : forall digits neg mc md sg bl,
  mc <= lenN (decorate_digits digits neg mc md sg bl) /\
  lenN (sign_prefix neg sg bl) + md <= lenN (decorate_digits digits neg mc md sg bl) /\
  exists pad, decorate_digits digits neg mc md sg bl = sign_prefix neg sg bl ++ repeatN 48 pad ++ digits.
Proof. exact decorate_min_width. Qed.

Theorem C19_render_int_min_width : forall neg mag mc md bl pl radix zp,
  mc <= lenN (render_int neg mag mc md bl pl radix zp) /\
  lenN (sign_prefix neg pl bl) + md <= lenN (render_int neg mag mc md bl pl radix zp).
Proof. exact render_int_min_width. Qed.

(* the radix loop, any radix >= 2, any magnitude: the digits denote the number, each is
   below the radix, no leading zero *)
Theorem C19_radix_digits_value : forall r n, 2 <= r ->
  digits_value r (radix_digits r n) = n /\
  Forall (fun d => d < r) (radix_digits r n) /\
  (0 < n -> exists d t, radix_digits r n = d :: t /\ 0 < d).
Proof. exact radix_digits_value. Qed.

(* %o %x %X: sign, zeros, then (the # prefix and) exactly those digits *)
Theorem C19_render_int_digits : forall neg mag mc md bl pl radix zp,
  exists pad,
    render_int neg mag mc md bl pl radix zp =
    sign_prefix neg pl bl ++ repeatN 48 pad ++
      (if mag =? 0 then [48] else zp ++ map (fun d => 48 + d) (radix_digits radix mag)).
Proof. exact render_int_digits. Qed.

(* %d %i %u: below 2^53 the digits are the exact integer *)
Theorem C19_decimal_exact_below_2p53 : forall lf c fwv precv x n,
  ctype c = CDecimal -> trunc_mag x = Some n -> n < 2 ^ 53 ->
  do_format_code lf c fwv precv (VNum x) =
  Ok (decorate_digits (dec_digits n) (is_neg_trunc x)
        (if fl_zero (flags c) && negb (fl_left (flags c)) then fwv else 0)
        (match prec c with Some _ => precv | None => 0 end)
        (fl_plus (flags c)) (fl_blank (flags c))).
Proof. exact decimal_exact_below_2p53. Qed.

(* %f %F: for every finite double m*2^e and EVERY precision the digits are ip[.fp] with
   exactly prec fraction digits, and the integer ip.fp is m*2^e*10^prec rounded to
   nearest, ties to even (pure integer statement: D*den vs num) *)
Theorem C19_fixed_digits_correct : forall s m e prec, (- 65535 <= e)%Z ->
  exists ip fp,
    capped_fixed (S754_finite s m e) prec = Ok (if prec =? 0 then ip else ip ++ 46 :: fp) /\
    lenN fp = prec /\ 1 <= lenN ip /\ all_digits (ip ++ fp) /\
    is_rhe (Z.of_N (str_value (ip ++ fp)))
           (Z.pos m * 2 ^ (Z.max e 0) * 10 ^ (Z.of_N prec))%Z (2 ^ (Z.max (- e) 0))%Z.
Proof. exact fixed_digits_correct. Qed.

(* ... and [capped_fixed] is the digit string render_float_def decorates *)
Theorem C19_fixed_is_rendered : forall value prec zp plus blank ensure_pt trim,
  render_float_def value prec zp plus blank ensure_pt trim =
  obind (capped_fixed (f_abs value) prec) (fun d =>
  Ok (decorate_digits
        (if (prec =? 0) && ensure_pt then d ++ [46]
         else if negb (prec =? 0) && trim then
                (if ensure_pt then trim_end_zeros d else strip_dot_suffix (trim_end_zeros d))
              else d)
        (is_neg value) zp 0 plus blank)).
Proof. exact render_float_def_digits. Qed.

(* %g %G: value-and-shape invariants only *)
Theorem C19_g_shape : forall lf c fwv precv x,
  (ctype c = CGLower \/ ctype c = CGUpper) -> f_is_finite x = true ->
  exists d, do_format_code lf c fwv precv (VNum x) =
            Ok (decorate_digits d (is_neg x)
                  (if fl_zero (flags c) && negb (fl_left (flags c)) then fwv else 0) 0
                  (fl_plus (flags c)) (fl_blank (flags c))).
Proof. exact g_shape. Qed.

(* Display (f64::to_string, used by %s and %d above 2^53), the rule implemented: the first
   digit count at which a neighbour lies inside the rounding interval (reads back as the same
   double); both inside: the closer, an exact tie UP as Rust's flt2dec does *)
Theorem C19_shortest_sound : forall fuel m e E b n,
  let '(d, k) := shortest_search fuel m e E b n in
  (in_interval m e b d k = true /\
   exists n', (n <= n')%Z /\ k = (E - n' + 1)%Z /\
     forall j, (n <= j < n')%Z ->
       in_interval m e b (cand_lo m e E j) (E - j + 1)%Z = false /\
       in_interval m e b (cand_lo m e E j + 1)%Z (E - j + 1)%Z = false)
  \/ k = (E - (n + Z.of_nat fuel) + 1)%Z.
Proof. exact shortest_search_sound. Qed.

Theorem C19_shortest_tie_rule : forall f m e E b n,
  let k := (E - n + 1)%Z in
  let lo := cand_lo m e E n in
  in_interval m e b lo k = true -> in_interval m e b (lo + 1)%Z k = true ->
  shortest_search (S f) m e E b n =
  if (dist m e lo k <? dist m e (lo + 1) k)%Z then (lo, k) else ((lo + 1)%Z, k).
Proof. exact shortest_tie_rule. Qed.

(* the repaired false alarm: 10^15 + 1/4 prints ...000.3 *)
Theorem C19_display_tie_up :
  display (f_of_bits 0x430c6bf526340002) = [49; 48; 48; 48; 48; 48; 48; 48; 48; 48; 48; 48; 48; 48; 48; 48; 46; 51].
Proof. exact display_tie_up. Qed.

(* the two defects found on the pinned tree, as facts about the code they were in *)
Theorem C19_pad_bytes_refuted : exists s w l, lenN (field_pad_bytes s w l) < w.
Proof. exact pad_reaches_width_refuted. Qed.

Theorem C19_fmt_prec_limit : exists x p, is_panic (fmt_fixed x p) = true /\ is_panic (fmt_exp x p) = true.
Proof. exact fmt_prec_limit. Qed.

(* %e %E: for every binary64 value m*2^e > 0 and EVERY precision (capped-precision path of
   the repair included) the p+1 digits ds and the exponent E given to the decoration satisfy
   10^p <= ds < 10^(p+1) and ds = (m*2^e) / 10^(E-p) rounded to nearest, ties to even
   (integer statement: pa j / pb j is 10^j as a fraction) *)
Theorem C19_exp_digits_correct : forall s m e prec,
  (Z.pos m < 2 ^ 53)%Z -> (- 65000 <= e <= 65000)%Z ->
  exists ds E,
    capped_exp (S754_finite s m e) prec = Ok (ds, E) /\
    lenN ds = prec + 1 /\ all_digits ds /\
    (10 ^ Z.of_N prec <= Z.of_N (str_value ds) < 10 ^ (Z.of_N prec + 1))%Z /\
    is_rhe (Z.of_N (str_value ds))
           (Z.pos m * 2 ^ Z.max e 0 * pa (Z.of_N prec - E))%Z
           (2 ^ Z.max (- e) 0 * pb (Z.of_N prec - E))%Z.
Proof. exact exp_digits_correct. Qed.

(* ... the decimal exponent: ilog10 is THE integer E0 with 10^E0 <= m*2^e < 10^(E0+1), and
   the rendered exponent is E0, or E0+1 exactly when the digits round up to 1 0...0 *)
Theorem C19_exp_exponent : forall m e p, (0 < m)%Z ->
  let '(ds, E) := exp_parts m e p in
  let E0 := ilog10 m e in
  bracket E0 (m * 2 ^ Z.max e 0)%Z (2 ^ Z.max (- e) 0)%Z /\
  (E = E0 \/ (E = E0 + 1 /\ Z.of_N (str_value ds) = 10 ^ Z.of_N p))%Z.
Proof. exact exp_exponent_after_carry. Qed.

Theorem C19_exponent_unique : forall E1 E2 num den, (0 < den)%Z ->
  bracket E1 num den -> bracket E2 num den -> E1 = E2.
Proof. exact bracket_unique. Qed.

(* ... and [capped_exp] is what render_float_exp decorates *)
Theorem C19_exp_is_rendered : forall value prec zp plus blank ensure_pt trim uppercase,
  render_float_exp value prec zp plus blank ensure_pt trim uppercase =
  obind (capped_exp (f_abs value) prec) (fun de =>
  let ds := fst de in
  let mant := match ds with d0 :: rest => if prec =? 0 then [d0] else d0 :: 46 :: rest | [] => [] end in
  let mant := if negb (prec =? 0) && trim
              then (if ensure_pt then trim_end_zeros mant else strip_dot_suffix (trim_end_zeros mant))
              else mant in
  Ok (decorate_digits
        (mant ++ (if (prec =? 0) && ensure_pt then [46] else []) ++
         (if uppercase then 69 else 101) :: exp_suffix (snd de))
        (is_neg value) zp 0 plus blank)).
Proof. exact render_float_exp_digits. Qed.

(* %g %G, as coded: which renderer and which precision *)
Theorem C19_g_selects : forall lf c fwv precv x,
  (ctype c = CGLower \/ ctype c = CGUpper) ->
  let fl := flags c in
  let P := match prec c with Some _ => precv | None => 6 end in
  let X := if f_is_zero x then 0%Z else lf (f_abs x) in
  let zp := if fl_zero fl && negb (fl_left fl) then fwv else 0 in
  do_format_code lf c fwv precv (VNum x) =
  if (X <? -4)%Z || ((0 <=? X)%Z && (Z.of_N P <=? X)%Z) then
    render_float_exp x (N.max P 1 - 1) zp (fl_plus fl) (fl_blank fl) (fl_alt fl) (negb (fl_alt fl))
                     (conv_eqb (ctype c) CGUpper)
  else
    render_float_def x
      (P - (if f_ltb (f_abs x) f_one then 1
            else match trunc_mag x with
                 | Some mag => lenN (display_int mag)
                 | None => lenN (display_abs (f_abs x)) end))
      zp (fl_plus fl) (fl_blank fl) (fl_alt fl) (negb (fl_alt fl)).
Proof. exact g_selects. Qed.

(* without #, %g drops the fraction's trailing zeros (and a bare point): same number *)
Theorem C19_g_trim_keeps_value : forall ip fp, all_digits fp ->
  exists fp' k,
    fp = fp' ++ repeatN 48 k /\
    strip_dot_suffix (trim_end_zeros (ip ++ 46 :: fp)) =
      (match fp' with [] => ip | _ => ip ++ 46 :: fp' end) /\
    str_value (ip ++ fp) = str_value (ip ++ fp') * 10 ^ k.
Proof. exact g_trim_keeps_value. Qed.

(* where the code's %g is NOT C's %g: "%.0g" % 5 = "5e+00" (C: "5"), "%.3g" % 999.9 = "1000"
   (C: "1e+03" — same number, other notation), "%g" % 0.000123456 = "0.00012" (C:
   "0.000123456": below 1 only P-1 fraction digits are kept, not P significant digits) *)
Theorem C19_g_deviations :
  format_run [37; 46; 48; 103] (ASingle (VNum (f_of_Z 5))) = Ok [53; 101; 43; 48; 48] /\
  format_run [37; 46; 51; 103] (ASingle (VNum (f_of_bits 0x408f3f3333333333))) = Ok [49; 48; 48; 48] /\
  format_run [37; 103] (ASingle (VNum (f_of_bits 0x3f202e7ef70994dd))) = Ok [48; 46; 48; 48; 48; 49; 50].
Proof. exact g_deviations. Qed.

(* ---- non-vacuity: the hypotheses are met by non-trivial values, and the model computes *)
Example C19_nonvacuous :
  (* "%-5s|" % "日本" is padded to five characters *)
  format_run [37; 45; 53; 115; 124] (ASingle (VStr [26085; 26412])) = Ok [26085; 26412; 32; 32; 32; 124] /\
  (* "%.70000f" % 1 renders: 1, the point, 70000 zeros *)
  match format_run [37; 46; 55; 48; 48; 48; 48; 102] (ASingle (VNum (f_of_Z 1))) with
  | Ok s => lenN s = 70002 | _ => False end /\
  (* ties go to the even digit: %.2f of 0.125 and 0.375; %.0e of 2.5 *)
  capped_fixed (f_of_Z_exp 1 (-3)) 2 = Ok [48; 46; 49; 50] /\
  capped_fixed (f_of_Z_exp 3 (-3)) 2 = Ok [48; 46; 51; 56] /\
  format_run [37; 46; 48; 101] (ASingle (VNum (f_of_Z_exp 5 (-1)))) = Ok [50; 101; 43; 48; 48] /\
  (* an array that is too short / too long is an error *)
  format_run [37; 100; 37; 100] (AArray [VNum (f_of_Z 1)]) = Err (ENotEnough 1) /\
  format_run [37; 100] (AArray [VNum (f_of_Z 1); VNum (f_of_Z 2)]) = Err (ETooMany 1 2) /\
  (* hypotheses of the theorems above are satisfiable *)
  finite_args (AArray [VNum (f_of_Z 42); VStr [97]]) /\
  trunc_mag (f_of_Z (-42)) = Some 42 /\ (- 65535 <= -1074)%Z /\
  radix_digits 16 255 = [15; 15] /\
  parse_format_codes [37; 40; 97; 41; 43; 48; 42; 46; 51; 108; 100] =
    Ok [PCode {| mkey := Some [97]; flags := {| fl_alt := false; fl_zero := true; fl_left := false; fl_blank := false; fl_plus := true |};
                 fw := Some FExternal; prec := Some (FInline 3); len_mod := Some LLowerL; ctype := CDecimal |}].
Proof. vm_compute. repeat split; try reflexivity; try discriminate; repeat constructor. Qed.

Print Assumptions C19_format_parse_total.
Print Assumptions C19_format_no_panic.
Print Assumptions C19_arg_count_errors.
Print Assumptions C19_pad_reaches_width.
Print Assumptions C19_field_width_ok.
Print Assumptions C19_decorate_min_width.
Print Assumptions C19_render_int_min_width.
Print Assumptions C19_radix_digits_value.
Print Assumptions C19_render_int_digits.
Print Assumptions C19_decimal_exact_below_2p53.
Print Assumptions C19_fixed_digits_correct.
Print Assumptions C19_fixed_is_rendered.
Print Assumptions C19_g_shape.
Print Assumptions C19_exp_digits_correct.
Print Assumptions C19_exp_exponent.
Print Assumptions C19_exponent_unique.
Print Assumptions C19_exp_is_rendered.
Print Assumptions C19_g_selects.
Print Assumptions C19_g_trim_keeps_value.
Print Assumptions C19_g_deviations.
Print Assumptions C19_shortest_sound.
Print Assumptions C19_shortest_tie_rule.
Print Assumptions C19_display_tie_up.
Print Assumptions C19_pad_bytes_refuted.
Print Assumptions C19_fmt_prec_limit.
Print Assumptions C19_nonvacuous.
