(* Proofs/Gc_proofs.v — the collector of Model/Gc.v keeps exactly the boxes
   reachable from the roots (boxes with a view or an external handle).

   The count pass keeps [Inv1]; its subtle clause is [i1_V]: an unmarked box has had
   every handle held by a processed box counted.  At the end of the vector this reads
   visits = in_count for every unmarked box, so the test of the mark pass,
   weak_count > visits, holds exactly when an external handle exists.  The marked set
   stays inside the reachable set and closed under handles throughout, and after the
   mark pass it contains every root; the sweep keeps the marked boxes. *)
From RJ Require Import Base.Outcome Model.Gc.
From Coq Require Import Lia Permutation.
Local Open Scope outcome_scope.

Lemma firstn_app_len {A} (pre X : list A) : firstn (length pre) (pre ++ X) = pre.
Proof. induction pre; simpl; [destruct X; reflexivity|]. now rewrite IHpre. Qed.

Lemma skipn_app_len {A} (pre X : list A) : skipn (length pre) (pre ++ X) = X.
Proof. induction pre; simpl; auto. Qed.

Lemma nth_error_app_len {A} (pre X : list A) : nth_error (pre ++ X) (length pre) = nth_error X 0.
Proof. induction pre; simpl; auto. Qed.

Section Vec.
Context {A : Type}.

Lemma set_nth_length (i : nat) (x : A) l : length (set_nth i x l) = length l.
Proof. revert i; induction l as [|y t IH]; intros [|i]; simpl; auto. Qed.

Lemma set_nth_perm (l : list A) : forall j x y, nth_error l j = Some y ->
  Permutation (y :: set_nth j x l) (x :: l).
Proof.
  induction l as [|z t IH]; intros [|j] x y H; simpl in *; try discriminate.
  - inversion H; subst. apply perm_swap.
  - rewrite perm_swap, (IH j x y H). apply perm_swap.
Qed.

Lemma swap_perm_aux (l : list A) : forall i j x y,
  nth_error l i = Some x -> nth_error l j = Some y ->
  Permutation (set_nth i y (set_nth j x l)) l.
Proof.
  induction l as [|z t IH]; intros [|i] [|j] x y Hi Hj; simpl in *; try discriminate.
  - inversion Hi; inversion Hj; subst. reflexivity.
  - inversion Hi; subst. apply set_nth_perm; assumption.
  - inversion Hj; subst. apply set_nth_perm; assumption.
  - apply perm_skip. eapply IH; eassumption.
Qed.

Lemma swap_perm (l : list A) i j : Permutation (swap l i j) l.
Proof.
  unfold swap. destruct (nth_error l i) as [x|] eqn:Hi; [|reflexivity].
  destruct (nth_error l j) as [y|] eqn:Hj; [|reflexivity].
  eapply swap_perm_aux; eassumption.
Qed.

Lemma skipn_set_nth (l : list A) : forall n i x, i < n -> skipn n (set_nth i x l) = skipn n l.
Proof.
  induction l as [|z t IH]; intros [|n] [|i] x H; simpl; auto; try lia.
  apply IH; lia.
Qed.

(* the swap leaves the vector beyond [i] as it was, so the prefixes are permutations of each
   other because the vectors are *)
Lemma swap_firstn (l : list A) i j : j < i ->
  Permutation (firstn (S i) (swap l i j)) (firstn (S i) l).
Proof.
  intros Hji. apply (Permutation_app_inv_r (skipn (S i) l)). rewrite firstn_skipn.
  replace (skipn (S i) l) with (skipn (S i) (swap l i j)); [rewrite firstn_skipn; apply swap_perm|].
  unfold swap. destruct (nth_error l i); [|reflexivity]. destruct (nth_error l j); [|reflexivity].
  now rewrite !skipn_set_nth by lia.
Qed.

Lemma swap_length (l : list A) i j : length (swap l i j) = length l.
Proof.
  unfold swap. destruct (nth_error l i); [|reflexivity].
  destruct (nth_error l j); [|reflexivity].
  now rewrite !set_nth_length.
Qed.

Lemma rot_last_perm (t : list A) : Permutation (rot_last t) t.
Proof.
  destruct t as [|x r]; [reflexivity|].
  unfold rot_last.
  assert (H : x :: r <> []) by discriminate.
  rewrite (app_removelast_last x H) at 3.
  apply Permutation_cons_append.
Qed.

Lemma swap_remove_middle (pre : list A) b r :
  swap_remove (pre ++ b :: r) (length pre) = pre ++ rot_last r.
Proof.
  unfold swap_remove. rewrite firstn_app_len. do 2 f_equal. induction pre; simpl; auto.
Qed.

Lemma swap_remove_perm (l : list A) i b : nth_error l i = Some b ->
  Permutation (b :: swap_remove l i) l.
Proof.
  intros H. apply nth_error_split in H as [pre [r [-> <-]]].
  rewrite swap_remove_middle, rot_last_perm. apply Permutation_middle.
Qed.

Lemma swap_remove_firstn (l : list A) i b : nth_error l i = Some b ->
  firstn i (swap_remove l i) = firstn i l.
Proof.
  intros H. apply nth_error_split in H as [pre [r [-> <-]]].
  now rewrite swap_remove_middle, !firstn_app_len.
Qed.

Lemma swap_remove_skipn (l : list A) i : i <= length l ->
  skipn i (swap_remove l i) = rot_last (skipn (S i) l).
Proof.
  intros H. unfold swap_remove. rewrite skipn_app, firstn_length_le, Nat.sub_diag by exact H.
  now rewrite skipn_all2 by (rewrite firstn_length_le; lia).
Qed.

Lemma firstn_S_nth (l : list A) i b : nth_error l i = Some b ->
  firstn (S i) l = firstn i l ++ [b].
Proof.
  intros H. apply nth_error_split in H as [pre [r [-> <-]]].
  now rewrite <- Nat.add_1_r, firstn_app_2, firstn_app_len.
Qed.

Lemma skipn_nth (l : list A) : forall i b, nth_error l i = Some b ->
  skipn i l = b :: skipn (S i) l.
Proof.
  induction l as [|z t IH]; intros [|i] b H; simpl in *; try discriminate.
  - inversion H; reflexivity.
  - apply IH; assumption.
Qed.

Lemma nth_error_lt (l : list A) i b : nth_error l i = Some b -> i < length l.
Proof. intros H. apply nth_error_Some. congruence. Qed.

End Vec.

Lemma firstn_In {A} (l : list A) n x : In x (firstn n l) -> In x l.
Proof. intros H. rewrite <- (firstn_skipn n l). apply in_or_app. auto. Qed.

Definition is_root (b : box) : bool := has_view b || Nat.ltb 0 (ext_weak b).
Definition roots (h : heap) : list N := ids (filter is_root h).

(* reachability through in-heap handles of boxes that are in the heap; a
   dangling handle (target not in the heap) leads nowhere *)
Inductive reachable (h : heap) (rs : list N) : N -> Prop :=
| reach_root : forall i, In i rs -> In i (ids h) -> reachable h rs i
| reach_step : forall b j, reachable h rs (bid b) -> In b h -> In j (edges b) -> In j (ids h) ->
    reachable h rs j.

(* between collections: identities distinct, both cells reset *)
Definition wf (h : heap) : Prop :=
  NoDup (ids h) /\ forall b, In b h -> visits b = 0 /\ mark b = false.

Definition skel (b : box) := (bid b, edges b, ext_weak b, has_view b).

Lemma skel_inv a b : skel a = skel b ->
  bid a = bid b /\ edges a = edges b /\ ext_weak a = ext_weak b /\ has_view a = has_view b.
Proof. unfold skel; intros H; inversion H; auto. Qed.

Lemma in_ids h i : In i (ids h) <-> exists b, In b h /\ bid b = i.
Proof.
  unfold ids. rewrite in_map_iff. split; intros [b [H1 H2]]; exists b; auto.
Qed.

Lemma in_ids_bid h b : In b h -> In (bid b) (ids h).
Proof. intros H. apply in_ids. eauto. Qed.

Lemma ids_app l1 l2 : ids (l1 ++ l2) = ids l1 ++ ids l2.
Proof. apply map_app. Qed.

Lemma ids_perm h h' : Permutation h h' -> Permutation (ids h) (ids h').
Proof. apply Permutation_map. Qed.

Lemma NoDup_ids_inj h : NoDup (ids h) -> forall a b, In a h -> In b h -> bid a = bid b -> a = b.
Proof.
  induction h as [|c t IH]; intros ND a b Ha Hb E; [destruct Ha|].
  inversion ND as [|? ? Hnot ND']; subst.
  destruct Ha as [->|Ha], Hb as [->|Hb]; auto; exfalso; apply Hnot.
  - rewrite E. now apply in_ids_bid.
  - rewrite <- E. now apply in_ids_bid.
Qed.

Lemma NoDup_boxes h : NoDup (ids h) -> NoDup h.
Proof. unfold ids. apply NoDup_map_inv. Qed.

Lemma wf_perm h h2 : Permutation h h2 -> wf h -> wf h2.
Proof.
  intros P [ND W]. split.
  - eapply Permutation_NoDup; [apply ids_perm, P|exact ND].
  - intros b Hb. apply W. eapply Permutation_in; [symmetry; exact P|exact Hb].
Qed.

Lemma reachable_in_ids h rs i : reachable h rs i -> In i (ids h).
Proof. intros H; inversion H; auto. Qed.

Lemma roots_iff h i : In i (roots h) <-> exists b, In b h /\ is_root b = true /\ bid b = i.
Proof.
  unfold roots. rewrite in_ids. split.
  - intros [b [Hb E]]. apply filter_In in Hb. exists b. tauto.
  - intros [b [Hb [R E]]]. exists b. split; auto. apply filter_In. auto.
Qed.

(* reachability only looks at the reachable boxes and at the roots in the heap *)
Lemma reachable_transfer h h2 rs rs2 :
  (forall b, In b h -> reachable h rs (bid b) -> In b h2) ->
  (forall i, In i rs -> In i (ids h) -> In i rs2) ->
  forall i, reachable h rs i -> reachable h2 rs2 i.
Proof.
  intros Hh Hr.
  assert (Hid : forall i, reachable h rs i -> In i (ids h2)).
  { intros i R. pose proof (reachable_in_ids _ _ _ R) as Hi. apply in_ids in Hi as [b [Hb <-]].
    apply in_ids_bid. auto. }
  intros i R. induction R as [i Hi Hd|b j Rb IH Hb Hj Hd].
  - apply reach_root; [auto|]. apply Hid. now apply reach_root.
  - apply (reach_step h2 rs2 b j); auto. apply Hid. now apply (reach_step h rs b j).
Qed.

Lemma reachable_same h h2 : (forall b, In b h <-> In b h2) ->
  forall i, reachable h (roots h) i <-> reachable h2 (roots h2) i.
Proof.
  assert (D : forall h h2, (forall b, In b h -> In b h2) ->
            forall i, reachable h (roots h) i -> reachable h2 (roots h2) i).
  { intros h1 h3 Hh. apply reachable_transfer; [auto|].
    intros j Hj _. apply roots_iff in Hj as [b [Hb R]]. apply roots_iff. exists b. auto. }
  intros Hh i. split; apply D; intros b; apply Hh.
Qed.

Lemma find_box_some i h b : find_box i h = Some b -> In b h /\ bid b = i.
Proof.
  induction h as [|c t IH]; simpl; [discriminate|].
  destruct (N.eqb (bid c) i) eqn:E.
  - intros H; inversion H; subst. apply N.eqb_eq in E. auto.
  - intros H. destruct (IH H). auto.
Qed.

Lemma find_box_none i h : find_box i h = None -> ~ In i (ids h).
Proof.
  induction h as [|c t IH]; simpl; [auto|].
  destruct (N.eqb (bid c) i) eqn:E; [discriminate|].
  intros H [H1|H1].
  - apply N.eqb_neq in E. auto.
  - apply (IH H H1).
Qed.

Lemma find_box_in h b : NoDup (ids h) -> In b h -> find_box (bid b) h = Some b.
Proof.
  intros ND Hb. destruct (find_box (bid b) h) as [c|] eqn:E.
  - destruct (find_box_some _ _ _ E) as [Hc Ec]. f_equal. eapply NoDup_ids_inj; eauto.
  - exfalso. apply (find_box_none _ _ E). now apply in_ids_bid.
Qed.

Lemma upd_other i f l : (forall x, In x l -> bid x <> i) -> upd i f l = l.
Proof.
  intros H. unfold upd. rewrite <- (map_id l) at 2. apply map_ext_in. intros x Hx.
  destruct (N.eqb (bid x) i) eqn:E; [|reflexivity]. apply N.eqb_eq in E. exfalso. apply (H x Hx E).
Qed.

(* with distinct identities, an update through a handle touches one position *)
Lemma upd_middle pre b r f : NoDup (ids (pre ++ b :: r)) ->
  upd (bid b) f (pre ++ b :: r) = pre ++ f b :: r.
Proof.
  intros ND. rewrite ids_app in ND. simpl in ND.
  pose proof (NoDup_remove_2 _ _ _ ND) as Hnot.
  unfold upd. rewrite map_app. simpl. rewrite N.eqb_refl.
  fold (upd (bid b) f pre). fold (upd (bid b) f r).
  rewrite !upd_other; auto; intros x Hx E; apply Hnot, in_or_app; rewrite <- E.
  - right. now apply in_ids_bid.
  - left. now apply in_ids_bid.
Qed.

Definition memN (x : N) (St : list N) : bool := existsb (N.eqb x) St.
Definition smb (St : list N) (b : box) : box :=
  mkbox (bid b) (edges b) (ext_weak b) (has_view b) (visits b) (mark b || memN (bid b) St).
Definition set_marks (St : list N) (h : heap) : heap := map (smb St) h.

Lemma memN_in x St : memN x St = true <-> In x St.
Proof.
  unfold memN. rewrite existsb_exists. split.
  - intros [y [H1 H2]]. apply N.eqb_eq in H2. subst; auto.
  - intros H. exists x. split; auto. apply N.eqb_refl.
Qed.

Lemma smb_mark St b : mark (smb St b) = true <-> mark b = true \/ In (bid b) St.
Proof. simpl. now rewrite orb_true_iff, memN_in. Qed.

Lemma set_mark_is i h : set_mark i h = set_marks [i] h.
Proof.
  apply map_ext. intros [j es w v n m]. unfold smb, memN. simpl.
  destruct (N.eqb j i); simpl; [now rewrite orb_true_r | now rewrite orb_false_r].
Qed.

Lemma smb_app S1 S2 b : smb S2 (smb S1 b) = smb (S1 ++ S2) b.
Proof. unfold smb, memN. simpl. now rewrite existsb_app, orb_assoc. Qed.

Lemma set_marks_app S1 S2 h : set_marks S2 (set_marks S1 h) = set_marks (S1 ++ S2) h.
Proof. unfold set_marks. rewrite map_map. apply map_ext, smb_app. Qed.

Lemma set_marks_nil h : set_marks [] h = h.
Proof.
  unfold set_marks. rewrite <- (map_id h) at 2. apply map_ext. intros [j es w v n m].
  unfold smb. simpl. now rewrite orb_false_r.
Qed.

Lemma ids_set_marks St h : ids (set_marks St h) = ids h.
Proof. unfold ids, set_marks. rewrite map_map. reflexivity. Qed.

Lemma in_set_marks St h b' : In b' (set_marks St h) <-> exists b, In b h /\ b' = smb St b.
Proof.
  unfold set_marks. rewrite in_map_iff. split; intros [b [H1 H2]]; exists b; auto.
Qed.

Lemma length_set_marks St h : length (set_marks St h) = length h.
Proof. apply map_length. Qed.

Lemma in_count_app h1 h2 i : in_count (h1 ++ h2) i = in_count h1 i + in_count h2 i.
Proof. unfold in_count. now rewrite map_app, list_sum_app. Qed.

Lemma in_count_cons b h i : in_count (b :: h) i = count_id i (edges b) + in_count h i.
Proof. reflexivity. Qed.

Lemma in_count_perm h h' i : Permutation h h' -> in_count h i = in_count h' i.
Proof.
  induction 1; rewrite ?in_count_cons in *; try lia.
Qed.

Lemma in_count_map f h i : (forall b, edges (f b) = edges b) -> in_count (map f h) i = in_count h i.
Proof.
  intros Hf. unfold in_count. rewrite map_map. f_equal. apply map_ext. intros b. now rewrite Hf.
Qed.

Lemma count_id_pos i l : In i l -> 0 < count_id i l.
Proof.
  intros H. assert (F : In i (filter (N.eqb i) l)) by (apply filter_In; split; [exact H|apply N.eqb_refl]).
  unfold count_id. destruct (filter (N.eqb i) l); [destruct F|simpl; lia].
Qed.

Lemma count_id_zero i l : ~ In i l -> count_id i l = 0.
Proof.
  intros H. unfold count_id. destruct (filter (N.eqb i) l) as [|x t] eqn:E; [reflexivity|].
  assert (F : In x (filter (N.eqb i) l)) by (rewrite E; now left).
  apply filter_In in F as [Hx Ex]. apply N.eqb_eq in Ex. now subst x.
Qed.

Lemma in_count_pos h c i : In c h -> In i (edges c) -> 0 < in_count h i.
Proof.
  induction h as [|d t IH]; intros Hc Hi; [destruct Hc|]. rewrite in_count_cons.
  destruct Hc as [->|Hc].
  - pose proof (count_id_pos _ _ Hi). lia.
  - specialize (IH Hc Hi). lia.
Qed.

(* the marked set is closed under in-heap handles, except from the boxes still queued *)
Definition closed_except (h : heap) (q : list N) : Prop :=
  forall c d, In c h -> mark c = true -> ~ In (bid c) q -> In d h -> In (bid d) (edges c) -> mark d = true.
Definition closed (h : heap) : Prop :=
  forall c d, In c h -> mark c = true -> In d h -> In (bid d) (edges c) -> mark d = true.

Lemma closed_except_nil h : closed_except h [] -> closed h.
Proof. intros H c d Hc Mc. exact (H c d Hc Mc (fun F => F)). Qed.

Lemma closed_count_zero h c d : closed h -> In c h -> mark c = true -> In d h -> mark d = false ->
  count_id (bid d) (edges c) = 0.
Proof.
  intros Hcl Hc Mc Hd Md. apply count_id_zero. intros Hin.
  rewrite (Hcl c d Hc Mc Hd Hin) in Md. discriminate.
Qed.

Definition unmarked (h : heap) : nat := length (filter (fun b => negb (mark b)) h).

Lemma unmarked_le h : unmarked h <= length h.
Proof. unfold unmarked. induction h as [|b t IH]; simpl; auto. destruct (negb (mark b)); simpl; lia. Qed.

Lemma unmarked_set_mark1 h b : NoDup (ids h) -> In b h -> mark b = false ->
  S (unmarked (set_marks [bid b] h)) = unmarked h.
Proof.
  intros ND Hb Mb. destruct (in_split _ _ Hb) as [pre [r ->]].
  rewrite <- set_mark_is. unfold set_mark. rewrite upd_middle by exact ND.
  unfold unmarked. rewrite !filter_app, !app_length. simpl. rewrite Mb. simpl. lia.
Qed.

(* [trace_mark es] marks and queues (newest first) the targets [St] that were unmarked, each
   once; afterwards every in-heap target of [es] is marked *)
Definition traced (es : list N) (h : heap) (St : list N) : Prop :=
  (forall s, In s St -> In s es /\ In s (ids h))
  /\ unmarked (set_marks St h) + length St = unmarked h
  /\ (forall d, In d h -> In (bid d) es -> mark (smb St d) = true).

Lemma trace_mark_spec : forall es h q, NoDup (ids h) ->
  exists St, trace_mark es h q = (set_marks St h, rev St ++ q) /\ traced es h St.
Proof.
  induction es as [|e es IH]; intros h q ND.
  - exists []. unfold traced. simpl. rewrite set_marks_nil. split; [reflexivity|]. split; [intros s []|].
    split; [lia|]. intros d _ [].
  - (* a dangling handle or one to a marked box changes nothing *)
    assert (Skip : (forall d, In d h -> bid d = e -> mark d = true) ->
              exists St, trace_mark es h q = (set_marks St h, rev St ++ q) /\ traced (e :: es) h St).
    { intros Hm. destruct (IH h q ND) as [St [E [P1 [P2 P3]]]]. exists St.
      split; [exact E|]. split; [|split; [exact P2|]].
      - intros s Hs. destruct (P1 s Hs). split; [now right|assumption].
      - intros d Hd [Ed|He]; [apply smb_mark; left; now apply Hm|now apply P3]. }
    simpl. destruct (find_box e h) as [b|] eqn:F.
    2:{ apply Skip. intros d Hd Ed. destruct (find_box_none _ _ F). rewrite <- Ed. now apply in_ids_bid. }
    destruct (find_box_some _ _ _ F) as [Hb Eb]. destruct (mark b) eqn:Mb.
    { apply Skip. intros d Hd Ed. now rewrite (NoDup_ids_inj h ND d b Hd Hb) by congruence. }
    rewrite set_mark_is.
    destruct (IH (set_marks [e] h) (e :: q)) as [St [E [P1 [P2 P3]]]]; [now rewrite ids_set_marks|].
    rewrite ids_set_marks in P1.
    exists (e :: St). unfold traced. change (e :: St) with ([e] ++ St). rewrite <- set_marks_app.
    split; [|split; [|split]].
    + rewrite E. simpl. now rewrite <- app_assoc.
    + intros s [<-|Hs]; [split; [now left|rewrite <- Eb; now apply in_ids_bid]|].
      destruct (P1 s Hs). split; [now right|assumption].
    + subst e. rewrite <- (unmarked_set_mark1 h b ND Hb Mb). simpl. lia.
    + intros d Hd [Ed|He]; [apply smb_mark; right; now left|].
      rewrite <- smb_app. apply P3; [apply in_set_marks; eauto|exact He].
Qed.

Definition edge_closed (h : heap) (P : N -> Prop) : Prop :=
  forall c e, In c h -> P (bid c) -> In e (edges c) -> In e (ids h) -> P e.
Definition marks_in (h : heap) (P : N -> Prop) : Prop :=
  forall c, In c h -> mark c = true -> P (bid c).

Lemma edge_closed_set_marks St h P : edge_closed h P -> edge_closed (set_marks St h) P.
Proof.
  intros H c e Hc Pc He Hi. apply in_set_marks in Hc as [c0 [Hc0 ->]].
  rewrite ids_set_marks in Hi. eapply H; eauto.
Qed.

Lemma marks_in_set_marks St h P : marks_in h P -> (forall s, In s St -> P s) -> marks_in (set_marks St h) P.
Proof.
  intros HP HS c Hc Mc. apply in_set_marks in Hc as [c0 [Hc0 ->]].
  apply smb_mark in Mc as [Mc|Mc]; [exact (HP _ Hc0 Mc)|exact (HS _ Mc)].
Qed.

Lemma drain_spec : forall fuel h q, NoDup (ids h) ->
  (forall x, In x q -> exists c, In c h /\ bid c = x /\ mark c = true) ->
  unmarked h + length q <= fuel ->
  exists St, drain fuel h q = Ok (set_marks St h)
    /\ (closed_except h q -> closed (set_marks St h))
    /\ (forall P : N -> Prop, edge_closed h P -> marks_in h P -> marks_in (set_marks St h) P).
Proof.
  induction fuel as [|f IH]; intros h [|x q] ND Hq Hf; simpl in Hf; try lia.
  1-2: exists []; simpl; rewrite set_marks_nil; split; [reflexivity|];
       split; [apply closed_except_nil|auto].
  destruct (Hq x (or_introl eq_refl)) as [c [Hc [Ec Mc]]].
  simpl. subst x. rewrite (find_box_in h c ND Hc), Mc.
  destruct (trace_mark_spec (edges c) h q ND) as [S1 [E1 [P1 [P2 P3]]]].
  rewrite E1.
  destruct (IH (set_marks S1 h) (rev S1 ++ q)) as [S2 [E2 [C2 Q2]]].
  { now rewrite ids_set_marks. }
  { intros y Hy. apply in_app_or in Hy as [Hy|Hy].
    - apply in_rev in Hy. destruct (P1 y Hy) as [_ Hi]. apply in_ids in Hi as [b [Hb Eb]].
      exists (smb S1 b). split; [apply in_set_marks; eauto|]. split; [exact Eb|].
      apply smb_mark. right. now rewrite Eb.
    - destruct (Hq y (or_intror Hy)) as [c' [Hc' [Ec' Mc']]].
      exists (smb S1 c'). split; [apply in_set_marks; eauto|]. split; [exact Ec'|].
      apply smb_mark. now left. }
  { rewrite app_length, rev_length. lia. }
  exists (S1 ++ S2). rewrite <- set_marks_app. split; [exact E2|]. split.
  + (* a marked box off the new queue is [c], whose targets have just been marked, or was
       marked and off the queue before *)
    intros CE. apply C2. intros c1 d1 Hc1 Mc1 Nq Hd1 He.
    apply in_set_marks in Hc1 as [c0 [Hc0 ->]]. apply in_set_marks in Hd1 as [d0 [Hd0 ->]].
    apply smb_mark in Mc1 as [Mc1|Mc1].
    2:{ destruct Nq. apply in_or_app. left. now apply -> in_rev. }
    destruct (N.eq_dec (bid c0) (bid c)) as [Eq|Ne].
    * apply P3; [exact Hd0|]. rewrite <- (NoDup_ids_inj h ND c0 c Hc0 Hc Eq). exact He.
    * apply smb_mark. left. apply (CE c0 d0); auto. intros [Hx|Hx]; [congruence|].
      apply Nq, in_or_app. now right.
  + intros P EC HP. apply (Q2 P); [now apply edge_closed_set_marks|].
    apply marks_in_set_marks; [exact HP|]. intros s Hs. destruct (P1 s Hs) as [He Hi].
    apply (EC c s); auto.
Qed.

Lemma mark_obj_spec : forall h b, NoDup (ids h) -> In b h -> mark b = false -> closed h ->
  exists St, mark_obj h b = Ok (set_marks St h)
    /\ In (bid b) St
    /\ closed (set_marks St h)
    /\ (forall P : N -> Prop, edge_closed h P -> marks_in h P -> P (bid b) -> marks_in (set_marks St h) P).
Proof.
  intros h b ND Hb Mb Hcl.
  set (h1 := set_marks [bid b] h).
  assert (ND1 : NoDup (ids h1)) by (unfold h1; now rewrite ids_set_marks).
  assert (Hb1 : In (smb [bid b] b) h1) by (apply in_set_marks; eauto).
  assert (Mb1 : mark (smb [bid b] b) = true) by (apply smb_mark; right; now left).
  (* marking [b] and tracing it is the first iteration of [drain] on the queue [[bid b]] *)
  assert (E : mark_obj h b = drain (S (S (length h))) h1 [bid b]).
  { pose proof (find_box_in h1 _ ND1 Hb1) as F. simpl in F.
    cbn [drain]. rewrite F, Mb1. unfold mark_obj. now rewrite set_mark_is. }
  destruct (drain_spec (S (S (length h))) h1 [bid b] ND1) as [S2 [E2 [C2 Q2]]].
  { intros x [<-|[]]. exists (smb [bid b] b). auto. }
  { pose proof (unmarked_le h1). unfold h1 in *. rewrite length_set_marks in H. simpl. lia. }
  exists ([bid b] ++ S2). rewrite <- set_marks_app. fold h1. split; [congruence|]. split; [now left|]. split.
  - apply C2. intros c1 d1 Hc1 Mc1 Nq Hd1 He.
    apply in_set_marks in Hc1 as [c0 [Hc0 ->]]. apply in_set_marks in Hd1 as [d0 [Hd0 ->]].
    apply smb_mark in Mc1 as [Mc1|[Mc1|[]]]; [|destruct Nq; now left].
    apply smb_mark. left. exact (Hcl c0 d0 Hc0 Mc1 Hd0 He).
  - intros P EC HP Pb. apply (Q2 P); [now apply edge_closed_set_marks|].
    apply marks_in_set_marks; [exact HP|]. now intros s [<-|[]].
Qed.

Definition addv (es : list N) (x : box) : box :=
  mkbox (bid x) (edges x) (ext_weak x) (has_view x) (visits x + count_id (bid x) es) (mark x).

Lemma trace_count_is : forall es h, trace_count es h = map (addv es) h.
Proof.
  induction es as [|e es IH]; intros h.
  - simpl. rewrite <- (map_id h) at 1. apply map_ext. intros x. unfold addv, count_id. simpl.
    destruct x; simpl. f_equal. lia.
  - simpl. rewrite IH. unfold upd. rewrite map_map. apply map_ext. intros x.
    unfold addv, count_id. simpl. destruct (N.eqb (bid x) e); simpl; f_equal; lia.
Qed.

Section Phases.
Variable h0 : heap.
Hypothesis ND0 : NoDup (ids h0).

Definition Rch : N -> Prop := reachable h0 (roots h0).
Definition sub (objs : heap) : Prop := forall b, In b objs -> exists b0, In b0 h0 /\ skel b0 = skel b.
Definition keep (objs : heap) : Prop := forall x, Rch x -> In x (ids objs).
Definition sound (objs : heap) : Prop := marks_in objs Rch.

Lemma sub_unique objs b b0 : sub objs -> In b objs -> In b0 h0 -> bid b0 = bid b -> skel b0 = skel b.
Proof.
  intros Hs Hb Hb0 E. destruct (Hs b Hb) as [b1 [H1 S1]].
  assert (b1 = b0).
  { eapply NoDup_ids_inj; eauto. destruct (skel_inv _ _ S1) as [E1 _]. congruence. }
  subst; auto.
Qed.

Lemma Rch_edge_closed objs : sub objs -> edge_closed objs Rch.
Proof.
  intros Hs c e Hc Pc He Hi.
  destruct (Hs c Hc) as [c0 [Hc0 Sc]]. destruct (skel_inv _ _ Sc) as [E1 [E2 _]].
  apply in_ids in Hi as [d [Hd Ed]].
  destruct (Hs d Hd) as [d0 [Hd0 Sd]]. destruct (skel_inv _ _ Sd) as [E3 _].
  apply (reach_step h0 (roots h0) c0 e).
  - rewrite E1. exact Pc.
  - exact Hc0.
  - rewrite E2. exact He.
  - rewrite <- Ed, <- E3. now apply in_ids_bid.
Qed.

Lemma is_root_skel a b : skel a = skel b -> is_root a = is_root b.
Proof. intros H. destruct (skel_inv _ _ H) as [_ [_ [E1 E2]]]. unfold is_root. now rewrite E1, E2. Qed.

Lemma root_Rch objs b : sub objs -> In b objs -> is_root b = true -> Rch (bid b).
Proof.
  intros Hs Hb Rb. destruct (Hs b Hb) as [b0 [Hb0 Sb]].
  destruct (skel_inv _ _ Sb) as [<- _].
  apply reach_root; apply in_ids_bid; [apply filter_In; split|]; auto.
  now rewrite (is_root_skel _ _ Sb).
Qed.

(* what all three loops keep: the vector holds distinct boxes of the start heap with their
   counters changed, among them every reachable one; the marked ones are reachable and
   closed under handles *)
Record Base (objs : heap) : Prop := {
  b_nd : NoDup (ids objs);
  b_sub : sub objs;
  b_keep : keep objs;
  b_sound : sound objs;
  b_closed : closed objs;
}.

Lemma Base_incl objs objs' : Base objs -> NoDup (ids objs') -> (forall x, In x objs' -> In x objs) ->
  keep objs' -> Base objs'.
Proof.
  intros [nd sb kp sd cl] nd' Hin kp'. constructor; auto.
  - intros b Hb. apply sb, Hin, Hb.
  - intros b Hb. apply sd, Hin, Hb.
  - intros c d Hc Mc Hd. apply (cl c d); auto.
Qed.

Lemma Base_perm objs objs' : Base objs -> Permutation objs objs' -> Base objs'.
Proof.
  intros B P. pose proof (ids_perm _ _ P) as Pi. apply (Base_incl objs); auto.
  - eapply Permutation_NoDup; [exact Pi|apply B].
  - intros x. apply Permutation_in. now symmetry.
  - intros x Hx. eapply Permutation_in; [exact Pi|now apply B].
Qed.

Lemma Base_map f objs : (forall b, skel (f b) = skel b) -> Base objs ->
  closed (map f objs) -> sound (map f objs) -> Base (map f objs).
Proof.
  intros Hf [nd sb kp sd cl] cl' sd'.
  assert (Hid : ids (map f objs) = ids objs).
  { unfold ids. rewrite map_map. apply map_ext. intros b. now destruct (skel_inv _ _ (Hf b)). }
  constructor; auto.
  - now rewrite Hid.
  - intros b Hb. apply in_map_iff in Hb as [b1 [<- Hb1]]. rewrite Hf. auto.
  - intros x Hx. rewrite Hid. auto.
Qed.

Record Inv1 (objs : heap) (i : nat) : Prop := {
  i1_base : Base objs;
  i1_le : i <= length objs;
  i1_V : forall b, In b objs -> mark b = false -> visits b = in_count (firstn i objs) (bid b);
  i1_view : forall b, In b (firstn i objs) -> has_view b = true -> mark b = true;
}.

Lemma Inv1_perm objs objs' i : Inv1 objs i -> Permutation objs objs' ->
  Permutation (firstn i objs) (firstn i objs') -> Inv1 objs' i.
Proof.
  intros [B le V vw] P Pf. constructor.
  - now apply (Base_perm objs).
  - now rewrite <- (Permutation_length P).
  - intros b Hb Mb. rewrite <- (in_count_perm _ _ _ Pf). apply V; auto.
    eapply Permutation_in; [symmetry; exact P|exact Hb].
  - intros b Hb. apply vw. eapply Permutation_in; [symmetry; exact Pf|exact Hb].
Qed.

Lemma Inv1_skip objs i b : Inv1 objs i -> nth_error objs i = Some b -> mark b = true ->
  Inv1 objs (S i).
Proof.
  intros [B le V vw] Hn Mb.
  assert (Hb : In b objs) by (eapply nth_error_In; eauto).
  constructor; auto.
  - apply nth_error_lt in Hn. lia.
  - intros x Hx Mx. rewrite (firstn_S_nth _ _ _ Hn), in_count_app, in_count_cons.
    rewrite (closed_count_zero objs b x (b_closed _ B) Hb Mb Hx Mx), (V x Hx Mx). unfold in_count. simpl. lia.
  - intros x Hx Vx. rewrite (firstn_S_nth _ _ _ Hn) in Hx. apply in_app_or in Hx.
    destruct Hx as [Hx|[<-|[]]]; auto.
Qed.

(* marking from a root keeps the invariant: the newly marked boxes are reachable, the marked
   set is closed again, and no counter has changed *)
Lemma Inv1_mark_obj objs i b : Inv1 objs i -> In b objs -> mark b = false -> is_root b = true ->
  exists St, mark_obj objs b = Ok (set_marks St objs) /\ In (bid b) St /\ Inv1 (set_marks St objs) i.
Proof.
  intros [B le V vw] Hb Mb Rb. pose proof B as [nd sb kp sd cl].
  destruct (mark_obj_spec objs b nd Hb Mb cl) as [St [E [Hin [Cl Q]]]].
  exists St. split; [exact E|]. split; [exact Hin|]. unfold set_marks in *.
  constructor.
  - apply Base_map; auto.
    apply Q; [now apply Rch_edge_closed|exact sd|now apply (root_Rch objs)].
  - now rewrite map_length.
  - intros x Hx Mx. apply in_map_iff in Hx as [x1 [<- Hx1]].
    rewrite firstn_map, in_count_map by reflexivity. simpl. apply V; [exact Hx1|].
    simpl in Mx. destruct (mark x1); [discriminate Mx|reflexivity].
  - intros x Hx Vx. rewrite firstn_map in Hx. apply in_map_iff in Hx as [x1 [<- Hx1]].
    simpl. now rewrite (vw x1 Hx1 Vx).
Qed.

(* the branch of [count_loop] for a box with a view *)
Lemma Inv1_viewed objs i b : Inv1 objs i -> nth_error objs i = Some b -> has_view b = true ->
  exists objs1, (if mark b then Ok objs else mark_obj objs b) = Ok objs1
    /\ Inv1 objs1 (S i) /\ length objs1 = length objs.
Proof.
  intros I Hn Vb. destruct (mark b) eqn:Mb.
  { exists objs. split; [reflexivity|]. split; [|reflexivity]. now apply (Inv1_skip objs i b). }
  destruct (Inv1_mark_obj objs i b I) as [St [E [Hin I']]];
    [eapply nth_error_In; eauto|exact Mb|unfold is_root; now rewrite Vb|].
  exists (set_marks St objs). split; [exact E|]. split; [|apply length_set_marks].
  apply (Inv1_skip _ i (smb St b) I'); [|apply smb_mark; now right].
  unfold set_marks. now rewrite nth_error_map, Hn.
Qed.

Lemma Inv1_remove objs i b : Inv1 objs i -> nth_error objs i = Some b -> has_view b = false ->
  weak_count objs b = 0 -> Inv1 (swap_remove objs i) i.
Proof.
  intros [B le V vw] Hn Vb W0. pose proof B as [nd sb kp sd cl].
  assert (Hb : In b objs) by (eapply nth_error_In; eauto).
  pose proof (swap_remove_perm objs i b Hn) as P.
  assert (NDc : NoDup (ids (b :: swap_remove objs i))).
  { eapply Permutation_NoDup; [symmetry; apply ids_perm, P|exact nd]. }
  (* a box without view and without any handle is neither a root nor a target *)
  assert (NR : ~ Rch (bid b)).
  { unfold weak_count in W0. intros R. inversion R as [x Hx Hi Ex|c0 j Rc Hc0 Hj Hi Ej].
    - unfold roots in Hx. apply in_ids in Hx as [r [Hr Er]].
      apply filter_In in Hr as [Hr Rr].
      rewrite (is_root_skel _ _ (sub_unique objs b r sb Hb Hr Er)) in Rr.
      unfold is_root in Rr. rewrite Vb in Rr. apply Nat.ltb_lt in Rr. lia.
    - pose proof (kp _ Rc) as Hc. apply in_ids in Hc as [c [Hc Ec]].
      destruct (skel_inv _ _ (sub_unique objs c c0 sb Hc Hc0 (eq_sym Ec))) as [_ [E2 _]].
      rewrite E2 in Hj. pose proof (in_count_pos objs c (bid b) Hc Hj). lia. }
  constructor.
  - apply (Base_incl objs); auto.
    + now inversion NDc.
    + intros x Hx. eapply Permutation_in; [exact P|now right].
    + intros x Hx.
      destruct (Permutation_in _ (Permutation_sym (ids_perm _ _ P)) (kp x Hx)) as [E|H']; [|exact H'].
      destruct NR. now rewrite E.
  - pose proof (Permutation_length P) as L. simpl in L. apply nth_error_lt in Hn. lia.
  - intros x Hx Mx. rewrite (swap_remove_firstn _ _ _ Hn). apply V; auto.
    eapply Permutation_in; [exact P|now right].
  - intros x Hx. rewrite (swap_remove_firstn _ _ _ Hn) in Hx. auto.
Qed.

Lemma Inv1_count objs i b : Inv1 objs i -> nth_error objs i = Some b -> has_view b = false ->
  Inv1 (trace_count (edges b) objs) (S i).
Proof.
  intros [B le V vw] Hn Vb. rewrite trace_count_is.
  constructor.
  - apply Base_map; auto.
    + intros c d Hc Mc Hd He.
      apply in_map_iff in Hc as [c1 [<- Hc1]]. apply in_map_iff in Hd as [d1 [<- Hd1]].
      exact (b_closed _ B c1 d1 Hc1 Mc Hd1 He).
    + intros x Hx Mx. apply in_map_iff in Hx as [x1 [<- Hx1]]. exact (b_sound _ B x1 Hx1 Mx).
  - rewrite map_length. apply nth_error_lt in Hn. lia.
  - intros x Hx Mx. apply in_map_iff in Hx as [x1 [<- Hx1]].
    rewrite firstn_map, in_count_map by reflexivity.
    rewrite (firstn_S_nth _ _ _ Hn), in_count_app, in_count_cons.
    simpl. rewrite (V x1 Hx1 Mx). unfold in_count at 3. simpl. lia.
  - intros x Hx Vx. rewrite firstn_map in Hx. apply in_map_iff in Hx as [x1 [<- Hx1]].
    rewrite (firstn_S_nth _ _ _ Hn) in Hx1. apply in_app_or in Hx1 as [Hx1|[<-|[]]].
    + apply (vw x1 Hx1 Vx).
    + simpl in Vx. congruence.
Qed.

Lemma count_loop_spec : forall fuel objs i kwv, Inv1 objs i -> length objs - i <= fuel ->
  exists objs', count_loop fuel objs i kwv = Ok objs' /\ Inv1 objs' (length objs').
Proof.
  induction fuel as [|f IH]; intros objs i kwv I Hf; simpl;
    destruct (nth_error objs i) as [b|] eqn:Hn.
  2,4: exists objs; split; [reflexivity|]; apply nth_error_None in Hn;
       pose proof (i1_le _ _ I); now replace (length objs) with i by lia.
  { apply nth_error_lt in Hn. lia. }
  pose proof (nth_error_lt _ _ _ Hn) as Hlt.
  destruct (has_view b) eqn:Vb.
  - destruct (Inv1_viewed objs i b I Hn Vb) as [objs1 [E1 [I1 L1]]]. rewrite E1. simpl.
    destruct (Nat.ltb kwv i) eqn:Hk; [|apply IH; [exact I1|lia]].
    apply Nat.ltb_lt in Hk. apply IH; [|rewrite swap_length; lia].
    apply (Inv1_perm objs1); [exact I1|symmetry; apply swap_perm|symmetry; now apply swap_firstn].
  - destruct (Nat.eqb (weak_count objs b) 0) eqn:W.
    + apply Nat.eqb_eq in W. apply IH; [eapply Inv1_remove; eauto|].
      pose proof (Permutation_length (swap_remove_perm objs i b Hn)) as L. simpl in L. lia.
    + destruct (mark b) eqn:Mb; simpl.
      * apply IH; [eapply Inv1_skip; eauto|lia].
      * apply IH; [eapply Inv1_count; eauto|]. rewrite trace_count_is, map_length. lia.
Qed.

(* boxes with an external handle before position [i] are marked *)
Definition ext_marked (objs : heap) (i : nat) : Prop :=
  forall b, In b (firstn i objs) -> 0 < ext_weak b -> mark b = true.

Lemma mark_loop_spec : forall n objs i, Inv1 objs (length objs) -> ext_marked objs i ->
  length objs - i <= n ->
  exists objs', mark_loop n i objs = Ok objs' /\ Inv1 objs' (length objs') /\
    ext_marked objs' (length objs').
Proof.
  assert (End : forall objs i, length objs <= i -> ext_marked objs i -> ext_marked objs (length objs)).
  { intros objs i Hi H. unfold ext_marked in *. now rewrite firstn_all2 in H |- * by lia. }
  induction n as [|n IH]; intros objs i I X Hn; simpl.
  { exists objs. split; [reflexivity|]. split; [exact I|]. apply (End objs i); [lia|exact X]. }
  destruct (nth_error objs i) as [b|] eqn:Hb.
  2:{ exists objs. split; [reflexivity|]. split; [exact I|].
      apply nth_error_None in Hb. now apply (End objs i). }
  pose proof (nth_error_lt _ _ _ Hb) as Hlt.
  assert (Hin : In b objs) by (eapply nth_error_In; eauto).
  (* for an unmarked box the count pass has counted every in-heap handle *)
  assert (W : mark b = false -> weak_count objs b = ext_weak b + visits b).
  { intros Mb. unfold weak_count. rewrite (i1_V _ _ I b Hin Mb), firstn_all. reflexivity. }
  assert (Next : forall objs' b', nth_error objs' i = Some b' -> (0 < ext_weak b' -> mark b' = true) ->
            ext_marked objs' i -> ext_marked objs' (S i)).
  { intros objs' b' Hb' M X' x Hx Ex. rewrite (firstn_S_nth _ _ _ Hb') in Hx. apply in_app_or in Hx.
    destruct Hx as [Hx|[<-|[]]]; auto. }
  destruct (negb (mark b) && Nat.ltb (visits b) (weak_count objs b)) eqn:C.
  - apply andb_true_iff in C as [C1 C2]. apply negb_true_iff in C1. apply Nat.ltb_lt in C2.
    rewrite (W C1) in C2.
    destruct (Inv1_mark_obj objs _ b I Hin C1) as [St [E [Hs I']]].
    { unfold is_root. apply orb_true_iff. right. apply Nat.ltb_lt. lia. }
    rewrite E. simpl. apply IH.
    + now rewrite length_set_marks.
    + apply (Next _ (smb St b)).
      * unfold set_marks. now rewrite nth_error_map, Hb.
      * intros _. apply smb_mark. now right.
      * intros x Hx Ex. unfold set_marks in Hx. rewrite firstn_map in Hx.
        apply in_map_iff in Hx as [x1 [<- Hx1]]. simpl in *. now rewrite (X x1 Hx1 Ex).
    + rewrite length_set_marks. lia.
  - apply IH; [exact I| |lia]. apply (Next _ b); auto. intros Ex.
    destruct (mark b) eqn:Mb; [reflexivity|]. simpl in C. apply Nat.ltb_ge in C. rewrite (W eq_refl) in C. lia.
Qed.

Lemma marked_complete objs : Inv1 objs (length objs) -> ext_marked objs (length objs) ->
  forall x, Rch x -> forall y, In y objs -> bid y = x -> mark y = true.
Proof.
  intros [[nd sb kp sd cl] _ _ vw] ex. unfold ext_marked in ex. rewrite firstn_all in *.
  intros x R. induction R as [x Hx Hi|c0 j Rc IH Hc0 Hj Hi]; intros y Hy Ey.
  - unfold roots in Hx. apply in_ids in Hx as [r [Hr Er]].
    apply filter_In in Hr as [Hr Rr].
    assert (Sk : skel r = skel y) by (apply (sub_unique objs); auto; congruence).
    rewrite (is_root_skel _ _ Sk) in Rr. unfold is_root in Rr.
    apply orb_true_iff in Rr as [Rr|Rr]; [apply vw; auto|]. apply ex; auto. now apply Nat.ltb_lt.
  - pose proof (kp _ Rc) as Hc. apply in_ids in Hc as [c [Hc Ec]].
    pose proof (sub_unique objs c c0 sb Hc Hc0 (eq_sym Ec)) as Sk.
    destruct (skel_inv _ _ Sk) as [_ [E2 _]].
    apply (cl c y Hc (IH c Hc Ec) Hy). now rewrite Ey, <- E2.
Qed.

End Phases.

Definition kept (l : heap) : heap := map reset_b (filter mark l).

Lemma kept_perm l l' : Permutation l l' -> Permutation (kept l) (kept l').
Proof.
  intros P. unfold kept. apply Permutation_map.
  induction P; simpl.
  - constructor.
  - destruct (mark x); [apply perm_skip|]; auto.
  - destruct (mark x), (mark y); try apply perm_swap; try apply perm_skip; apply Permutation_refl.
  - eapply perm_trans; eauto.
Qed.

Lemma sweep_loop_spec : forall fuel pre rest, NoDup (ids (pre ++ rest)) -> length rest <= fuel ->
  exists objs', sweep_loop fuel (pre ++ rest) (length pre) = Ok objs'
    /\ Permutation objs' (pre ++ kept rest).
Proof.
  induction fuel as [|f IH]; intros pre [|b r] ND Hf; simpl in Hf; try lia;
    simpl; rewrite nth_error_app_len; simpl.
  1-2: exists (pre ++ []); split; reflexivity.
  unfold kept. simpl. destruct (mark b) eqn:Mb.
  - rewrite (upd_middle pre b r reset_b ND).
    destruct (IH (pre ++ [reset_b b]) r) as [objs' [E' P']]; [|lia|].
    { rewrite <- app_assoc. rewrite ids_app in *. exact ND. }
    rewrite <- app_assoc, app_length in E'. simpl in E'. rewrite Nat.add_1_r in E'.
    rewrite <- app_assoc in P'. exists objs'. split; assumption.
  - rewrite swap_remove_middle.
    destruct (IH pre (rot_last r)) as [objs' [E' P']].
    { rewrite ids_app in *. simpl in ND. apply NoDup_remove_1 in ND.
      eapply Permutation_NoDup; [|exact ND]. apply Permutation_app_head.
      symmetry. apply ids_perm, rot_last_perm. }
    { rewrite (Permutation_length (rot_last_perm r)). lia. }
    exists objs'. split; [exact E'|].
    rewrite P'. apply Permutation_app_head, kept_perm, rot_last_perm.
Qed.

Lemma NoDup_ids_filter f h : NoDup (ids h) -> NoDup (ids (filter f h)).
Proof.
  induction h as [|b t IH]; simpl; intros ND; [constructor|].
  inversion ND as [|? ? Hn ND']; subst. destruct (f b); simpl; auto.
  constructor; auto. intros H. apply Hn. apply in_ids in H as [x [Hx Ex]].
  apply filter_In in Hx. apply in_ids. exists x; tauto.
Qed.

Lemma ids_kept h : ids (kept h) = ids (filter mark h).
Proof. unfold ids, kept. rewrite map_map. apply map_ext. reflexivity. Qed.

Lemma reset_same y y0 : skel y0 = skel y -> visits y0 = 0 -> mark y0 = false -> reset_b y = y0.
Proof.
  intros Sk V M. destruct (skel_inv _ _ Sk) as [E1 [E2 [E3 E4]]].
  destruct y0, y; simpl in *; subst. reflexivity.
Qed.

(* the master statement: a collection succeeds and keeps exactly the boxes
   reachable from the roots, each of them unchanged *)
Theorem gc_spec : forall h, wf h ->
  exists h', gc h = Ok h' /\ NoDup (ids h')
    /\ forall b, In b h' <-> (In b h /\ reachable h (roots h) (bid b)).
Proof.
  intros h [ND W].
  assert (I0 : Inv1 h h 0).
  { constructor; [constructor|lia| |intros b []].
    - exact ND.
    - intros b Hb. exists b; auto.
    - intros x Hx. eapply reachable_in_ids; eauto.
    - intros b Hb Mb. destruct (W b Hb) as [_ M]. congruence.
    - intros c d Hc Mc. destruct (W c Hc) as [_ M]. congruence.
    - intros b Hb _. now destruct (W b Hb) as [-> _]. }
  destruct (count_loop_spec h ND (length h) h 0 0 I0) as [h1 [E1 I1]]; [lia|].
  destruct (mark_loop_spec h (length h1) h1 0 I1) as [h2 [E2 [I2 X2]]]; [intros b []|lia|].
  pose proof I2 as [[nd sb kp sd cl] _ _ _].
  destruct (sweep_loop_spec (length h2) [] h2 nd) as [h3 [E3 P3]]; [lia|].
  simpl in E3, P3.
  exists h3. split; [|split].
  - unfold gc. rewrite E1. simpl. rewrite E2. simpl. exact E3.
  - eapply Permutation_NoDup; [symmetry; apply ids_perm, P3|].
    rewrite ids_kept. now apply NoDup_ids_filter.
  - intros b. split.
    + intros Hb. apply (Permutation_in _ P3) in Hb. unfold kept in Hb.
      apply in_map_iff in Hb as [y [Ey Hy]]. apply filter_In in Hy as [Hy My].
      destruct (sb y Hy) as [y0 [Hy0 Sk]]. destruct (W y0 Hy0) as [V0 M0].
      rewrite (reset_same y y0 Sk V0 M0) in Ey. subst y0. split; [exact Hy0|].
      destruct (skel_inv _ _ Sk) as [-> _]. now apply sd.
    + intros [Hb Rb]. apply (Permutation_in _ (Permutation_sym P3)).
      pose proof (kp _ Rb) as Hi. apply in_ids in Hi as [y [Hy Ey]].
      pose proof (marked_complete h ND h2 I2 X2 _ Rb y Hy Ey) as My.
      pose proof (sub_unique h ND h2 y b sb Hy Hb (eq_sym Ey)) as Sk.
      destruct (W b Hb) as [V0 M0].
      unfold kept. apply in_map_iff. exists y. split; [now apply reset_same|].
      now apply filter_In.
Qed.

Lemma gc_ok_spec h h' : wf h -> gc h = Ok h' ->
  NoDup (ids h') /\ forall b, In b h' <-> (In b h /\ reachable h (roots h) (bid b)).
Proof. intros H E. destruct (gc_spec h H) as [x [Ex Sp]]. rewrite E in Ex. now inversion Ex; subst. Qed.

Theorem gc_no_panic : forall h, wf h -> exists h', gc h = Ok h'.
Proof. intros h H. destruct (gc_spec h H) as [h' [E _]]. eauto. Qed.

Theorem gc_exact : forall h, wf h ->
  exists h', gc h = Ok h' /\ forall i, In i (ids h') <-> reachable h (roots h) i.
Proof.
  intros h H. destruct (gc_spec h H) as [h' [E [_ Sp]]]. exists h'. split; [exact E|].
  intros i. split.
  - intros Hi. apply in_ids in Hi as [b [Hb <-]]. now apply Sp in Hb.
  - intros R. pose proof (reachable_in_ids _ _ _ R) as Hi. apply in_ids in Hi as [b [Hb <-]].
    apply in_ids_bid, Sp. auto.
Qed.

Theorem gc_keeps_reachable : forall h h', wf h -> gc h = Ok h' ->
  forall b, In b h -> reachable h (roots h) (bid b) -> In b h'.
Proof. intros h h' H E b Hb R. apply (gc_ok_spec h h' H E). auto. Qed.

Theorem gc_resets : forall h h', wf h -> gc h = Ok h' -> wf h'.
Proof.
  intros h h' H E. destruct (gc_ok_spec h h' H E) as [ND Sp]. split; [exact ND|].
  intros b Hb. apply Sp in Hb. now apply H.
Qed.

(* the survivor set does not depend on the order of the object vector *)
Theorem gc_order_irrelevant : forall h h2 h' h2', wf h -> Permutation h h2 ->
  gc h = Ok h' -> gc h2 = Ok h2' -> Permutation h' h2'.
Proof.
  intros h h2 h' h2' H P E E2.
  destruct (gc_ok_spec h h' H E) as [NDx Sx].
  destruct (gc_ok_spec h2 h2' (wf_perm _ _ P H) E2) as [NDy Sy].
  apply NoDup_Permutation; try (apply NoDup_boxes; assumption).
  assert (Hh : forall b, In b h <-> In b h2).
  { intros b. split; apply Permutation_in; [exact P|symmetry; exact P]. }
  intros b. rewrite Sx, Sy, (Hh b), (reachable_same h h2 Hh). tauto.
Qed.

(* a second collection right after the first keeps everything *)
Theorem gc_idempotent : forall h h', wf h -> gc h = Ok h' ->
  exists h'', gc h' = Ok h'' /\ Permutation h'' h'.
Proof.
  intros h h' H E.
  destruct (gc_ok_spec h h' H E) as [ND Sp].
  destruct (gc_spec h' (gc_resets h h' H E)) as [h'' [E'' [ND'' Sp'']]].
  exists h''. split; [exact E''|].
  apply NoDup_Permutation; try (apply NoDup_boxes; assumption).
  intros b. rewrite Sp''. split; [tauto|]. intros Hb. split; [exact Hb|].
  (* what survived was reachable, and its whole path from a root survived with it *)
  apply Sp in Hb as [_ Rb]. revert Rb. apply reachable_transfer.
  - intros c Hc Rc. apply Sp. auto.
  - intros i Hi _. apply roots_iff in Hi as [r [Hr [Rr <-]]]. apply roots_iff.
    exists r. split; [|auto]. apply Sp. split; [exact Hr|].
    apply reach_root; [apply roots_iff; eauto|now apply in_ids_bid].
Qed.

(* once nothing outside the heap holds a handle or a view, a collection empties the heap *)
Theorem baseline_return : forall h, wf h -> roots h = [] -> gc h = Ok [].
Proof.
  intros h H R0. destruct (gc_spec h H) as [h' [E [_ Sp]]]. rewrite E. f_equal.
  destruct h' as [|b t]; [reflexivity|]. exfalso.
  destruct (proj1 (Sp b) (or_introl eq_refl)) as [_ R]. rewrite R0 in R.
  clear -R. induction R as [i Hi _|]; auto.
Qed.

(* with permanent roots P: if every remaining root is permanent, every survivor is
   reachable from P *)
Theorem baseline_return_perm : forall h h' P, wf h -> gc h = Ok h' ->
  (forall i, In i (roots h) -> In i P) ->
  forall i, In i (ids h') -> reachable h P i.
Proof.
  intros h h' P H E HP i Hi.
  destruct (gc_exact h H) as [x [Ex Sx]]. rewrite E in Ex. inversion Ex; subst x.
  apply Sx in Hi. revert Hi. apply reachable_transfer; auto.
Qed.

(* [wf] decided, for concrete heaps *)
Fixpoint nodupb (l : list N) : bool :=
  match l with
  | [] => true
  | x :: t => negb (memN x t) && nodupb t
  end.

Lemma nodupb_ok l : nodupb l = true -> NoDup l.
Proof.
  induction l as [|x t IH]; simpl; intros H; [constructor|].
  apply andb_true_iff in H as [H1 H2]. constructor; auto.
  intros Hin. apply memN_in in Hin. rewrite Hin in H1. discriminate.
Qed.

Definition wf_check (h : heap) : bool :=
  nodupb (ids h) && forallb (fun b => Nat.eqb (visits b) 0 && negb (mark b)) h.

Lemma wf_check_ok h : wf_check h = true -> wf h.
Proof.
  unfold wf_check. intros H. apply andb_true_iff in H as [H1 F].
  split; [now apply nodupb_ok|]. intros b Hb. rewrite forallb_forall in F. specialize (F b Hb).
  apply andb_true_iff in F as [F1 F2]. apply Nat.eqb_eq in F1. apply negb_true_iff in F2. auto.
Qed.

Definition exec (s : st) (os : list op) : st := fold_left (fun s o => fst (step s o)) os s.

Definition WS (s : st) : Prop :=
  wf (sheap s) /\ forall i, In i (ids (sheap s)) -> (i < snext s)%N.

Definition quiet (r : st * obs) : Prop := WS (fst r) /\ forall site, snd r <> ObsFail site.

Lemma quiet_skip s : WS s -> quiet (s, ObsSkip).
Proof. split; [assumption|discriminate]. Qed.

Lemma quiet_upd s i f : (forall b, bid (f b) = bid b) -> (forall b, visits (f b) = visits b) ->
  (forall b, mark (f b) = mark b) -> WS s -> quiet (mkst (upd i f (sheap s)) (snext s), ObsDone).
Proof.
  intros Hb Hv Hm [[ND W] B].
  assert (Hid : ids (upd i f (sheap s)) = ids (sheap s)).
  { unfold ids, upd. rewrite map_map. apply map_ext. intros b. destruct (N.eqb (bid b) i); auto. }
  split; [|discriminate]. split; simpl; [split|]; rewrite ?Hid; auto.
  intros b Hin. unfold upd in Hin. apply in_map_iff in Hin as [b0 [<- H0]].
  destruct (N.eqb (bid b0) i); rewrite ?Hv, ?Hm; auto.
Qed.

Lemma NoDup_snoc {A} (l : list A) x : NoDup l -> ~ In x l -> NoDup (l ++ [x]).
Proof.
  intros ND Hn. eapply Permutation_NoDup; [apply Permutation_cons_append|]. constructor; auto.
Qed.

Lemma quiet_alloc s ext v : WS s ->
  quiet (mkst (sheap s ++ [mkbox (snext s) [] ext v 0 false]) (N.succ (snext s)), ObsNew (snext s)).
Proof.
  intros [[ND W] B]. split; [|discriminate]. split; simpl.
  - split.
    + rewrite ids_app. simpl. apply NoDup_snoc; auto.
      intros Hin. specialize (B _ Hin). lia.
    + intros b Hb. apply in_app_or in Hb. destruct Hb as [Hb|[<-|[]]]; auto.
  - intros i Hi. rewrite ids_app in Hi. apply in_app_or in Hi. simpl in Hi.
    destruct Hi as [Hi|[<-|[]]]; [specialize (B _ Hi)|]; lia.
Qed.

Lemma step_quiet s o : WS s -> quiet (step s o).
Proof.
  intros H. pose proof (quiet_skip s H) as Skip. destruct o; simpl.
  - now apply quiet_alloc.
  - now apply quiet_alloc.
  - destruct (find_box a (sheap s)); [|exact Skip]. destruct (find_box b (sheap s)); [|exact Skip].
    destruct (accessible b0 && accessible b1); [|exact Skip]. now apply quiet_upd.
  - destruct (find_box a (sheap s)); [|exact Skip].
    destruct (accessible b && N.ltb k (N.of_nat (length (edges b)))); [|exact Skip]. now apply quiet_upd.
  - destruct (find_box a (sheap s)); [|exact Skip]. destruct (ext_weak b); [exact Skip|]. now apply quiet_upd.
  - destruct (find_box a (sheap s)); [|exact Skip]. destruct (has_view b); [|exact Skip]. now apply quiet_upd.
  - destruct (find_box a (sheap s)); [|exact Skip].
    destruct (negb (has_view b) && Nat.ltb 0 (ext_weak b)); [|exact Skip]. now apply quiet_upd.
  - destruct (find_box a (sheap s)); [|exact Skip]. destruct (accessible b); [|exact Skip]. now apply quiet_upd.
  - destruct H as [W B]. destruct (gc_spec _ W) as [h' [E [ND Sp]]]. rewrite E.
    split; [|discriminate]. split; simpl.
    + eapply gc_resets; eauto.
    + intros i Hi. apply in_ids in Hi as [b [Hb <-]]. apply Sp in Hb.
      now apply B, in_ids_bid.
Qed.

Lemma exec_WS : forall os s, WS s -> WS (exec s os).
Proof.
  induction os as [|o os IH]; intros s H; simpl; auto. apply IH. now apply step_quiet.
Qed.

Lemma init_WS : WS init_st.
Proof. split; simpl; [split; [constructor|intros b []]|intros i []]. Qed.

(* along every history of driver operations the heap is well formed, so every collection in
   it meets the hypothesis of gc_spec *)
Theorem history_wf : forall os, wf (sheap (exec init_st os)).
Proof. intros os. exact (proj1 (exec_WS os init_st init_WS)). Qed.

Theorem history_gc_exact : forall os,
  let h := sheap (exec init_st os) in
  exists h', gc h = Ok h' /\ forall i, In i (ids h') <-> reachable h (roots h) i.
Proof. intros os h. apply gc_exact. apply history_wf. Qed.

Lemma run_ops_never_fails_from : forall os s, WS s -> forall site, ~ In (ObsFail site) (run_ops s os).
Proof.
  induction os as [|o os IH]; intros s H site; simpl; [tauto|].
  destruct (step_quiet s o H) as [H' Hq]. destruct (step s o) as [s' ob].
  intros [Hf|Hf]; [exact (Hq site Hf)|exact (IH s' H' site Hf)].
Qed.

(* the model driver never reports a collector failure (debug_assert / fuel) on any script *)
Theorem run_ops_never_fails : forall os site, ~ In (ObsFail site) (run_ops init_st os).
Proof. intros os. apply run_ops_never_fails_from. exact init_WS. Qed.
