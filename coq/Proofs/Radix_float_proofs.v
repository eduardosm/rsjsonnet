(* Proofs/Radix_float_proofs.v — the meaning of [f_of_Z] (SpecFloat.binary_normalize,
   prec 53, emax 1024) through Flocq: it is the round-to-nearest-even of the integer,
   finite whenever that rounding stays below 2^1024. *)
From Coq Require Import ZArith Reals Lia Floats.SpecFloat.
From Flocq Require Import Core.Core IEEE754.BinarySingleNaN.
From RJ Require Import Base.F64 Proofs.Dec_proofs.

Definition rne (x : R) : R := round radix2 (SpecFloat.fexp 53 1024) (round_mode mode_NE) x.

(* f_of_Z is the correctly rounded (nearest, ties to even) double of the integer *)
Theorem f_of_Z_correct : forall z : Z,
  (Rabs (rne (IZR z)) < bpow radix2 1024)%R ->
  f_is_finite (f_of_Z z) = true /\ SF2R radix2 (f_of_Z z) = rne (IZR z).
Proof.
  intros z Hlt. unfold f_of_Z, f_of_Z_exp, prec, emax. rewrite binary_normalize_equiv.
  pose proof (binary_normalize_correct 53 1024 P53 PE mode_NE z 0 false) as H.
  cbv zeta in H. unfold F2R in H. cbn [Fnum Fexp bpow] in H. rewrite Rmult_1_r in H.
  fold (rne (IZR z)) in H. rewrite Rlt_bool_true in H by exact Hlt.
  destruct H as [HR [HF _]]. split.
  - unfold f_is_finite. rewrite <- HF. now destruct (binary_normalize 53 1024 P53 PE mode_NE z 0 false).
  - rewrite SF2R_B2SF. exact HR.
Qed.

Theorem f_of_Z_finite_small : forall z, (Z.abs z <= 2 ^ 128)%Z -> f_is_finite (f_of_Z z) = true.
Proof. intros z. apply binary_normalize_int_finite. lia. Qed.
