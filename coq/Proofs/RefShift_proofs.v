(* Proofs/RefShift_proofs.v — C02/C10: depth-shift invariance of the reference interpreter: evaluating at
   depth d+1 under stack limit L+1 is evaluating at depth d under limit L (same trace, same result).
   One lemma per definition of RefEval.v, proved along its syntax ([sh_tac]); big case distinctions are
   split while the definition is still folded, as in RefSem_proofs.v. *)
From RJ Require Import Base.Outcome Base.F64 Model.Token Model.Ast Model.RefCore Model.RefValue Model.RefEval.
From RJ Require Import Proofs.RefSem_proofs Proofs.RefDead_proofs.
From Coq Require Import Lia.
Local Open Scope N_scope.

Definition cfgs (c c' : cfg) : Prop := c_limit c' = c_limit c + 1 /\ c_bfs c' = c_bfs c /\ c_ts_tail c' = c_ts_tail c.
Definition recs (r r' : recfn) : Prop := forall t d, r' t (d + 1) = r t d.
Definition sh {A} (R : A -> A -> Prop) (m m' : M A) : Prop :=
  forall c c' r r', cfgs c c' -> recs r r' -> rrel R (m c r) (m' c' r').
Definition succ_rel (a b : N) : Prop := b = a + 1.

Lemma sh_ret {A} (R : A -> A -> Prop) a a' : R a a' -> sh R (ret a) (ret a').
Proof. intros H c c' r r' _ _. split; [reflexivity | exact H]. Qed.
Lemma sh_ret_eq {A} (a : A) : sh eq (ret a) (ret a).
Proof. apply sh_ret. reflexivity. Qed.
Lemma sh_lift {A} (o : outcome A err) : sh eq (lift o) (lift o).
Proof. intros c c' r r' _ _. split; [reflexivity|]. unfold lift. simpl. destruct o; simpl; auto. Qed.
Lemma sh_fail {A} e : sh eq (@fail A e) (fail e). Proof. apply sh_lift. Qed.
Lemma sh_kind {A} s : sh eq (@kind A s) (kind s). Proof. apply sh_lift. Qed.
Lemma sh_unsupported {A} s : sh eq (@unsupported A s) (unsupported s). Proof. apply sh_lift. Qed.
Lemma sh_argtype {A} : sh eq (@argtype A) argtype. Proof. apply sh_lift. Qed.
Lemma sh_emit s : sh eq (emit s) (emit s).
Proof. intros c c' r r' _ _. split; reflexivity. Qed.
Lemma sh_ask_bfs : sh eq ask_bfs ask_bfs.
Proof. intros c c' r r' (_ & H & _) _. unfold ask_bfs. rewrite H. split; reflexivity. Qed.
Lemma sh_ask_ts_tail : sh eq ask_ts_tail ask_ts_tail.
Proof. intros c c' r r' (_ & _ & H) _. unfold ask_ts_tail. rewrite H. split; reflexivity. Qed.
Lemma sh_call t d : sh eq (call t d) (call t (d + 1)).
Proof.
  intros c c' r r' _ Hr. unfold call. rewrite Hr. split; [reflexivity|]. destruct (snd (r t d)); simpl; auto.
Qed.
Lemma sh_enter d : sh succ_rel (enter d) (enter (d + 1)).
Proof.
  intros c c' r r' (H & _) _. unfold enter. rewrite H.
  destruct (c_limit c <? d + 1) eqn:E.
  - assert (E2 : c_limit c + 1 <? d + 1 + 1 = true) by (apply N.ltb_lt; apply N.ltb_lt in E; lia). rewrite E2. split; reflexivity.
  - assert (E2 : c_limit c + 1 <? d + 1 + 1 = false) by (apply N.ltb_ge; apply N.ltb_ge in E; lia). rewrite E2. split; reflexivity.
Qed.

Lemma sh_bind {A B} (Q : A -> A -> Prop) (R : B -> B -> Prop) (m m' : M A) (k k' : A -> M B) :
  sh Q m m' -> (forall a a', Q a a' -> sh R (k a) (k' a')) -> sh R (bind m k) (bind m' k').
Proof.
  intros Hm Hk c c' r r' Hc Hr. specialize (Hm c c' r r' Hc Hr). unfold rrel, bind in *.
  destruct (m c r) as [t o]. destruct (m' c' r') as [t' o']. simpl in Hm. destruct Hm as [-> Ho].
  destruct o as [a | e | s |]; destruct o' as [a' | e' | s' |]; simpl in Ho; try contradiction.
  - specialize (Hk a a' Ho c c' r r' Hc Hr). unfold rrel in Hk. destruct (k a c r) as [t2 o2]. destruct (k' a' c' r') as [t2' o2'].
    simpl in *. destruct Hk as [-> Ho2]. split; [reflexivity | exact Ho2].
  - subst. split; reflexivity.
  - subst. split; reflexivity.
  - split; reflexivity.
Qed.

(* the two shapes of [sh_bind] that occur: a step with equal results, and a frame entered one level deeper *)
Lemma sh_bind_eq {A B} (R : B -> B -> Prop) (m m' : M A) (k k' : A -> M B) :
  sh eq m m' -> (forall a, sh R (k a) (k' a)) -> sh R (bind m k) (bind m' k').
Proof. intros Hm Hk. apply (sh_bind eq R _ _ _ _ Hm). intros a a' <-. apply Hk. Qed.
Lemma sh_bind_enter {B} (R : B -> B -> Prop) d (k k' : N -> M B) :
  (forall d', sh R (k d') (k' (d' + 1))) -> sh R (bind (enter d) k) (bind (enter (d + 1)) k').
Proof. intros Hk. apply (sh_bind succ_rel R _ _ _ _ (sh_enter d)). intros a a' ->. apply Hk. Qed.

Lemma sh_mapM {A B} (f f' : A -> M B) l : (forall a, sh eq (f a) (f' a)) -> sh eq (mapM f l) (mapM f' l).
Proof.
  intros Hf. induction l as [|x r IH]; simpl; [apply sh_ret_eq|].
  apply sh_bind_eq; [apply Hf|]. intros y. apply sh_bind_eq; [apply IH|]. intros ys. apply sh_ret_eq.
Qed.
Lemma sh_iterM {A} (f f' : A -> M unit) l : (forall a, sh eq (f a) (f' a)) -> sh eq (iterM f l) (iterM f' l).
Proof.
  intros Hf. induction l as [|x r IH]; simpl; [apply sh_ret_eq|].
  apply sh_bind_eq; [apply Hf|]. intros y. apply IH.
Qed.

Lemma sh_with_super en k k' : (forall ls i, sh eq (k ls i) (k' ls i)) -> sh eq (with_super en k) (with_super en k').
Proof. intros H. unfold with_super. destruct (lookup_obj en) as [[[ls i] chk]|]; [apply H | apply sh_fail]. Qed.
Lemma sh_int2 a b k : (forall x y, sh eq (k x y) (k x y)) -> sh eq (int2 a b k) (int2 a b k).
Proof. intros H. unfold int2. destruct (safe_int a); [destruct (safe_int b); [apply H|] |]; apply sh_kind. Qed.

(* The constants of the interpreter are opaque to the hint base: a goal [sh _ (f ..) (f ..)] is matched
   by the head [f] against the one lemma about [f], never by unfolding some other definition. *)
Create HintDb sh discriminated.
#[export] Hint Constants Opaque : sh.
#[export] Hint Resolve sh_ret_eq sh_lift sh_fail sh_kind sh_unsupported sh_argtype sh_emit sh_ask_bfs sh_ask_ts_tail sh_call sh_enter : sh.

(* One step along the syntax of a computation: a bind, an iteration, a case distinction, or a call of a
   definition whose lemma is already in the hint base (or is the induction hypothesis). *)
Ltac sh_step :=
  match goal with
  | |- sh _ (bind (enter _) _) (bind (enter _) _) => apply sh_bind_enter; intros ?
  | |- sh _ (bind _ _) (bind _ _) => apply sh_bind_eq; [| intros ?]
  | |- sh _ (mapM _ _) (mapM _ _) => apply sh_mapM; intros ?
  | |- sh _ (iterM _ _) (iterM _ _) => apply sh_iterM; intros ?
  | |- sh _ (with_super _ _) (with_super _ _) => apply sh_with_super; intros ? ?
  | |- sh _ (int2 _ _ _) (int2 _ _ _) => apply sh_int2; intros ? ?
  | |- sh _ (match ?x with _ => _ end) (match ?x with _ => _ end) => destruct x
  | |- sh _ (if ?b then _ else _) (if ?b then _ else _) => destruct b
  | |- sh _ _ _ => solve [auto with sh]
  end.
Ltac sh_tac := repeat sh_step.

Lemma sh_as_val a : sh eq (as_val a) (as_val a). Proof. unfold as_val. sh_tac. Qed.
Lemma sh_as_bool a : sh eq (as_bool a) (as_bool a). Proof. unfold as_bool. sh_tac. Qed.
Lemma sh_as_cmp a : sh eq (as_cmp a) (as_cmp a). Proof. unfold as_cmp. sh_tac. Qed.
Lemma sh_as_json a : sh eq (as_json a) (as_json a). Proof. unfold as_json. sh_tac. Qed.
#[export] Hint Resolve sh_as_val sh_as_bool sh_as_cmp sh_as_json : sh.

Lemma sh_eval e x d : sh eq (eval e x d) (eval e x (d + 1)). Proof. unfold eval. sh_tac. Qed.
Lemma sh_forceT t d : sh eq (forceT t d) (forceT t (d + 1)). Proof. unfold forceT. sh_tac. Qed.
Lemma sh_apply f p n b d : sh eq (apply f p n b d) (apply f p n b (d + 1)). Proof. unfold apply. sh_tac. Qed.
Lemma sh_applyf f p d : sh eq (applyf f p d) (applyf f p (d + 1)). Proof. unfold applyf. apply sh_apply. Qed.
Lemma sh_field_at ls f n d : sh eq (field_at ls f n d) (field_at ls f n (d + 1)). Proof. unfold field_at. sh_tac. Qed.
Lemma sh_equals a b d : sh eq (equals a b d) (equals a b (d + 1)). Proof. unfold equals. sh_tac. Qed.
Lemma sh_compare a b d : sh eq (compare a b d) (compare a b (d + 1)). Proof. unfold compare. sh_tac. Qed.
Lemma sh_manifest s v d : sh eq (manifest s v d) (manifest s v (d + 1)). Proof. unfold manifest. sh_tac. Qed.
#[export] Hint Resolve sh_eval sh_forceT sh_apply sh_applyf sh_field_at sh_equals sh_compare sh_manifest : sh.

Lemma sh_render_m j : sh eq (render_m j) (render_m j). Proof. unfold render_m. sh_tac. Qed.
#[export] Hint Resolve sh_render_m : sh.
Lemma sh_to_string v d : sh eq (to_string v d) (to_string v (d + 1)). Proof. unfold to_string. sh_tac. Qed.
#[export] Hint Resolve sh_to_string : sh.
Lemma sh_un_op op v : sh eq (un_op op v) (un_op op v). Proof. destruct op, v; unfold un_op; sh_tac. Qed.
Lemma sh_num_bin op a b : sh eq (num_bin op a b) (num_bin op a b).
Proof. destruct op; unfold num_bin; sh_tac. Qed.
#[export] Hint Resolve sh_un_op sh_num_bin : sh.
Lemma sh_add_vals l r d : sh eq (add_vals l r d) (add_vals l r (d + 1)). Proof. destruct l, r; unfold add_vals; sh_tac. Qed.
#[export] Hint Resolve sh_add_vals : sh.
Lemma sh_bin_op_other op l r d : sh eq (bin_op_other op l r d) (bin_op_other op l r (d + 1)).
Proof. unfold bin_op_other. sh_tac. Qed.
#[export] Hint Resolve sh_bin_op_other : sh.
Lemma sh_bin_op op l r d : sh eq (bin_op op l r d) (bin_op op l r (d + 1)). Proof. rewrite !bin_op_cases. sh_tac. Qed.
#[export] Hint Resolve sh_bin_op : sh.

Lemma sh_run_assert en a d : sh eq (run_assert en a d) (run_assert en a (d + 1)). Proof. unfold run_assert. sh_tac. Qed.
#[export] Hint Resolve sh_run_assert : sh.
Lemma sh_run_layer_asserts ls rest i d : sh eq (run_layer_asserts ls rest i d) (run_layer_asserts ls rest i (d + 1)).
Proof. induction rest in i |- *; simpl; sh_tac. Qed.
#[export] Hint Resolve sh_run_layer_asserts : sh.
Lemma sh_run_asserts ls c d : sh eq (run_asserts ls c d) (run_asserts ls c (d + 1)). Proof. unfold run_asserts. sh_tac. Qed.
#[export] Hint Resolve sh_run_asserts : sh.
Lemma sh_missing_field {A} ls n : sh eq (@missing_field A ls n) (@missing_field A ls n). Proof. unfold missing_field. sh_tac. Qed.
#[export] Hint Resolve sh_missing_field : sh.
Lemma sh_get_field ls c n d : sh eq (get_field ls c n d) (get_field ls c n (d + 1)). Proof. unfold get_field. sh_tac. Qed.
#[export] Hint Resolve sh_get_field : sh.
Lemma sh_do_field ls f n d : sh eq (do_field ls f n d) (do_field ls f n (d + 1)). Proof. unfold do_field. sh_tac. Qed.
Lemma sh_super_field en n d : sh eq (super_field en n d) (super_field en n (d + 1)).
Proof. unfold super_field. sh_tac. Qed.
#[export] Hint Resolve sh_do_field sh_super_field : sh.

Lemma sh_field_name_of v : sh eq (field_name_of v) (field_name_of v). Proof. unfold field_name_of. sh_tac. Qed.
Lemma sh_add_field acc on f : sh eq (add_field acc on f) (add_field acc on f). Proof. unfold add_field. sh_tac. Qed.
#[export] Hint Resolve sh_field_name_of sh_add_field : sh.
Lemma sh_build_fields en fs acc d : sh eq (build_fields en fs acc d) (build_fields en fs acc (d + 1)).
Proof. induction fs in acc |- *; simpl; sh_tac. Qed.
#[export] Hint Resolve sh_build_fields : sh.

Lemma sh_expand_for x vs vals : sh eq (expand_for x vs vals) (expand_for x vs vals).
Proof. induction vs in vals |- *; simpl; sh_tac. Qed.
Lemma sh_filter_if vs vals : sh eq (filter_if vs vals) (filter_if vs vals).
Proof. induction vs in vals |- *; simpl; sh_tac. Qed.
#[export] Hint Resolve sh_expand_for sh_filter_if : sh.
Lemma sh_comp_bfs en specs vs d : sh eq (comp_bfs en specs vs d) (comp_bfs en specs vs (d + 1)).
Proof. induction specs in vs |- *; simpl; sh_tac. Qed.
Lemma sh_comp_dfs en specs v d : sh eq (comp_dfs en specs v d) (comp_dfs en specs v (d + 1)).
Proof. induction specs in v |- *; simpl; sh_tac. Qed.
#[export] Hint Resolve sh_comp_bfs sh_comp_dfs : sh.
Lemma sh_comp_envs en specs d : sh eq (comp_envs en specs d) (comp_envs en specs (d + 1)). Proof. unfold comp_envs. sh_tac. Qed.
#[export] Hint Resolve sh_comp_envs : sh.
Lemma sh_build_comp_fields envs n p b acc d : sh eq (build_comp_fields envs n p b acc d) (build_comp_fields envs n p b acc (d + 1)).
Proof. induction envs in acc |- *; simpl; sh_tac. Qed.
#[export] Hint Resolve sh_build_comp_fields : sh.

Lemma sh_index_value v i d : sh eq (index_value v i d) (index_value v i (d + 1)). Proof. destruct v, i; unfold index_value; sh_tac. Qed.
Lemma sh_opt_num v s : sh eq (opt_num v s) (opt_num v s). Proof. unfold opt_num. sh_tac. Qed.
Lemma sh_slice_pos l f : sh eq (slice_pos l f) (slice_pos l f). Proof. unfold slice_pos. sh_tac. Qed.
#[export] Hint Resolve sh_index_value sh_opt_num sh_slice_pos : sh.
Lemma sh_slice_range l a b c : sh eq (slice_range l a b c) (slice_range l a b c). Proof. unfold slice_range. sh_tac. Qed.
#[export] Hint Resolve sh_slice_range : sh.
Lemma sh_do_slice v a b c f : sh eq (do_slice v a b c f) (do_slice v a b c f). Proof. unfold do_slice. sh_tac. Qed.
Lemma sh_eval_opt en o d : sh eq (eval_opt en o d) (eval_opt en o (d + 1)). Proof. unfold eval_opt. sh_tac. Qed.
#[export] Hint Resolve sh_do_slice sh_eval_opt : sh.

Lemma sh_filter_m fv items d : sh eq (filter_m fv items d) (filter_m fv items (d + 1)).
Proof. induction items; simpl; sh_tac. Qed.
Lemma sh_foldl_m fv items acc d : sh eq (foldl_m fv items acc d) (foldl_m fv items acc (d + 1)).
Proof. induction items in acc |- *; simpl; sh_tac. Qed.
Lemma sh_foldr_m fv items acc d : sh eq (foldr_m fv items acc d) (foldr_m fv items acc (d + 1)).
Proof. induction items in acc |- *; simpl; sh_tac. Qed.
Lemma sh_join_str_m sep items first acc d : sh eq (join_str_m sep items first acc d) (join_str_m sep items first acc (d + 1)).
Proof. induction items in first, acc |- *; simpl; sh_tac. Qed.
Lemma sh_join_arr_m sep items first acc d : sh eq (join_arr_m sep items first acc d) (join_arr_m sep items first acc (d + 1)).
Proof. induction items in first, acc |- *; simpl; sh_tac. Qed.
#[export] Hint Resolve sh_filter_m sh_foldl_m sh_foldr_m sh_join_str_m sh_join_arr_m : sh.
Lemma sh_object_has o f h : sh eq (object_has o f h) (object_has o f h). Proof. unfold object_has. sh_tac. Qed.
Lemma sh_object_fields o h : sh eq (object_fields o h) (object_fields o h). Proof. unfold object_fields. sh_tac. Qed.
Lemma sh_prim_equals a b : sh eq (prim_equals a b) (prim_equals a b). Proof. destruct a, b; unfold prim_equals; sh_tac. Qed.
Lemma sh_mod_num a b : sh eq (mod_num a b) (mod_num a b). Proof. unfold mod_num. sh_tac. Qed.
#[export] Hint Resolve sh_object_has sh_object_fields sh_prim_equals sh_mod_num : sh.

Lemma sh_all_m items d : sh eq (all_m items d) (all_m items (d + 1)).
Proof. induction items; simpl; sh_tac. Qed.
Lemma sh_any_m items d : sh eq (any_m items d) (any_m items (d + 1)).
Proof. induction items; simpl; sh_tac. Qed.
Lemma sh_sum_m items acc d : sh eq (sum_m items acc d) (sum_m items acc (d + 1)).
Proof. induction items in acc |- *; simpl; sh_tac. Qed.
Lemma sh_flatten_m items acc d : sh eq (flatten_m items acc d) (flatten_m items acc (d + 1)).
Proof. induction items in acc |- *; simpl; sh_tac. Qed.
Lemma sh_contains_m x items d : sh eq (contains_m x items d) (contains_m x items (d + 1)).
Proof. induction items; simpl; sh_tac. Qed.
Lemma sh_count_m x items n d : sh eq (count_m x items n d) (count_m x items n (d + 1)).
Proof. induction items in n |- *; simpl; sh_tac. Qed.
#[export] Hint Resolve sh_all_m sh_any_m sh_sum_m sh_flatten_m sh_contains_m sh_count_m : sh.

Lemma sh_call_builtin bi args d : sh eq (call_builtin bi args d) (call_builtin bi args (d + 1)).
Proof.
  destruct args as [|a0 [|a1 [|a2 [|a3 [|a4 r]]]]]; destruct bi; unfold call_builtin; sh_tac.
Qed.
#[export] Hint Resolve sh_call_builtin : sh.

Lemma sh_force_args ts d : sh eq (force_args ts d) (force_args ts (d + 1)). Proof. unfold force_args. sh_tac. Qed.
#[export] Hint Resolve sh_force_args : sh.
Lemma sh_do_apply fv pos named force d : sh eq (do_apply fv pos named force d) (do_apply fv pos named force (d + 1)).
Proof. unfold do_apply. sh_tac. Qed.

Lemma sh_eq_items a b d : sh eq (eq_items a b d) (eq_items a b (d + 1)).
Proof. induction a in b |- *; simpl; sh_tac. Qed.
Lemma sh_eq_fields la lb names d : sh eq (eq_fields la lb names d) (eq_fields la lb names (d + 1)).
Proof. induction names; simpl; sh_tac. Qed.
Lemma sh_cmp_items a b d : sh eq (cmp_items a b d) (cmp_items a b (d + 1)).
Proof. induction a in b |- *; simpl; sh_tac. Qed.
#[export] Hint Resolve sh_eq_items sh_eq_fields sh_cmp_items : sh.
Lemma sh_do_equals a b d : sh eq (do_equals a b d) (do_equals a b (d + 1)). Proof. destruct a, b; unfold do_equals; sh_tac. Qed.
Lemma sh_do_compare a b d : sh eq (do_compare a b d) (do_compare a b (d + 1)). Proof. destruct a, b; unfold do_compare; sh_tac. Qed.
Lemma sh_do_manifest s v d : sh eq (do_manifest s v d) (do_manifest s v (d + 1)). Proof. unfold do_manifest. sh_tac. Qed.
Lemma sh_cond_bool v : sh eq (cond_bool v) (cond_bool v). Proof. unfold cond_bool. sh_tac. Qed.
#[export] Hint Resolve sh_do_apply sh_do_equals sh_do_compare sh_do_manifest sh_cond_bool : sh.

Lemma sh_do_eval en x d : sh eq (do_eval en x d) (do_eval en x (d + 1)).
Proof.
  destruct x; try destruct op; unfold do_eval; sh_tac.
Qed.
Lemma sh_do_force t d : sh eq (do_force t d) (do_force t (d + 1)). Proof. unfold do_force. sh_tac. Qed.
#[export] Hint Resolve sh_do_eval sh_do_force : sh.

Lemma sh_step_fn t d : sh eq (step t d) (step t (d + 1)).
Proof. unfold step. destruct t; sh_tac. Qed.

Lemma sh_run_task c c' : cfgs c c' -> forall f, recs (run_task f c) (run_task f c').
Proof.
  intros Hc. induction f as [|n IH]; intros t d; [reflexivity|]. simpl.
  symmetry. apply rrel_eq. apply (sh_step_fn t d c c' _ _ Hc IH).
Qed.
