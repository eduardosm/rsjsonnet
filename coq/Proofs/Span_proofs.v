(* A span id is either an index into the interner with bit 63 set, or an offset
   and a length packed into two bit fields.  A packed id is decoded by a binary
   search for its offset among the end offsets of the contexts.  These increase
   strictly, so the search returns the number of end offsets <= the offset, and
   appending further contexts does not change that number: this is why an id
   decodes to the triple it was registered with whatever is registered later. *)
From RJ Require Import Base.Outcome Model.Span.
From Coq Require Import Lia Sorting.Sorted.
Local Open Scope N_scope.

Lemma testbit_small x n m : x < 2 ^ n -> n <= m -> N.testbit x m = false.
Proof.
  intros Hx Hnm. rewrite <- (N.mod_small x (2 ^ n)) by exact Hx.
  apply N.mod_pow2_bits_high. exact Hnm.
Qed.

Lemma pack_land k a b : a < 2 ^ k ->
  N.land (N.lor a (N.shiftl b k)) (2 ^ k - 1) = a.
Proof.
  intros Ha. replace (2 ^ k - 1) with (N.ones k) by (rewrite N.ones_equiv; lia).
  rewrite N.land_lor_distr_l, !N.land_ones.
  rewrite N.shiftl_mul_pow2, N.mod_mul by (apply N.pow_nonzero; lia).
  rewrite N.mod_small by exact Ha. apply N.lor_0_r.
Qed.

Lemma pack_shiftr k a b : a < 2 ^ k ->
  N.shiftr (N.lor a (N.shiftl b k)) k = b.
Proof.
  intros Ha. rewrite N.shiftr_lor.
  rewrite (N.shiftr_div_pow2 a), N.div_small by exact Ha.
  rewrite N.shiftr_shiftl_l by lia. rewrite N.sub_diag, N.shiftl_0_r. apply N.lor_0_l.
Qed.

Lemma pow_split k : k < 63 -> 2 ^ 63 = 2 ^ k * 2 ^ (63 - k).
Proof. intros. rewrite <- N.pow_add_r. f_equal. lia. Qed.

Lemma pack_bit63 k a b : a < 2 ^ k -> b < 2 ^ (63 - k) -> k < 63 ->
  N.land (N.lor a (N.shiftl b k)) bit63 = 0.
Proof.
  intros Ha Hb Hk. apply N.bits_inj. intros i.
  rewrite N.land_spec, N.bits_0. unfold bit63. rewrite N.pow2_bits_eqb.
  destruct (N.eqb_spec 63 i) as [<-|Hne]; [|apply andb_false_r].
  rewrite andb_true_r, N.lor_spec.
  rewrite (testbit_small a k 63) by (assumption || lia).
  rewrite N.shiftl_spec_high' by lia.
  rewrite (testbit_small b (63 - k)) by (assumption || lia). reflexivity.
Qed.

Lemma tag_bit63 i : N.land (N.lor i bit63) bit63 <> 0.
Proof.
  rewrite N.land_lor_distr_l, N.land_diag. intros H.
  apply N.lor_eq_0_iff in H as [_ H]. discriminate H.
Qed.

Lemma tag_ldiff i : i < 2 ^ 63 -> N.ldiff (N.lor i bit63) bit63 = i.
Proof.
  intros Hi. apply N.bits_inj. intros n.
  rewrite N.ldiff_spec, N.lor_spec. unfold bit63. rewrite N.pow2_bits_eqb.
  destruct (N.eqb_spec 63 n) as [<-|Hne].
  - rewrite (testbit_small i 63 63) by (assumption || lia). reflexivity.
  - rewrite orb_false_r, andb_true_r. reflexivity.
Qed.

Definition sorted (l : list N) : Prop := StronglySorted N.lt l.

Lemma sorted_app l1 l2 : sorted (l1 ++ l2) -> sorted l1 /\ sorted l2.
Proof.
  unfold sorted. induction l1 as [|x l1 IH]; cbn [app]; intros H.
  - split; [constructor|exact H].
  - apply StronglySorted_inv in H as [Hs Hall]. destruct (IH Hs) as [H1 H2].
    apply Forall_app in Hall as [Hall _]. split; [constructor; assumption|exact H2].
Qed.

Lemma sorted_last_max l : sorted l -> Forall (fun x => x <= last l 0) l.
Proof.
  unfold sorted. induction 1 as [|x l Hs IH Hall]; [constructor|].
  destruct l as [|y l']; [constructor; [apply N.le_refl|constructor]|].
  change (last (x :: y :: l') 0) with (last (y :: l') 0).
  constructor; [|exact IH]. apply Forall_inv in IH. apply Forall_inv in Hall. lia.
Qed.

Lemma sorted_snoc l e : sorted l -> last l 0 < e -> sorted (l ++ [e]).
Proof.
  intros Hs He. assert (Hall : Forall (fun x => x < e) l).
  { eapply Forall_impl; [|exact (sorted_last_max l Hs)]. cbv beta. intros; lia. }
  clear He. induction Hs as [|x l Hs IH Hx]; cbn [app].
  - repeat constructor.
  - inversion Hall; subst. constructor; [apply IH; assumption|].
    apply Forall_app. split; [exact Hx|]. constructor; [assumption|constructor].
Qed.

Lemma count_le_bound off l : count_le off l <= N.of_nat (length l).
Proof.
  unfold count_le. induction l as [|x l IH]; cbn [filter length]; [lia|].
  destruct (x <=? off); cbn [length]; lia.
Qed.

Lemma count_le_app off l1 l2 : count_le off (l1 ++ l2) = count_le off l1 + count_le off l2.
Proof. unfold count_le. rewrite filter_app, app_length. lia. Qed.

Lemma count_le_all off l : sorted l -> last l 0 <= off -> count_le off l = N.of_nat (length l).
Proof.
  intros Hs Hl. assert (H : Forall (fun x => x <= off) l).
  { eapply Forall_impl; [|exact (sorted_last_max l Hs)]. cbv beta. intros; lia. }
  unfold count_le. clear Hs Hl. induction H as [|x l Hx _ IH]; cbn [filter length]; [reflexivity|].
  destruct (N.leb_spec x off); [|lia]. cbn [length]. lia.
Qed.

Lemma count_le_none off a l : sorted (a :: l) -> off < a -> count_le off (a :: l) = 0.
Proof.
  intros Hs Ha. apply StronglySorted_inv in Hs as [_ Hall]. unfold count_le. cbn [filter].
  destruct (N.leb_spec a off); [lia|].
  induction Hall as [|x l Hx _ IH]; cbn [filter]; [reflexivity|].
  destruct (N.leb_spec x off); [lia|exact IH].
Qed.

Lemma count_le_lt_iff off l1 e l2 : sorted (l1 ++ e :: l2) ->
  e <= off <-> N.of_nat (length l1) < count_le off (l1 ++ e :: l2).
Proof.
  intros Hs. destruct (N.le_gt_cases e off) as [Hle|Hgt].
  - replace (l1 ++ e :: l2) with ((l1 ++ [e]) ++ l2) in * by (rewrite <- app_assoc; reflexivity).
    apply sorted_app in Hs as [Hs _].
    rewrite count_le_app, count_le_all, app_length by (rewrite ?last_last; assumption).
    cbn [length]. lia.
  - apply sorted_app in Hs as [_ Hs]. rewrite count_le_app, count_le_none by assumption.
    pose proof (count_le_bound off l1). lia.
Qed.

Lemma div2_bounds lo hi : (lo < hi)%nat -> (lo <= Nat.div2 (lo + hi) < hi)%nat.
Proof.
  intros H. pose proof (Nat.div2_odd (lo + hi)) as E.
  destruct (Nat.odd (lo + hi)); cbn [Nat.b2n] in E; lia.
Qed.

Lemma bsearch_correct l off : sorted l ->
  forall fuel lo hi,
    (lo <= N.to_nat (count_le off l) <= hi)%nat -> (hi <= length l)%nat ->
    (hi - lo < fuel)%nat ->
    bsearch fuel l off lo hi = N.to_nat (count_le off l).
Proof.
  intros Hs. induction fuel as [|f IH]; intros lo hi Hc Hh Hf; [lia|].
  cbn [bsearch]. destruct (Nat.leb_spec hi lo) as [Hle|Hlt]; [lia|].
  pose proof (div2_bounds lo hi Hlt) as Hm.
  set (mid := Nat.div2 (lo + hi)) in *.
  destruct (nth_error l mid) as [e|] eqn:Hn.
  2:{ apply nth_error_None in Hn. lia. }
  apply nth_error_split in Hn as (l1 & l2 & E & Hlen).
  pose proof (count_le_lt_iff off l1 e l2) as Hiff. rewrite <- E, Hlen in Hiff. specialize (Hiff Hs).
  destruct (N.leb_spec e off); apply IH; lia.
Qed.

Lemma lookup_is_count m off : sorted (contexts m) ->
  get_context_from_offset m off = count_le off (contexts m).
Proof.
  intros Hs. unfold get_context_from_offset.
  rewrite (bsearch_correct _ off Hs); [lia| |lia|lia].
  pose proof (count_le_bound off (contexts m)). lia.
Qed.

Definition wf (m : mgr) : Prop :=
  sorted (contexts m) /\ Forall (fun x => 0 < x /\ x <= u64_max) (contexts m).

Lemma wf_empty : wf empty_mgr.
Proof. split; constructor. Qed.

Lemma insert_context_wf m len m' id :
  wf m -> insert_context m len = Ok (m', id) ->
  wf m' /\ id = N.of_nat (length (contexts m)) /\
  contexts m' = contexts m ++ [last (contexts m) 0 + len + 1] /\
  idx_to_span m' = idx_to_span m.
Proof.
  intros [Hs Hb] H. unfold insert_context in H.
  destruct (N.ltb_spec u64_max (last (contexts m) 0 + len + 1)); [discriminate|].
  injection H as <- <-. cbn [contexts idx_to_span]. repeat split.
  - apply sorted_snoc; [exact Hs|lia].
  - apply Forall_app. split; [exact Hb|]. constructor; [lia|constructor].
Qed.

Lemma gco_eq m ctx : get_context_offsets m ctx = gco_raw m ctx.
Proof.
  unfold get_context_offsets.
  destruct (N.leb_spec (N.of_nat (length (contexts m))) ctx); [|reflexivity].
  unfold gco_raw. rewrite (proj2 (nth_error_None _ _)) by lia. reflexivity.
Qed.

Lemma gco_app m l1 hi l2 : contexts m = l1 ++ hi :: l2 ->
  get_context_offsets m (N.of_nat (length l1)) = Ok (last l1 0, hi).
Proof.
  intros E. rewrite gco_eq. unfold gco_raw.
  rewrite E, Nat2N.id, nth_error_app2, Nat.sub_diag by lia. cbn [nth_error].
  destruct l1 as [|x l1 _] using rev_ind; [reflexivity|].
  rewrite app_length, Nat.add_1_r, last_last, <- app_assoc, nth_error_app2, Nat.sub_diag by lia.
  reflexivity.
Qed.

Lemma gco_split m ctx lo hi : get_context_offsets m ctx = Ok (lo, hi) ->
  exists l1 l2, contexts m = l1 ++ hi :: l2 /\ ctx = N.of_nat (length l1) /\ lo = last l1 0.
Proof.
  intros H. pose proof H as H0. rewrite gco_eq in H0. unfold gco_raw in H0.
  destruct (nth_error (contexts m) (N.to_nat ctx)) as [h|] eqn:Hn; [clear H0|discriminate].
  apply nth_error_split in Hn as (l1 & l2 & E & Hlen).
  rewrite <- (N2Nat.id ctx), <- Hlen, (gco_app m l1 h l2 E) in H. injection H as <- <-.
  exists l1, l2. repeat split; [exact E|lia].
Qed.

Lemma gco_grow m m' cs ctx lo hi : contexts m' = contexts m ++ cs ->
  get_context_offsets m ctx = Ok (lo, hi) -> get_context_offsets m' ctx = Ok (lo, hi).
Proof.
  intros Hc H. apply gco_split in H as (l1 & l2 & E & -> & ->).
  apply gco_app with (l2 := l2 ++ cs). rewrite Hc, E, <- app_assoc. reflexivity.
Qed.

Lemma gco_hi_le_max m ctx lo hi : wf m ->
  get_context_offsets m ctx = Ok (lo, hi) -> hi <= u64_max.
Proof.
  intros [_ Hb] H. apply gco_split in H as (l1 & l2 & E & _). rewrite E in Hb.
  apply Forall_elt in Hb. apply Hb.
Qed.

Lemma count_le_context m ctx lo hi off : sorted (contexts m) ->
  get_context_offsets m ctx = Ok (lo, hi) -> lo <= off -> off < hi ->
  count_le off (contexts m) = ctx.
Proof.
  intros Hs H Hlo Hhi. apply gco_split in H as (l1 & l2 & E & -> & ->). rewrite E in *.
  apply sorted_app in Hs as [Hs1 Hs2].
  rewrite count_le_app, count_le_all, count_le_none by assumption. lia.
Qed.

Lemma count_le_context_end m lo hi off : sorted (contexts m) ->
  get_context_offsets m (count_le off (contexts m)) = Ok (lo, hi) -> off < hi.
Proof.
  intros Hs H. apply gco_split in H as (l1 & l2 & E & Hc & _). rewrite E in *.
  apply N.lt_nge. rewrite (count_le_lt_iff off l1 hi l2 Hs), Hc. apply N.lt_irrefl.
Qed.

Lemma nthN_spec {A} (l : list A) i : nthN l i = nth_error l (N.to_nat i).
Proof.
  unfold nthN. destruct (N.leb_spec (N.of_nat (length l)) i); [|reflexivity].
  symmetry. apply nth_error_None. lia.
Qed.

Lemma find_index_some {A} (eqb : A -> A -> bool) x l i k :
  (forall a b, eqb a b = true -> a = b) ->
  find_index eqb x l i = Some k -> (i <= k)%nat /\ nth_error l (k - i) = Some x.
Proof.
  intros Heq. revert i. induction l as [|y r IH]; cbn [find_index]; intros i H; [discriminate|].
  destruct (eqb x y) eqn:E.
  - injection H as <-. apply Heq in E. subst. rewrite Nat.sub_diag. split; [lia|reflexivity].
  - apply IH in H as [H1 H2]. split; [lia|].
    replace (k - i)%nat with (S (k - S i)) by lia. exact H2.
Qed.

Lemma triple_eqb_eq a b : triple_eqb a b = true -> a = b.
Proof.
  destruct a as [[a1 a2] a3], b as [[b1 b2] b3]. unfold triple_eqb.
  rewrite !andb_true_iff, !N.eqb_eq. intros [[-> ->] ->]. reflexivity.
Qed.

Definition consts_ok (C : span_consts) : Prop :=
  0 < offset_bits C /\ offset_bits C < 63 /\
  offset_mask C = 2 ^ offset_bits C - 1 /\
  len_max C = 2 ^ (63 - offset_bits C) - 1.

Definition in_range (m : mgr) (t : span_triple) : Prop :=
  let '(ctx, a, b) := t in
  exists lo hi, get_context_offsets m ctx = Ok (lo, hi) /\ a <= b /\ lo + b < hi.

Definition small (m : mgr) : Prop := N.of_nat (length (idx_to_span m)) < 2 ^ 63.

Lemma get_span_interned C m i t :
  small m -> nth_error (idx_to_span m) i = Some t ->
  get_span C m (N.lor (N.of_nat i) bit63) = Ok t.
Proof.
  intros Hsmall Hn. unfold get_span.
  destruct (N.eqb_spec (N.land (N.lor (N.of_nat i) bit63) bit63) 0) as [E|_];
    [destruct (tag_bit63 _ E)|].
  assert (i < length (idx_to_span m))%nat by (apply nth_error_Some; congruence).
  rewrite tag_ldiff, nthN_spec, Nat2N.id, Hn by (unfold small in Hsmall; lia). reflexivity.
Qed.

Lemma get_span_inline C m ctx lo hi a b :
  consts_ok C -> sorted (contexts m) ->
  get_context_offsets m ctx = Ok (lo, hi) -> a <= b -> lo + b < hi ->
  lo + a < offset_mask C -> b - a <= len_max C ->
  get_span C m (N.lor (lo + a + 1) (N.shiftl (b - a) (offset_bits C))) = Ok (ctx, a, b).
Proof.
  intros (Hk0 & Hk & Hmask & Hlen) Hs Hg Hab Hhi Hoff Hl.
  set (k := offset_bits C) in *.
  assert (Hpow : 0 < 2 ^ (63 - k)) by (apply N.neq_0_lt_0, N.pow_nonzero; lia).
  assert (Ha : lo + a + 1 < 2 ^ k) by lia.
  assert (Hb : b - a < 2 ^ (63 - k)) by lia.
  unfold get_span. fold k.
  rewrite pack_bit63, Hmask, pack_land, pack_shiftr by assumption. cbn [N.eqb].
  destruct (N.eqb_spec (lo + a + 1) 0) as [|_]; [lia|]. rewrite N.add_sub.
  rewrite lookup_is_count, (count_le_context m ctx lo hi), Hg by (assumption || lia). cbn [obind].
  destruct (N.ltb_spec (lo + a) lo); [lia|].
  rewrite (N.add_comm lo a), N.add_sub, (N.add_comm a), N.sub_add by exact Hab. reflexivity.
Qed.

Lemma intern_span_in_range C m c a b m' id :
  intern_span C m c a b = Ok (m', id) -> in_range m (c, a, b).
Proof.
  unfold intern_span, in_range.
  destruct (get_context_offsets m c) as [[lo hi]| | |]; cbn [obind]; try discriminate.
  destruct (N.leb_spec a b); cbn [negb]; [|discriminate].
  destruct ((u64_max <? lo + a) || (u64_max <? lo + b)); [discriminate|].
  destruct (N.ltb_spec (lo + a) hi); cbn [negb]; [|discriminate].
  destruct (N.ltb_spec (lo + b) hi); cbn [negb]; [|discriminate].
  intros _. exists lo, hi. auto.
Qed.

Lemma intern_span_roundtrip C m ctx a b :
  consts_ok C -> wf m -> in_range m (ctx, a, b) ->
  exists m' id, intern_span C m ctx a b = Ok (m', id) /\
    contexts m' = contexts m /\
    (exists ext, idx_to_span m' = idx_to_span m ++ ext) /\
    (small m' -> get_span C m' id = Ok (ctx, a, b)).
Proof.
  intros HC Hwf (lo & hi & Hg & Hab & Hhi).
  pose proof (gco_hi_le_max m ctx lo hi Hwf Hg) as Hmax.
  unfold intern_span. rewrite Hg. cbn [obind].
  destruct (N.leb_spec a b) as [_|]; [|lia]. cbn [negb].
  destruct (N.ltb_spec u64_max (lo + a)); [lia|].
  destruct (N.ltb_spec u64_max (lo + b)); [lia|]. cbn [orb].
  destruct (N.ltb_spec (lo + a) hi); [|lia]. cbn [negb].
  destruct (N.ltb_spec (lo + b) hi); [|lia]. cbn [negb].
  destruct ((len_max C <? b - a) || (offset_mask C <=? lo + a)) eqn:Hpath.
  - (* Interned: the triple is found in the interner or appended to it *)
    destruct (find_index triple_eqb (ctx, a, b) (idx_to_span m) 0) as [i|] eqn:Hf.
    + exists m, (N.lor (N.of_nat i) bit63). repeat split.
      * exists []. rewrite app_nil_r. reflexivity.
      * intros Hsmall. apply get_span_interned; [exact Hsmall|].
        apply find_index_some in Hf as [_ Hf]; [|exact triple_eqb_eq].
        rewrite Nat.sub_0_r in Hf. exact Hf.
    + eexists _, _. split; [reflexivity|]. cbn [contexts idx_to_span]. repeat split.
      * eexists. reflexivity.
      * intros Hsmall. apply get_span_interned; [exact Hsmall|]. cbn [idx_to_span].
        rewrite nth_error_app2, Nat.sub_diag by lia. reflexivity.
  - (* Inline *)
    apply orb_false_iff in Hpath as [Hp1 Hp2].
    apply N.ltb_ge in Hp1. apply N.leb_gt in Hp2.
    destruct (N.eqb_spec (N.lor (lo + a + 1) (N.shiftl (b - a) (offset_bits C))) 0) as [E|_].
    { apply N.lor_eq_0_iff in E as [E _]. lia. }
    exists m, (N.lor (lo + a + 1) (N.shiftl (b - a) (offset_bits C))). repeat split.
    + exists []. rewrite app_nil_r. reflexivity.
    + intros _. apply (get_span_inline C m ctx lo hi); (assumption || apply Hwf).
Qed.

(* make_surrounding_span is how the parser spans a node from its first to its
   last token *)
Theorem surrounding_span_valid C m ia ib c sa ea sb eb :
  consts_ok C -> wf m ->
  get_span C m ia = Ok (c, sa, ea) -> get_span C m ib = Ok (c, sb, eb) ->
  in_range m (c, sb, eb) -> sa <= eb ->
  exists m' id, make_surrounding_span C m ia ib = Ok (m', id) /\
                (small m' -> get_span C m' id = Ok (c, sa, eb)).
Proof.
  intros HC Hwf Ha Hb (lo & hi & Hg & Hsb & Hhi) Hse.
  unfold make_surrounding_span. rewrite Ha. cbn [obind]. rewrite Hb. cbn [obind].
  rewrite N.eqb_refl. cbn [negb].
  destruct (N.leb_spec sa eb) as [_|]; [|lia]. cbn [negb].
  assert (Hr : in_range m (c, sa, eb)) by (exists lo, hi; auto).
  destruct (intern_span_roundtrip C m c sa eb HC Hwf Hr) as (m' & id & H1 & _ & _ & H2).
  exists m', id. auto.
Qed.

Lemma get_span_stable C m m' cs ext id t :
  sorted (contexts m') ->
  contexts m' = contexts m ++ cs -> idx_to_span m' = idx_to_span m ++ ext ->
  get_span C m id = Ok t -> get_span C m' id = Ok t.
Proof.
  intros Hs' Hc Hx. unfold get_span. destruct (N.land id bit63 =? 0).
  - (* the offset lies between the offsets lo, hi of its context in m; the
       context keeps them in m', so lookup in m' finds it again *)
    destruct (N.land id (offset_mask C) =? 0); [auto|].
    set (off := N.land id (offset_mask C) - 1).
    assert (Hs : sorted (contexts m)) by (rewrite Hc in Hs'; apply sorted_app in Hs'; apply Hs').
    rewrite (lookup_is_count m), (lookup_is_count m') by assumption.
    destruct (get_context_offsets m (count_le off (contexts m))) as [[lo hi]| | |] eqn:Hg;
      cbn [obind]; try discriminate.
    destruct (N.ltb_spec off lo) as [|Hlo]; [discriminate|]. intros H.
    pose proof (count_le_context_end m lo hi off Hs Hg) as Hhi.
    apply (gco_grow m m' cs) in Hg; [|exact Hc].
    rewrite (count_le_context m' (count_le off (contexts m)) lo hi off), Hg by assumption.
    cbn [obind]. destruct (N.ltb_spec off lo); [lia|exact H].
  - rewrite Hx, !nthN_spec.
    destruct (nth_error (idx_to_span m) (N.to_nat (N.ldiff id bit63))) eqn:Hn; [|discriminate].
    rewrite nth_error_app1, Hn by (apply nth_error_Some; congruence). auto.
Qed.

Inductive req :=
| RCtx (len : N)
| RSpan (ctx a b : N).

(* replays a history on the model; logs (id, requested triple) for every
   registration the manager accepted *)
Fixpoint play (C : span_consts) (m : mgr) (log : list (N * span_triple)) (rs : list req)
  : mgr * list (N * span_triple) :=
  match rs with
  | [] => (m, log)
  | RCtx len :: r =>
      match insert_context m len with
      | Ok (m', _) => play C m' log r
      | _ => play C m log r
      end
  | RSpan c a b :: r =>
      match intern_span C m c a b with
      | Ok (m', id) => play C m' ((id, (c, a, b)) :: log) r
      | _ => play C m log r
      end
  end.

(* small is assumed of the final manager only; the interner never shrinks, so
   it then holds of every manager on the way *)
Lemma play_invariant C : consts_ok C -> forall rs m log,
  wf m ->
  let '(mf, logf) := play C m log rs in
  wf mf /\ (length (idx_to_span m) <= length (idx_to_span mf))%nat /\
  (small mf ->
   Forall (fun p => get_span C m (fst p) = Ok (snd p)) log ->
   Forall (fun p => get_span C mf (fst p) = Ok (snd p)) logf).
Proof.
  intros HC. induction rs as [|r rs IH]; intros m log Hwf.
  - cbn [play]. auto.
  - destruct r as [len|c a b]; cbn [play].
    + destruct (insert_context m len) as [[m' id]| | |] eqn:Hi; try (apply IH; exact Hwf).
      destruct (insert_context_wf _ _ _ _ Hwf Hi) as (Hwf' & _ & Hc & Hx).
      specialize (IH m' log Hwf'). destruct (play C m' log rs) as [mf logf].
      destruct IH as (H1 & H2 & H3). rewrite Hx in H2. refine (conj H1 (conj H2 _)).
      intros Hsm Hlog. apply H3; [exact Hsm|].
      eapply Forall_impl; [|exact Hlog]. intros p.
      eapply (get_span_stable C m m' _ []); [apply Hwf'|exact Hc|rewrite app_nil_r; exact Hx].
    + destruct (intern_span C m c a b) as [[m' id]| | |] eqn:Hi; try (apply IH; exact Hwf).
      pose proof (intern_span_in_range _ _ _ _ _ _ _ Hi) as Hr.
      destruct (intern_span_roundtrip C m c a b HC Hwf Hr) as (m'' & id' & Hi' & Hc & [ext Hx] & Hrt).
      rewrite Hi in Hi'. injection Hi' as <- <-.
      assert (Hwf' : wf m') by (unfold wf; rewrite Hc; exact Hwf).
      specialize (IH m' ((id, (c, a, b)) :: log) Hwf').
      destruct (play C m' ((id, (c, a, b)) :: log) rs) as [mf logf].
      destruct IH as (H1 & H2 & H3). rewrite Hx, app_length in H2.
      refine (conj H1 (conj _ _)); [lia|].
      intros Hsm Hlog. apply H3; [exact Hsm|]. constructor.
      * apply Hrt. unfold small in *. rewrite Hx, app_length. lia.
      * eapply Forall_impl; [|exact Hlog]. intros p.
        apply (get_span_stable C m m' [] ext); [apply Hwf'|rewrite app_nil_r; exact Hc|exact Hx].
Qed.

Theorem span_history_roundtrip C rs :
  consts_ok C ->
  let '(mf, logf) := play C empty_mgr [] rs in
  small mf ->
  Forall (fun p => get_span C mf (fst p) = Ok (snd p)) logf.
Proof.
  intros HC. pose proof (play_invariant C HC rs empty_mgr [] wf_empty) as H.
  destruct (play C empty_mgr [] rs) as [mf logf]. destruct H as (_ & _ & H).
  intros Hsm. apply H; [exact Hsm|constructor].
Qed.

Lemma play_wf C rs : consts_ok C -> wf (fst (play C empty_mgr [] rs)).
Proof.
  intros HC. pose proof (play_invariant C HC rs empty_mgr [] wf_empty) as H.
  destruct (play C empty_mgr [] rs) as [mf logf]. apply H.
Qed.

Theorem span_valid_request_accepted C rs ctx a b :
  consts_ok C ->
  let m := fst (play C empty_mgr [] rs) in
  in_range m (ctx, a, b) ->
  exists m' id, intern_span C m ctx a b = Ok (m', id) /\
                (small m' -> get_span C m' id = Ok (ctx, a, b)).
Proof.
  intros HC m Hr.
  destruct (intern_span_roundtrip C m ctx a b HC (play_wf C rs HC) Hr) as (m' & id & H1 & _ & _ & H2).
  exists m', id. auto.
Qed.

Theorem crop_slices_in_range stack_len max_trace f h s :
  crop stack_len max_trace = Some (f, h, s) ->
  f <= stack_len /\ s <= stack_len /\       (* both slice bounds are inside the stack *)
  f + s = max_trace /\                      (* exactly max_trace items are shown      *)
  h = stack_len - max_trace /\ f + h + s = stack_len /\ 0 < h /\
  s <= f /\ f <= s + 1.                     (* the innermost half gets the odd item   *)
Proof.
  unfold crop. destruct (N.leb_spec stack_len max_trace); [discriminate|].
  intros Hc. injection Hc as <- <- <-.
  assert (H2 : 2 <> 0) by discriminate.
  pose proof (N.div_mod max_trace 2 H2) as E.
  pose proof (N.mod_lt max_trace 2 H2) as Hr.
  set (q := max_trace / 2) in *. set (r := max_trace mod 2) in *. clearbody q r. lia.
Qed.

Theorem crop_none_iff stack_len max_trace :
  crop stack_len max_trace = None <-> stack_len <= max_trace.
Proof.
  unfold crop. destruct (N.leb_spec stack_len max_trace) as [H|H].
  - split; [intros _; exact H|reflexivity].
  - split; [discriminate|lia].
Qed.
