(* Proofs/AnalyzeRt_proofs.v — run-time half of C09: induction over the IR, and
   the walker of the evaluator's environment discipline never fails a lookup on a
   closed IR (continues Proofs/Analyze_proofs.v). *)
From RJ Require Import Base.Outcome Model.Token Model.Ast Model.Ir Model.Analyze Proofs.Analyze_proofs.
Local Open Scope outcome_scope.

Section IrAll.
  Variable P : ir -> Prop.
  Definition iopt_all (o : option ir) : Prop := match o with Some x => P x | None => True end.
  Definition iassert_all (a : ir_assert) : Prop :=
    match a with MkIrAssert _ c _ m => P c /\ iopt_all m end.
  Definition ifname_all (n : ir_fname) : Prop := match n with IFix _ => True | IDyn e => P e end.
  Definition ifield_all (f : ir_field) : Prop :=
    match f with MkIrField n _ _ _ v => ifname_all n /\ P v end.
  Definition ispec_all (c : ir_spec) : Prop := match c with ISFor _ e _ => P e | ISIf e _ => P e end.
  Definition ichildren_all (i : ir) : Prop :=
    match i with
    | INull | IBool _ | INumber _ _ | IString _ | IIdentityFunc | IImport _ _ | IImportStr _ _
    | IImportBin _ _ | IOtherError _ | ISuperField _ _ _ | IVar _ _ | ISelfObj | ITopObj => True
    | IObject _ locals asserts fields =>
        Forall (fun l => P (snd l)) locals /\ Forall iassert_all asserts /\ Forall ifield_all fields
    | IObjectComp _ locals fn _ _ fv specs =>
        Forall (fun l => P (snd l)) locals /\ P fn /\ P fv /\ Forall ispec_all specs
    | IArray items => Forall P items
    | IArrayComp v specs => P v /\ Forall ispec_all specs
    | IField o _ _ | ISuperIndex _ o _ | IUnary _ o _ | IInSuper o _ | IError o _ => P o
    | IIndex a b _ | IBinary _ a b _ => P a /\ P b
    | ISlice a x y z _ => P a /\ iopt_all x /\ iopt_all y /\ iopt_all z
    | ICall c pos named _ _ => P c /\ Forall P pos /\ Forall (fun a => P (snd a)) named
    | ILocal bs inner => Forall (fun b => P (snd b)) bs /\ P inner
    | IIf c _ t e => P c /\ P t /\ iopt_all e
    | IFunc ps body => Forall (fun p => iopt_all (snd p)) ps /\ P body
    | IAssert a inner => iassert_all a /\ P inner
    end.

  Section Rec.
    Variable rec : forall i, P i.
    Definition iopt_rec (o : option ir) : iopt_all o := match o with Some x => rec x | None => I end.
    Definition iassert_rec (a : ir_assert) : iassert_all a :=
      match a with MkIrAssert _ c _ m => conj (rec c) (iopt_rec m) end.
    Definition ifname_rec (n : ir_fname) : ifname_all n :=
      match n with IFix _ => I | IDyn e => rec e end.
    Definition ifield_rec (f : ir_field) : ifield_all f :=
      match f with MkIrField n _ _ _ v => conj (ifname_rec n) (rec v) end.
    Definition ispec_rec (c : ir_spec) : ispec_all c :=
      match c with ISFor _ e _ => rec e | ISIf e _ => rec e end.
  End Rec.

  Hypothesis step : forall i, ichildren_all i -> P i.

  Fixpoint ir_ind' (i : ir) {struct i} : P i :=
    step i
      (match i as i0 return ichildren_all i0 with
       | INull | IBool _ | INumber _ _ | IString _ | IIdentityFunc | IImport _ _ | IImportStr _ _
       | IImportBin _ _ | IOtherError _ | ISuperField _ _ _ | IVar _ _ | ISelfObj | ITopObj => I
       | IObject _ locals asserts fields =>
           conj (list_rec' (fun l => P (snd l)) (fun l => ir_ind' (snd l)) locals)
                (conj (list_rec' iassert_all (iassert_rec ir_ind') asserts)
                      (list_rec' ifield_all (ifield_rec ir_ind') fields))
       | IObjectComp _ locals fn _ _ fv specs =>
           conj (list_rec' (fun l => P (snd l)) (fun l => ir_ind' (snd l)) locals)
                (conj (ir_ind' fn) (conj (ir_ind' fv) (list_rec' ispec_all (ispec_rec ir_ind') specs)))
       | IArray items => list_rec' P ir_ind' items
       | IArrayComp v specs => conj (ir_ind' v) (list_rec' ispec_all (ispec_rec ir_ind') specs)
       | IField o _ _ | ISuperIndex _ o _ | IUnary _ o _ | IInSuper o _ | IError o _ => ir_ind' o
       | IIndex a b _ | IBinary _ a b _ => conj (ir_ind' a) (ir_ind' b)
       | ISlice a x y z _ =>
           conj (ir_ind' a) (conj (iopt_rec ir_ind' x) (conj (iopt_rec ir_ind' y) (iopt_rec ir_ind' z)))
       | ICall c pos named _ _ =>
           conj (ir_ind' c) (conj (list_rec' P ir_ind' pos)
                                  (list_rec' (fun a => P (snd a)) (fun a => ir_ind' (snd a)) named))
       | ILocal bs inner =>
           conj (list_rec' (fun b => P (snd b)) (fun b => ir_ind' (snd b)) bs) (ir_ind' inner)
       | IIf c _ t e => conj (ir_ind' c) (conj (ir_ind' t) (iopt_rec ir_ind' e))
       | IFunc ps body =>
           conj (list_rec' (fun p => iopt_all (snd p)) (fun p => iopt_rec ir_ind' (snd p)) ps) (ir_ind' body)
       | IAssert a inner => conj (iassert_rec ir_ind' a) (ir_ind' inner)
       end).
End IrAll.

Definition covers (r : rt_env) (L : list str) (io : bool) : Prop :=
  (forall x, In x L -> rt_get_var x r = Ok tt) /\ (io = true -> rt_get_object r = Ok tt).

Lemma covers_frame r L io ns : covers r L io -> covers (rt_frame ns r) (ns ++ L) io.
Proof.
  intros [Hv Ho]. destruct r as [p vs o]. unfold rt_frame, rt_new, rt_set_vars. split.
  - intros x Hx. simpl. destruct (existsb (str_eqb x) (ns ++ [])) eqn:E; auto.
    apply in_app_iff in Hx. destruct Hx as [Hx|Hx].
    + assert (In x (ns ++ [])) by (rewrite app_nil_r; auto). apply existsb_str_In in H. congruence.
    + apply Hv; auto.
  - intros Hio. specialize (Ho Hio). simpl in *. destruct o; auto.
Qed.

Lemma covers_frame_obj r L io ns : covers r L io -> covers (rt_set_object (rt_frame ns r)) (ns ++ L) true.
Proof.
  intros H. apply (covers_frame _ _ _ ns) in H. destruct H as [Hv _].
  destruct (rt_frame ns r) as [p vs o] eqn:E. split; [| reflexivity].
  intros x Hx. specialize (Hv x Hx). simpl in *. exact Hv.
Qed.

Lemma covers_var r L io x : covers r L io -> In x L -> rt_get_var x r = Ok tt.
Proof. intros [Hv _]. apply Hv. Qed.
Lemma covers_obj r L : covers r L true -> rt_get_object r = Ok tt.
Proof. intros [_ Ho]. apply Ho. reflexivity. Qed.

Lemma obind_tt (x : outcome unit unit) (f : unit -> outcome unit unit) :
  x = Ok tt -> f tt = Ok tt -> obind x f = Ok tt.
Proof. intros -> H. exact H. Qed.

Lemma wlist_ok {A} (f : A -> outcome unit unit) (R S : A -> Prop) l :
  (forall x, R x -> S x -> f x = Ok tt) -> Forall R l -> Forall S l -> wlist f l = Ok tt.
Proof.
  intros Hf HR. induction HR as [|x t Hx _ IH]; intros HS; inversion HS; subst; simpl; auto.
  apply obind_tt; auto.
Qed.

Definition W (i : ir) : Prop := forall L io r, Closed L io i -> covers r L io -> walk r i = Ok tt.

Lemma wopt_ok o L io r : iopt_all W o -> (forall v, o = Some v -> Closed L io v) -> covers r L io ->
  wopt (walk r) o = Ok tt.
Proof. destruct o; simpl; intros Hw Hc Hr; auto. eapply Hw; eauto. Qed.

Lemma walk_assert_ok a L io r : iassert_all W a -> ClosedAssert L io a -> covers r L io ->
  walk_assert walk r a = Ok tt.
Proof.
  destruct a as [sp c csp m]; simpl; intros [Hc Hm] H Hr. inversion H; subst.
  apply obind_tt; [eapply Hc | eapply wopt_ok]; eauto.
Qed.

Lemma walk_field_ok f L io Li r ri : ifield_all W f -> ClosedField L io Li f ->
  covers r L io -> covers ri Li true -> walk_field walk r ri f = Ok tt.
Proof.
  destruct f as [n nsp plus vis v]; simpl; intros [Hn Hv] H Hr Hri. inversion H; subst; simpl.
  - eapply Hv; eauto.
  - apply obind_tt; [eapply Hn | eapply Hv]; eauto.
Qed.

Lemma walk_specs_ok specs k : Forall (ispec_all W) specs -> forall L io L' r,
  ClosedSpecs L io specs L' -> covers r L io ->
  (forall r', covers r' L' io -> k r' = Ok tt) ->
  walk_specs walk k specs r = Ok tt.
Proof.
  induction 1 as [|c rest Hc Hrest IH]; intros L io L' r Hcl Hr Hk; inversion Hcl; subst; simpl.
  - apply Hk; auto.
  - apply obind_tt; [eapply Hc; eauto | intros]. eapply IH; eauto. exact (covers_frame _ _ _ [v] Hr).
  - apply obind_tt; [eapply Hc; eauto | intros]. eapply IH; eauto.
Qed.

Lemma wlist_walk {A} (g : A -> ir) l L io r :
  Forall (fun x => W (g x)) l -> Forall (fun x => Closed L io (g x)) l -> covers r L io ->
  wlist (fun x => walk r (g x)) l = Ok tt.
Proof. intros Hw Hc Hr. exact (wlist_ok _ _ _ l (fun x (Hx : W (g x)) Hcx => Hx L io r Hcx Hr) Hw Hc). Qed.

Theorem walk_W : forall i, W i.
Proof.
  induction i using ir_ind'. rename H into Hc. intros L io r Hcl Hr.
  pose proof (covers_frame r L io) as Hfr. pose proof (covers_frame_obj r L io) as Hfo.
  (* the walk is a sequence of steps, each a lookup that [covers] answers, or a sub-term (or a list
     of them) closed in the scope of the frame the walker has just built for it *)
  destruct Hcl; simpl in Hc; simpl;
    repeat match goal with Hx : _ /\ _ |- _ => destruct Hx end;
    repeat apply obind_tt;
    eauto using covers_var, covers_obj, wopt_ok, walk_assert_ok, (wlist_walk snd), (wlist_walk (fun x => x)).
  - (* IObject: asserts *) eapply (wlist_ok _ (iassert_all W)); [| eassumption | eassumption].
    intros; eapply walk_assert_ok; eauto.
  - (* IObject: fields *) eapply (wlist_ok _ (ifield_all W)); [| eassumption | eassumption].
    intros; eapply walk_field_ok; eauto.
  - (* IObjectComp *) eapply walk_specs_ok; eauto. intros r' Hr'.
    pose proof (covers_frame_obj r' L' io (map fst locals) Hr').
    repeat apply obind_tt; eauto using (wlist_walk snd).
  - (* IArrayComp *) eapply walk_specs_ok; eauto.
  - (* IFunc: defaults *) eapply (wlist_ok _ (fun p => iopt_all W (snd p))); [| eassumption | eassumption].
    intros; eapply wopt_ok; eauto.
Qed.

(* headline (run-time half, over the environment discipline): closedness makes
   every lookup succeed in any run-time environment covering the static scope *)
Theorem walk_no_unbound : forall i L io r,
  Closed L io i -> covers r L io -> walk r i = Ok tt.
Proof. intros i L io r. apply walk_W. Qed.

Corollary analyze_walk_no_unbound : forall e vs io ts i r,
  analyze_expr e (mk_env io vs) ts = Ok i -> covers r vs io -> walk r i = Ok tt.
Proof. intros. eapply walk_no_unbound; eauto. eapply analyze_closed; eauto. Qed.
