(* Proofs/Dec_proofs.v — Model/Dec.v against Flocq's real-number semantics: a bridge between
   Coq's SpecFloat operations (prec 53, emax 1024, nearest-even only) and Flocq's
   BinarySingleNaN (re-proved here rather than imported from Flocq.IEEE754.PrimFloat, which
   would pull primitive floats in); dec_to_f64 is the correctly rounded double; since rounding
   is monotone, a decimal between two that round to x rounds to x, which gives the soundness
   of shortest_check / check_printed. *)
From Coq Require Import ZArith NArith Bool List Lia Reals Psatz Floats.SpecFloat.
From Flocq Require Import Core.Core Core.Digits Calc.Round IEEE754.BinarySingleNaN.
From RJ Require Import Base.Outcome Base.F64 Model.Dec.
Local Open Scope Z_scope.

Definition P53 : Prec_gt_0 53 := eq_refl.
Definition PE : Prec_lt_emax 53 1024 := eq_refl.
#[global] Existing Instance P53.
#[global] Existing Instance PE.

Notation fexp64 := (FLT_exp (-1074) 53).
#[global] Instance fexp_sf_valid : Valid_exp (SpecFloat.fexp 53 1024) := FLT_exp_valid (-1074) 53.
#[global] Instance fexp_sf_monotone : Monotone_exp (SpecFloat.fexp 53 1024) := FLT_exp_monotone (-1074) 53.
Definition rnd (x : R) : R := round radix2 fexp64 ZnearestE x.

Lemma fexp_is_FLT : forall e, SpecFloat.fexp 53 1024 e = fexp64 e.
Proof. reflexivity. Qed.

Lemma round_nearest_even_equiv s m l :
  round_nearest_even m l = choice_mode mode_NE s m l.
Proof.
  case l; [reflexivity|intro c].
  case c; [ | reflexivity..].
  now simpl; unfold Round.cond_incr; case Z.even.
Qed.

Lemma binary_round_aux_equiv sx mx ex lx :
  SpecFloat.binary_round_aux 53 1024 sx mx ex lx
  = BinarySingleNaN.binary_round_aux 53 1024 mode_NE sx mx ex lx.
Proof.
  unfold SpecFloat.binary_round_aux, BinarySingleNaN.binary_round_aux.
  set (mrse' := shr_fexp _ _ _ _ _).
  case mrse'; intros mrs' e'; simpl.
  now rewrite (round_nearest_even_equiv sx).
Qed.

Lemma binary_round_equiv s m e :
  SpecFloat.binary_round 53 1024 s m e = BinarySingleNaN.binary_round 53 1024 mode_NE s m e.
Proof.
  unfold SpecFloat.binary_round, BinarySingleNaN.binary_round, shl_align_fexp.
  set (mez := shl_align _ _ _); case mez as [mz ez].
  apply binary_round_aux_equiv.
Qed.

Lemma binary_normalize_equiv m e szero :
  SpecFloat.binary_normalize 53 1024 m e szero
  = B2SF (BinarySingleNaN.binary_normalize 53 1024 P53 PE mode_NE m e szero).
Proof.
  case m as [ | p | p].
  - now simpl.
  - simpl; rewrite B2SF_SF2B; apply binary_round_equiv.
  - simpl; rewrite B2SF_SF2B; apply binary_round_equiv.
Qed.

Lemma binary_normalize_valid m e s :
  valid_binary 53 1024 (SpecFloat.binary_normalize 53 1024 m e s) = true.
Proof. rewrite binary_normalize_equiv. apply valid_binary_B2SF. Qed.

Lemma bpow_format k : -1074 <= k -> generic_format radix2 fexp64 (bpow radix2 k).
Proof. intros H. apply generic_format_bpow. unfold FLT_exp. lia. Qed.

Lemma binary_normalize_finite m e s :
  (Rabs (F2R (Float radix2 m e)) <= bpow radix2 1023)%R ->
  is_finite_SF (SpecFloat.binary_normalize 53 1024 m e s) = true.
Proof.
  intros Hb. rewrite binary_normalize_equiv.
  generalize (binary_normalize_correct 53 1024 P53 PE mode_NE m e s).
  lazy zeta. simpl round_mode.
  rewrite Rlt_bool_true.
  - intros [_ [Hf _]]. now rewrite is_finite_SF_B2SF.
  - apply Rle_lt_trans with (bpow radix2 1023).
    + apply (abs_round_le_generic radix2 (SpecFloat.fexp 53 1024) ZnearestE).
      * apply bpow_format. lia.
      * exact Hb.
    + apply bpow_lt. lia.
Qed.

Lemma F2R_exp0 m : F2R (Float radix2 m 0) = IZR m.
Proof. unfold F2R. simpl. ring. Qed.

Lemma bpow2_IZR k : 0 <= k -> bpow radix2 k = IZR (2 ^ k).
Proof. intros H. rewrite <- (IZR_Zpower radix2) by auto. reflexivity. Qed.

Lemma binary_normalize_int_finite z s k : 0 <= k <= 1023 -> Z.abs z <= 2 ^ k ->
  f_is_finite (SpecFloat.binary_normalize 53 1024 z 0 s) = true.
Proof.
  intros Hk Hz. apply binary_normalize_finite. rewrite F2R_exp0, <- abs_IZR.
  apply Rle_trans with (IZR (2 ^ k)); [now apply IZR_le|].
  rewrite <- bpow2_IZR by lia. apply bpow_le. lia.
Qed.

Definition radix10 : radix := Build_radix 10 eq_refl.
Definition dec_val (d : N) (e : Z) : R := (IZR (Z.of_N d) * bpow radix10 e)%R.

Lemma pow10_pos k : 0 <= k -> Zpos (pow10 k) = 10 ^ k.
Proof. intros H. unfold pow10. rewrite Z2Pos.id; auto. apply Z.pow_pos_nonneg; lia. Qed.

Lemma bpow10_IZR k : 0 <= k -> bpow radix10 k = IZR (10 ^ k).
Proof. intros H. rewrite <- (IZR_Zpower radix10) by auto. reflexivity. Qed.

Lemma pow10_ge_pow2 k : 0 <= k -> (bpow radix2 (3 * k) <= bpow radix10 k)%R.
Proof.
  intros H. rewrite bpow10_IZR, bpow2_IZR by lia. apply IZR_le.
  rewrite Z.pow_mul_r by lia. apply Z.pow_le_mono_l. lia.
Qed.

Lemma pow10_le_pow2_neg k : k <= 0 -> (bpow radix10 k <= bpow radix2 (3 * k))%R.
Proof.
  intros H. assert (E : exists j, 0 <= j /\ k = - j) by (exists (- k); lia).
  destruct E as [j [Hj ->]]. replace (3 * - j) with (- (3 * j)) by lia.
  rewrite 2!bpow_opp. apply Rinv_le_contravar. apply bpow_gt_0. now apply pow10_ge_pow2.
Qed.

Lemma dec_val_nonneg d e : (0 <= dec_val d e)%R.
Proof.
  unfold dec_val. apply Rmult_le_pos. apply IZR_le. lia. apply bpow_ge_0.
Qed.

Lemma rnd_nonneg x : (0 <= x)%R -> (0 <= rnd x)%R.
Proof.
  intros H. unfold rnd. apply round_ge_generic; auto with typeclass_instances.
  apply generic_format_0.
Qed.

Lemma rnd_le x y : (x <= y)%R -> (rnd x <= rnd y)%R.
Proof. intros H. unfold rnd. apply round_le; auto with typeclass_instances. Qed.

Lemma rnd_tiny x : (0 <= x <= bpow radix2 (-1076))%R -> rnd x = 0%R.
Proof.
  intros [H0 H1]. apply Rle_antisym.
  - apply Rle_trans with (rnd (bpow radix2 (-1076))). now apply rnd_le.
    right. unfold rnd. apply (round_N_small_pos radix2 fexp64 (fun t => negb (Z.even t)) _ (-1075)).
    + split. simpl Z.sub. apply Rle_refl. apply bpow_lt. lia.
    + unfold FLT_exp. lia.
  - now apply rnd_nonneg.
Qed.

Lemma rnd_huge x : (bpow radix2 1024 <= x)%R -> (bpow radix2 1024 <= rnd x)%R.
Proof.
  intros H. unfold rnd. apply round_ge_generic; auto with typeclass_instances.
  apply bpow_format. lia.
Qed.

Definition dec_spec (d : N) (e : Z) (z : f64) : Prop :=
  let r := rnd (dec_val d e) in
  if Rlt_bool r (bpow radix2 1024)
  then SF2R radix2 z = r /\ is_finite_SF z = true /\ sign_SF z = false /\ valid_binary 53 1024 z = true
  else z = S754_infinity false.

Lemma dec_general p e :
  let nonneg := 0 <=? e in
  let num := Pos.mul p (if nonneg then pow10 e else xH) in
  let den := if nonneg then xH else pow10 (- e) in
  (IZR (Zpos num) / IZR (Zpos den))%R = dec_val (Npos p) e.
Proof.
  intros nonneg num den. unfold dec_val, num, den, nonneg. simpl Z.of_N.
  destruct (Z.leb_spec 0 e) as [H|H].
  - rewrite Pos2Z.inj_mul, pow10_pos by lia. rewrite mult_IZR, bpow10_IZR by lia. field.
  - rewrite pow10_pos by lia. rewrite Pos2Z.inj_mul, mult_IZR.
    replace e with (- (- e)) at 2 by lia. rewrite bpow_opp, bpow10_IZR by lia.
    simpl (IZR 1). field.
    apply IZR_neq. apply Z.pow_nonzero; lia.
Qed.

Theorem dec_correctly_rounded : forall d e, dec_spec d e (dec_to_f64 d e).
Proof.
  intros d e. unfold dec_spec.
  destruct d as [|p].
  - (* zero *)
    unfold dec_val. simpl Z.of_N. rewrite Rmult_0_l. unfold rnd. rewrite round_0 by auto with typeclass_instances.
    rewrite Rlt_bool_true by apply bpow_gt_0. simpl. repeat split; reflexivity.
  - unfold dec_to_f64.
    pose proof (Z.log2_spec (Zpos p) eq_refl) as [HL1 HL2].
    set (L := Z.log2 (Z.pos p)) in *.
    assert (HLnn : 0 <= L) by apply Z.log2_nonneg.
    destruct ((0 <=? e) && (1024 <=? L + 3 * e)) eqn:Hov.
    + (* overflow regime *)
      apply andb_prop in Hov. destruct Hov as [He HLe].
      apply Z.leb_le in He. apply Z.leb_le in HLe.
      rewrite Rlt_bool_false; [reflexivity|].
      apply rnd_huge. unfold dec_val. simpl Z.of_N.
      apply Rle_trans with (bpow radix2 L * bpow radix2 (3 * e))%R.
      * rewrite <- bpow_plus. apply bpow_le. lia.
      * apply Rmult_le_compat; try apply bpow_ge_0.
        rewrite bpow2_IZR by lia. now apply IZR_le.
        now apply pow10_ge_pow2.
    + destruct ((e <? 0) && (L + 1 + 3 * e <=? -1076)) eqn:Hun.
      * (* underflow regime *)
        apply andb_prop in Hun. destruct Hun as [He HLe].
        apply Z.ltb_lt in He. apply Z.leb_le in HLe.
        assert (Hr : rnd (dec_val (N.pos p) e) = 0%R).
        { apply rnd_tiny. split. apply dec_val_nonneg.
          unfold dec_val. simpl Z.of_N.
          apply Rle_trans with (bpow radix2 (L + 1) * bpow radix2 (3 * e))%R.
          - apply Rmult_le_compat. apply IZR_le; lia. apply bpow_ge_0.
            rewrite bpow2_IZR by lia. apply IZR_le. unfold Z.succ in HL2. lia.
            apply pow10_le_pow2_neg. lia.
          - rewrite <- bpow_plus. apply bpow_le. lia. }
        rewrite Hr. rewrite Rlt_bool_true by apply bpow_gt_0. simpl. repeat split; reflexivity.
      * (* general regime: SpecFloat's division core *)
        clear Hov Hun.
        set (nonneg := 0 <=? e).
        set (num := Pos.mul p (if nonneg then pow10 e else xH)).
        set (den := if nonneg then xH else pow10 (- e)).
        generalize (Bdiv_correct_aux 53 1024 P53 PE mode_NE false num 0 false den 0).
        lazy zeta. simpl cond_Zopp. simpl xorb. simpl round_mode.
        rewrite 2!F2R_exp0.
        fold nonneg.
        replace (IZR (Z.pos num) / IZR (Z.pos den))%R with (dec_val (N.pos p) e) by (symmetry; apply dec_general).
        destruct (SFdiv_core_binary prec emax (Z.pos num) 0 (Z.pos den) 0) as [[mz ez] lz] eqn:Ediv.
        unfold prec, emax in Ediv. rewrite Ediv.
        rewrite binary_round_aux_equiv.
        fold (rnd (dec_val (N.pos p) e)).
        rewrite Rabs_pos_eq by (apply rnd_nonneg, dec_val_nonneg).
        change (round radix2 (fexp 53 1024) ZnearestE (dec_val (N.pos p) e)) with (rnd (dec_val (N.pos p) e)).
        intros [Hv Hres].
        destruct (Rlt_bool (rnd (dec_val (N.pos p) e)) (bpow radix2 1024)).
        -- destruct Hres as [H1 [H2 H3]]. repeat split; assumption.
        -- exact Hres.
Qed.

Lemma sf_eqb_eq a b : sf_eqb a b = true <-> a = b.
Proof.
  split.
  - destruct a, b; simpl; try discriminate; intros H.
    + apply eqb_prop in H. now subst.
    + apply eqb_prop in H. now subst.
    + reflexivity.
    + apply andb_prop in H. destruct H as [H H3]. apply andb_prop in H. destruct H as [H1 H2].
      apply eqb_prop in H1. apply Pos.eqb_eq in H2. apply Z.eqb_eq in H3. now subst.
  - intros ->. destruct b; simpl; try apply eqb_reflx; try reflexivity.
    rewrite eqb_reflx, Pos.eqb_refl, Z.eqb_refl. reflexivity.
Qed.

Lemma sf_inj x y :
  valid_binary 53 1024 x = true -> valid_binary 53 1024 y = true ->
  is_finite_SF x = true -> is_finite_SF y = true ->
  sign_SF x = sign_SF y -> SF2R radix2 x = SF2R radix2 y -> x = y.
Proof.
  intros Vx Vy Fx Fy S R.
  rewrite <- (B2SF_SF2B 53 1024 x Vx), <- (B2SF_SF2B 53 1024 y Vy). f_equal.
  apply B2R_Bsign_inj.
  - now rewrite is_finite_SF2B.
  - now rewrite is_finite_SF2B.
  - now rewrite 2!B2R_SF2B.
  - now rewrite 2!Bsign_SF2B.
Qed.

Lemma dec_spec_fun d1 e1 d2 e2 :
  rnd (dec_val d1 e1) = rnd (dec_val d2 e2) -> dec_to_f64 d1 e1 = dec_to_f64 d2 e2.
Proof.
  intros H. generalize (dec_correctly_rounded d1 e1) (dec_correctly_rounded d2 e2).
  unfold dec_spec. rewrite H.
  destruct (Rlt_bool (rnd (dec_val d2 e2)) (bpow radix2 1024)).
  - intros [A1 [A2 [A3 A4]]] [B1 [B2 [B3 B4]]]. apply sf_inj; congruence.
  - congruence.
Qed.

Lemma dec_squeeze da ea db eb dc ec x :
  (dec_val da ea <= dec_val db eb)%R -> (dec_val db eb <= dec_val dc ec)%R ->
  dec_to_f64 da ea = x -> dec_to_f64 dc ec = x -> dec_to_f64 db eb = x.
Proof.
  intros Hab Hbc Ha Hc.
  generalize (dec_correctly_rounded da ea) (dec_correctly_rounded dc ec). unfold dec_spec.
  rewrite Ha, Hc.
  pose proof (rnd_le _ _ Hab) as R1. pose proof (rnd_le _ _ Hbc) as R2.
  destruct (Rlt_bool_spec (rnd (dec_val da ea)) (bpow radix2 1024)) as [La|La].
  - destruct (Rlt_bool_spec (rnd (dec_val dc ec)) (bpow radix2 1024)) as [Lc|Lc].
    + intros [A1 _] [C1 _].
      rewrite <- Ha. apply dec_spec_fun. apply Rle_antisym; [|exact R1].
      rewrite <- A1, C1. exact R2.
    + intros [_ [A2 _]] C. rewrite C in A2. simpl in A2. discriminate A2.
  - intros A _. rewrite A.
    generalize (dec_correctly_rounded db eb). unfold dec_spec.
    rewrite Rlt_bool_false. now intros ->. eapply Rle_trans; eassumption.
Qed.

Lemma ndigits_aux_spec : forall fuel d acc,
  (N.to_nat (N.size d) <= fuel)%nat ->
  exists k, (1 <= k)%N /\ ndigits_aux fuel d acc = (acc + k)%N /\ (d < 10 ^ k)%N /\
            (k = 1%N \/ (10 ^ (k - 1) <= d)%N).
Proof.
  induction fuel as [|fuel IH]; intros d acc Hf.
  - assert (d = 0%N) as ->.
    { destruct d; [reflexivity|]. simpl in Hf. pose proof (Pos2Nat.is_pos (Pos.size p)). lia. }
    exists 1%N. simpl. repeat split; try lia; try reflexivity.
  - simpl. destruct (N.ltb_spec d 10) as [Hd|Hd].
    + exists 1%N. repeat split; try lia.
    + assert (Hsz : (N.to_nat (N.size (d / 10)) <= fuel)%nat).
      { assert (Hlt : (N.size (d / 10) < N.size d)%N); [|lia].
        assert (Ha : (d / 10 <= d / 2)%N) by (apply N.div_le_compat_l; lia).
        assert (Hb : (0 < d / 10)%N) by (apply N.div_str_pos; lia).
        rewrite 2!N.size_log2 by lia.
        assert (Hc : (N.log2 (d / 10) <= N.log2 (d / 2))%N) by now apply N.log2_le_mono.
        rewrite <- N.div2_div, N.div2_spec, N.log2_shiftr in Hc.
        assert (Hd1 : (1 <= N.log2 d)%N). { change 1%N with (N.log2 2). apply N.log2_le_mono. lia. }
        lia. }
      destruct (IH (d / 10)%N (acc + 1)%N Hsz) as [k [Hk1 [Hk2 [Hk3 Hk4]]]].
      exists (k + 1)%N. repeat split; try lia.
      * rewrite N.pow_add_r. change (10 ^ 1)%N with 10%N.
        pose proof (N.div_mod d 10 ltac:(lia)) as E1. pose proof (N.mod_lt d 10 ltac:(lia)) as E2.
        set (X := (10 ^ k)%N) in *. set (q := (d / 10)%N) in *. set (r := (d mod 10)%N) in *. lia.
      * right. replace (k + 1 - 1)%N with k by lia.
        pose proof (N.div_mod d 10 ltac:(lia)) as E1.
        destruct Hk4 as [->|Hk4].
        -- change (10 ^ 1)%N with 10%N. lia.
        -- replace k with (k - 1 + 1)%N at 1 by lia. rewrite N.pow_add_r. change (10 ^ 1)%N with 10%N.
           set (X := (10 ^ (k - 1))%N) in *. set (q := (d / 10)%N) in *. set (r := (d mod 10)%N) in *. lia.
Qed.

Lemma ndigits_spec d :
  (1 <= ndigits d)%N /\ (d < 10 ^ ndigits d)%N /\ (ndigits d = 1%N \/ (10 ^ (ndigits d - 1) <= d)%N).
Proof.
  unfold ndigits. destruct (ndigits_aux_spec (N.to_nat (N.size d)) d 0 (le_n _)) as [k [H1 [H2 [H3 H4]]]].
  rewrite H2. simpl. auto.
Qed.

Lemma dec_val_le_d d1 d2 e : (d1 <= d2)%N -> (dec_val d1 e <= dec_val d2 e)%R.
Proof.
  intros H. unfold dec_val. apply Rmult_le_compat_r. apply bpow_ge_0. apply IZR_le. lia.
Qed.

Lemma dec_val_le_e d e1 e2 : e1 <= e2 -> (dec_val d e1 <= dec_val d e2)%R.
Proof.
  intros H. unfold dec_val. apply Rmult_le_compat_l. apply IZR_le; lia. now apply bpow_le.
Qed.

Lemma dec_val_shift d e j : dec_val d (e + Z.of_N j) = dec_val (d * 10 ^ j) e.
Proof.
  unfold dec_val. rewrite bpow_plus, N2Z.inj_mul, N2Z.inj_pow, mult_IZR.
  rewrite (bpow10_IZR (Z.of_N j)) by lia. simpl (Z.of_N 10). ring.
Qed.

Lemma dec_val_shift1 d e : dec_val d (e + 1) = dec_val (d * 10) e.
Proof. change 1 with (Z.of_N 1). rewrite dec_val_shift. reflexivity. Qed.

Theorem shortest_check_sound : forall x d e,
  shortest_check x d e = true ->
  dec_to_f64 d e = x /\
  forall d' e', (ndigits d' < ndigits d)%N -> dec_to_f64 d' e' <> x.
Proof.
  intros x d e H. unfold shortest_check in H. apply andb_prop in H. destruct H as [H1 H2].
  apply sf_eqb_eq in H1. split; [exact H1|].
  intros d' e' Hn Hx'.
  destruct (ndigits_spec d) as [Dn1 [Dn2 Dn3]]. destruct (ndigits_spec d') as [Dn1' [Dn2' _]].
  destruct (N.eqb_spec (ndigits d) 1) as [E1|E1]; [lia|].
  destruct Dn3 as [Dn3|Dn3]; [contradiction|].
  apply andb_prop in H2. destruct H2 as [Hlo Hhi].
  apply negb_true_iff in Hlo, Hhi.
  assert (Hlo' : dec_to_f64 (d / 10) (e + 1) <> x) by (intros E; apply sf_eqb_eq in E; congruence).
  assert (Hhi' : dec_to_f64 (d / 10 + 1) (e + 1) <> x) by (intros E; apply sf_eqb_eq in E; congruence).
  clear Hlo Hhi.
  set (n := ndigits d) in *. set (q := (d / 10)%N) in *.
  pose proof (N.div_mod d 10 ltac:(lia)) as Edm. pose proof (N.mod_lt d 10 ltac:(lia)) as Emod. fold q in Edm.
  set (r := (d mod 10)%N) in *. clearbody r q.
  assert (HA : (dec_val q (e + 1) <= dec_val d e)%R).
  { rewrite dec_val_shift1. apply dec_val_le_d. lia. }
  assert (HB : (dec_val d e <= dec_val (q + 1) (e + 1))%R).
  { rewrite dec_val_shift1. apply dec_val_le_d. lia. }
  destruct (Z.le_gt_cases (e + 1) e') as [He|He].
  - (* a multiple of 10^(e+1) *)
    set (j := Z.to_N (e' - (e + 1))).
    assert (Ee' : e' = e + 1 + Z.of_N j) by (unfold j; rewrite Z2N.id; lia).
    assert (Ev : dec_val d' e' = dec_val (d' * 10 ^ j) (e + 1)) by (rewrite Ee'; apply dec_val_shift).
    destruct (N.le_gt_cases (d' * 10 ^ j) q) as [Hk|Hk].
    + apply Hlo'. apply (dec_squeeze d' e' q (e + 1) d e x); auto.
      rewrite Ev. now apply dec_val_le_d.
    + apply Hhi'. apply (dec_squeeze d e (q + 1)%N (e + 1) d' e' x); auto.
      rewrite Ev. apply dec_val_le_d. lia.
  - (* fewer digits at a finer scale: below 10^(n-1) * 10^e *)
    apply Hlo'. apply (dec_squeeze d' e' q (e + 1) d e x); auto.
    apply Rle_trans with (dec_val d' e). apply dec_val_le_e; lia.
    rewrite dec_val_shift1. apply dec_val_le_d.
    assert (Hpow : (10 ^ ndigits d' <= 10 ^ (n - 1))%N) by (apply N.pow_le_mono_r; lia).
    assert (Hq : (10 ^ (n - 1) <= q * 10)%N).
    { replace (n - 1)%N with (n - 2 + 1)%N in * by lia. rewrite N.pow_add_r in *. change (10 ^ 1)%N with 10%N in *.
      set (X := (10 ^ (n - 2))%N) in *. lia. }
    lia.
Qed.

Lemma dec_not_nan d e : dec_to_f64 d e <> S754_nan.
Proof.
  generalize (dec_correctly_rounded d e). unfold dec_spec.
  destruct (Rlt_bool _ _).
  - intros [_ [Hf _]] E. rewrite E in Hf. discriminate Hf.
  - intros -> E. discriminate E.
Qed.

Theorem literal_finite_or_error : forall d e,
  (exists v, literal_value d e = Ok v /\ f_is_finite v = true /\ v = dec_to_f64 d e) \/
  (literal_value d e = Err LitNumberOverflow /\ dec_to_f64 d e = S754_infinity false).
Proof.
  intros d e. unfold literal_value.
  generalize (dec_correctly_rounded d e) (dec_not_nan d e). unfold dec_spec.
  destruct (dec_to_f64 d e) as [s|s| |s m ex]; intros Hs Hn.
  - left. eexists. repeat split.
  - right. split; [reflexivity|]. destruct (Rlt_bool _ _).
    + destruct Hs as [_ [Hf _]]. discriminate Hf.
    + exact Hs.
  - contradiction.
  - left. eexists. repeat split.
Qed.

Lemma strip_zeros_val : forall fuel d e d' e',
  strip_zeros fuel d e = (d', e') -> dec_val d' e' = dec_val d e.
Proof.
  induction fuel as [|fuel IH]; intros d e d' e' H; simpl in H.
  - now inversion H.
  - destruct (N.eqb_spec d 0) as [E0|E0]. now inversion H.
    destruct (N.eqb_spec (d mod 10) 0) as [Em|Em]; [|now inversion H].
    rewrite (IH _ _ _ _ H). rewrite dec_val_shift1. f_equal.
    pose proof (N.div_mod d 10 ltac:(lia)). lia.
Qed.

Theorem check_printed_sound : forall x text,
  check_printed x text = true ->
  exists neg d e d' e',
    printed_parse text = Some (neg, d, e) /\ strip_zeros (length text) d e = (d', e') /\
    dec_val d' e' = dec_val d e /\
    neg = f_sign x /\ f_is_finite x = true /\
    ((d' = 0%N /\ f_is_zero x = true) \/
     (d' <> 0%N /\ dec_to_f64 d' e' = SFabs x /\
      forall d2 e2, (ndigits d2 < ndigits d')%N -> dec_to_f64 d2 e2 <> SFabs x)).
Proof.
  intros x text H. unfold check_printed in H.
  destruct (printed_parse text) as [[[neg d] e]|] eqn:Ep; [|discriminate].
  destruct (strip_zeros (length text) d e) as [d' e'] eqn:Es.
  apply andb_prop in H. destruct H as [H H3]. apply andb_prop in H. destruct H as [H1 H2].
  apply eqb_prop in H1.
  exists neg, d, e, d', e'. repeat split; auto.
  - eapply strip_zeros_val; eauto.
  - destruct (N.eqb_spec d' 0) as [E0|E0].
    + left. auto.
    + right. split; [exact E0|]. now apply shortest_check_sound.
Qed.
