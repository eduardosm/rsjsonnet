(* Proofs/RefScope_proofs.v — C02/C09: run-time scope soundness of the reference interpreter, part 2.

   A Hoare-style reading of the monad [M]: [safe P m] — whenever the recursive knot maps
   well-scoped tasks to well-scoped answers and never answers with a static error, m does not
   produce a static error either, and its value satisfies P.  One lemma per definition of
   RefEval.v (helpers here, the evaluator proper in RefScope_main.v). *)
From RJ Require Import Base.Outcome Base.F64 Model.Token Model.Ast Model.RefCore Model.RefValue Model.RefEval.
From RJ Require Import Proofs.RefSem_params Proofs.RefScope_defs.
From Coq Require Import Lia.
Local Open Scope N_scope.

Definition okres {A} (P : A -> Prop) (r : res A) : Prop :=
  match snd r with
  | Ok a => P a
  | Err (EStatic _) => False
  | _ => True
  end.

Definition wf_task (t : task) : Prop :=
  match t with
  | TEval en x => wf_env en /\ closed (dom en) (hasobj en) x
  | TForce th => wf_thunk th
  | TApply f pos named _ => wf_value f /\ Forall wf_thunk pos /\ wf_vars named
  | TField ls _ _ => wf_layers ls
  | TEquals a b => wf_value a /\ wf_value b
  | TCompare a b => wf_value a /\ wf_value b
  | TManifest _ v => wf_value v
  end.

Definition wf_answer (a : answer) : Prop := match a with AVal v => wf_value v | _ => True end.
Definition rec_ok (r : recfn) : Prop := forall t d, wf_task t -> okres wf_answer (r t d).
Definition safe {A} (P : A -> Prop) (m : M A) : Prop := forall c r, rec_ok r -> okres P (m c r).
Definition any {A} : A -> Prop := fun _ => True.

Lemma safe_ret {A} (P : A -> Prop) a : P a -> safe P (ret a).
Proof. intros H c r _. exact H. Qed.

Lemma safe_kind {A} (P : A -> Prop) s : safe P (kind s).
Proof. intros c r _. exact I. Qed.
Lemma safe_unsupported {A} (P : A -> Prop) s : safe P (unsupported s).
Proof. intros c r _. exact I. Qed.
Lemma safe_argtype {A} (P : A -> Prop) : safe P argtype.
Proof. intros c r _. exact I. Qed.
Lemma safe_panic {A} (P : A -> Prop) s : safe P (lift (Panic s)).
Proof. intros c r _. exact I. Qed.
Lemma safe_fail_unsupported {A} (P : A -> Prop) w : safe P (fail (EUnsupported w)).
Proof. intros c r _. exact I. Qed.
Lemma safe_fail_explicit {A} (P : A -> Prop) w : safe P (fail (EExplicit w)).
Proof. intros c r _. exact I. Qed.
Lemma safe_fail_assert {A} (P : A -> Prop) w : safe P (fail (EAssertFailed w)).
Proof. intros c r _. exact I. Qed.
Lemma safe_check_num f : safe wf_value (lift (check_num f)).
Proof. intros c r _. unfold okres, lift, check_num. destruct f; simpl; try exact I; constructor. Qed.
Lemma safe_emit s : safe any (emit s).
Proof. intros c r _. exact I. Qed.
Lemma safe_ask_bfs : safe any ask_bfs.
Proof. intros c r _. exact I. Qed.
Lemma safe_ask_ts_tail : safe any ask_ts_tail.
Proof. intros c r _. exact I. Qed.
Lemma safe_enter d : safe any (enter d).
Proof. intros c r _. unfold okres, enter. destruct (c_limit c <? d + 1); exact I. Qed.
Lemma safe_call t d : wf_task t -> safe wf_answer (call t d).
Proof. intros H c r Hr. apply Hr. exact H. Qed.

Lemma safe_bind {A B} (Q : A -> Prop) (P : B -> Prop) (m : M A) (k : A -> M B) :
  safe Q m -> (forall a, Q a -> safe P (k a)) -> safe P (bind m k).
Proof.
  intros Hm Hk c r Hr. specialize (Hm c r Hr). unfold okres, bind in *.
  destruct (m c r) as [t o]. simpl in Hm. destruct o as [a | e | s |]; simpl; try exact I.
  - specialize (Hk a Hm c r Hr). unfold okres in Hk. destruct (k a c r) as [t2 o2]. exact Hk.
  - exact Hm.
Qed.

Lemma safe_weaken {A} (Q P : A -> Prop) (m : M A) : safe Q m -> (forall a, Q a -> P a) -> safe P m.
Proof.
  intros Hm HQP c r Hr. specialize (Hm c r Hr). unfold okres in *.
  destruct (snd (m c r)) as [a | e | s |]; auto.
Qed.

Lemma safe_ret_any {A} (a : A) : safe any (ret a).
Proof. apply safe_ret. exact I. Qed.
Lemma safe_bind_any {A B} (m : M A) (k : A -> M B) : safe any m -> (forall a, safe any (k a)) -> safe any (bind m k).
Proof. intros Hm Hk. eapply safe_bind; [exact Hm|]. intros a _. apply Hk. Qed.

Lemma safe_mapM {A B} (P : B -> Prop) (f : A -> M B) l :
  (forall a, In a l -> safe P (f a)) -> safe (Forall P) (mapM f l).
Proof.
  induction l as [|x r IH]; intros H; simpl.
  - apply safe_ret. constructor.
  - eapply safe_bind; [apply H; left; reflexivity|]. intros y Hy.
    eapply safe_bind; [apply IH; intros a Ha; apply H; right; exact Ha|]. intros ys Hys.
    apply safe_ret. constructor; assumption.
Qed.

Lemma safe_iterM {A} (f : A -> M unit) l : (forall a, In a l -> safe any (f a)) -> safe any (iterM f l).
Proof.
  induction l as [|x r IH]; intros H; simpl.
  - apply safe_ret. exact I.
  - eapply safe_bind; [apply H; left; reflexivity|]. intros _ _. apply IH. intros a Ha. apply H. right. exact Ha.
Qed.

(* the hints are read syntactically: a computation is never unfolded in search of a rule for it *)
Create HintDb safe discriminated.
#[export] Hint Constants Opaque : safe.
Create HintDb wf discriminated.
#[export] Hint Constructors wf_value wf_thunk closed_opt Forall : wf.
#[export] Hint Immediate wf_arr_inv wf_obj_inv : wf.
#[export] Hint Unfold wf_layers : wf.
#[export] Hint Resolve Forall_app_intro Forall_rev slice_list_forall : wf.
#[export] Hint Resolve safe_kind safe_unsupported safe_argtype safe_panic safe_fail_unsupported safe_fail_explicit
  safe_fail_assert safe_check_num safe_emit safe_ask_bfs safe_ask_ts_tail safe_enter safe_ret_any safe_bind_any : safe.
#[export] Hint Extern 1 (any _) => exact I : wf.
#[export] Hint Extern 1 (any _) => exact I : safe.

(* one rule per head form of the computation: ret, bind, match, if, a call of a function that has its
   own [safe_*] lemma in the hints (last rule: one whose lemma promises more than is asked for);
   the side conditions about values go to the [wf] hints *)
Ltac safe_step :=
  match goal with
  | |- safe _ (ret _) => apply safe_ret; try solve [eauto with wf]
  | |- safe _ (bind _ _) => eapply safe_bind; [ solve [eauto with safe wf] | intros ]
  | |- safe _ (match ?x with _ => _ end) => first [ is_var x; destruct x | destruct x eqn:? ]
  | |- safe _ (if ?b then _ else _) => destruct b eqn:?
  | |- safe _ _ => solve [eauto with safe wf]
  | |- safe _ _ => eapply safe_weaken; [ solve [eauto with safe wf] | solve [intros; eauto with wf] ]
  end.
Ltac safe_tac := repeat safe_step.

Lemma safe_as_val a : wf_answer a -> safe wf_value (as_val a).
Proof. intros H. unfold as_val. destruct a; safe_tac. Qed.
Lemma safe_as_bool a : safe any (as_bool a). Proof. unfold as_bool. destruct a; safe_tac. Qed.
Lemma safe_as_cmp a : safe any (as_cmp a). Proof. unfold as_cmp. destruct a; safe_tac. Qed.
Lemma safe_as_json a : safe any (as_json a). Proof. unfold as_json. destruct a; safe_tac. Qed.

Lemma safe_call_val t d : wf_task t -> safe wf_value (bind (call t d) as_val).
Proof. intros H. eapply safe_bind; [apply safe_call, H|]. intros a Ha. apply safe_as_val, Ha. Qed.

Lemma safe_eval en x d : wf_env en -> closed (dom en) (hasobj en) x -> safe wf_value (eval en x d).
Proof. intros He Hc. apply (safe_call_val (TEval en x)). split; assumption. Qed.
Lemma safe_forceT t d : wf_thunk t -> safe wf_value (forceT t d).
Proof. apply (safe_call_val (TForce t)). Qed.
Lemma safe_apply f pos named force d :
  wf_value f -> Forall wf_thunk pos -> wf_vars named -> safe wf_value (apply f pos named force d).
Proof. intros. apply (safe_call_val (TApply f pos named force)). repeat split; assumption. Qed.
Lemma safe_applyf f pos d : wf_value f -> Forall wf_thunk pos -> safe wf_value (applyf f pos d).
Proof. intros. unfold applyf. apply safe_apply; auto. constructor. Qed.
Lemma safe_field_at ls from name d : wf_layers ls -> safe wf_value (field_at ls from name d).
Proof. apply (safe_call_val (TField ls from name)). Qed.
Lemma safe_equals a b d : wf_value a -> wf_value b -> safe any (equals a b d).
Proof. intros. unfold equals. eapply safe_bind; [apply safe_call; simpl; auto|]. intros. apply safe_as_bool. Qed.
Lemma safe_compare a b d : wf_value a -> wf_value b -> safe any (compare a b d).
Proof. intros. unfold compare. eapply safe_bind; [apply safe_call; simpl; auto|]. intros. apply safe_as_cmp. Qed.
Lemma safe_manifest s v d : wf_value v -> safe any (manifest s v d).
Proof. intros. unfold manifest. eapply safe_bind; [apply safe_call; simpl; auto|]. intros. apply safe_as_json. Qed.
#[export] Hint Resolve safe_eval safe_forceT safe_apply safe_applyf safe_field_at safe_equals safe_compare safe_manifest : safe.

Lemma safe_render_m j : safe any (render_m j).
Proof. unfold render_m. safe_tac. Qed.
#[export] Hint Resolve safe_render_m : safe.
Lemma safe_to_string v d : wf_value v -> safe any (to_string v d).
Proof. intros H. unfold to_string. destruct v; safe_tac. Qed.
#[export] Hint Resolve safe_to_string : safe.

Lemma safe_un_op op v : safe wf_value (un_op op v).
Proof. unfold un_op. destruct op, v; safe_tac. Qed.
Lemma safe_int2 P a b k : (forall x y, safe P (k x y)) -> safe P (int2 a b k).
Proof. intros H. unfold int2. safe_tac; apply H. Qed.
Lemma safe_num_bin op a b : safe wf_value (num_bin op a b).
Proof. unfold num_bin. destruct op; safe_tac; apply safe_int2; intros; safe_tac. Qed.
#[export] Hint Resolve safe_un_op safe_num_bin : safe.

Lemma safe_add_vals l r d : wf_value l -> wf_value r -> safe wf_value (add_vals l r d).
Proof. intros Hl Hr. unfold add_vals. destruct l, r; try apply safe_kind; safe_tac. Qed.
#[export] Hint Resolve safe_add_vals : safe.

Lemma safe_bin_op op l r d : wf_value l -> wf_value r -> safe wf_value (bin_op op l r d).
Proof.
  intros Hl Hr. unfold bin_op. apply (num_or_case (safe wf_value)); [|intros; apply safe_num_bin].
  destruct op; try apply safe_kind.
  - apply safe_add_vals; assumption.
  - destruct l; auto with safe.
  - destruct l; try apply safe_kind. destruct r; try apply safe_kind. apply safe_ret. constructor.
Qed.
#[export] Hint Resolve safe_bin_op : safe.

Lemma safe_run_assert en a d :
  wf_env en -> closed (dom en) (hasobj en) (fst a) -> closed_opt (dom en) (hasobj en) (snd a) ->
  safe any (run_assert en a d).
Proof.
  intros He Hc Hm. unfold run_assert. safe_tac.
  inversion Hm; subst. safe_tac.
Qed.

Lemma safe_run_layer_asserts ls : wf_layers ls -> forall rest i d, wf_layers rest -> safe any (run_layer_asserts ls rest i d).
Proof.
  intros Hls rest i d Hrest. revert i. induction Hrest as [|l r Hl Hr IH]; intros i; simpl; [apply safe_ret_any|].
  apply safe_bind_any; [|intros; apply IH].
  apply safe_iterM. intros a Ha. destruct Hl as [locals asserts fields en std Hass Hf]. simpl in Ha.
  destruct (Forall_in _ _ _ Hass Ha) as [Hc Hm].
  set (l := MkLayer locals asserts fields en std).
  destruct (layer_env_wf ls i l en (fst a) Hls Hc) as [Hwe Hcl].
  apply safe_run_assert; [exact Hwe | exact Hcl |].
  destruct (snd a) as [m|]; constructor.
  apply (layer_env_wf ls i l en m Hls (Hm m eq_refl)).
Qed.

Lemma safe_run_asserts ls c d : wf_layers ls -> safe any (run_asserts ls c d).
Proof. intros H. unfold run_asserts. destruct c; [apply safe_ret_any | apply safe_run_layer_asserts; assumption]. Qed.
#[export] Hint Resolve safe_run_asserts : safe.

Lemma safe_missing_field {A} (P : A -> Prop) ls n : safe P (missing_field ls n).
Proof. unfold missing_field. safe_tac. Qed.
#[export] Hint Resolve safe_missing_field : safe.

Lemma safe_get_field ls c n d : wf_layers ls -> safe wf_value (get_field ls c n d).
Proof. intros H. unfold get_field. safe_tac. Qed.
#[export] Hint Resolve safe_get_field : safe.

Lemma safe_do_field ls from name d : wf_layers ls -> safe wf_value (do_field ls from name d).
Proof.
  intros Hls. unfold do_field.
  destruct (find_field ls from name) as [[i f]|] eqn:Ef; [|safe_tac].
  destruct (find_field_sound _ _ _ _ _ Ef) as (l & En & Hl & Hf). rewrite En.
  destruct (Forall_in _ _ _ Hls Hl) as [locals asserts fields en std Hass Hfs]. simpl in Hf.
  pose proof (Forall_in _ _ _ Hfs Hf) as Hs. simpl in Hs.
  unfold field_env.
  set (l := MkLayer locals asserts fields en std) in *.
  destruct (layer_env_wf ls i l _ _ Hls Hs) as [Hwe Hcl].
  safe_tac.
Qed.
#[export] Hint Resolve safe_do_field : safe.

Lemma safe_with_super {P} en k :
  hasobj en = true -> wf_env en -> (forall ls i, wf_layers ls -> safe P (k ls i)) -> safe P (with_super en k).
Proof.
  intros Ho He Hk. unfold with_super. destruct (hasobj_lookup en Ho) as (ls & i & c & E). rewrite E.
  apply Hk. eapply lookup_obj_wf; eassumption.
Qed.

Lemma safe_super_field en name d : hasobj en = true -> wf_env en -> safe wf_value (super_field en name d).
Proof. intros Ho He. unfold super_field. apply safe_with_super; auto. intros. safe_tac. Qed.
#[export] Hint Resolve safe_super_field : safe.

Definition field_ok (locals : list (str * cexpr)) (en : env) (nf : str * field) : Prop :=
  wf_scope locals (match f_fenv (snd nf) with Some fe => fe | None => en end) (f_body (snd nf)).

Lemma safe_field_name_of v : safe any (field_name_of v).
Proof. unfold field_name_of. destruct v; safe_tac. Qed.
#[export] Hint Resolve safe_field_name_of : safe.

Lemma safe_add_field locals en acc on f :
  Forall (field_ok locals en) acc -> (forall s, field_ok locals en (s, f)) ->
  safe (Forall (field_ok locals en)) (add_field acc on f).
Proof.
  intros Ha Hf. unfold add_field. destruct on as [s|]; [|apply safe_ret; exact Ha].
  destruct (assoc s acc); [apply safe_kind|]. apply safe_ret. apply Forall_app_intro; [exact Ha|]. constructor; [apply Hf | constructor].
Qed.

Lemma safe_build_fields locals en d :
  wf_env en -> Forall (fun p => closed (map fst locals ++ dom en) true (snd p)) locals ->
  forall fs acc, Forall (closed_field (dom en) (hasobj en) (map fst locals ++ dom en)) fs ->
  Forall (field_ok locals en) acc -> safe (Forall (field_ok locals en)) (build_fields en fs acc d).
Proof.
  intros He Hl. induction fs as [|f r IH]; intros acc Hfs Hacc; simpl.
  - apply safe_ret. exact Hacc.
  - inversion Hfs as [|? ? Hf Hr]; subst. destruct f as [nm plus vis body].
    assert (Hbody : forall s, field_ok locals en (s, MkField vis plus body None)).
    { intros s. unfold field_ok. simpl. constructor; auto. inversion Hf; subst; assumption. }
    eapply safe_bind with (Q := any).
    { destruct nm as [s | e]; [apply safe_ret_any|]. inversion Hf; subst.
      eapply safe_bind; [apply safe_eval; eassumption | intros; apply safe_field_name_of]. }
    intros on _. eapply safe_bind; [apply safe_add_field; eauto|]. intros acc' Hacc'. apply IH; assumption.
Qed.

Definition vars_ok (names : list str) (v : vars) : Prop := wf_vars v /\ map fst v = names.

Lemma safe_expand_for x names : forall vs vals,
  Forall (vars_ok names) vs -> Forall wf_value vals -> safe (Forall (vars_ok (x :: names))) (expand_for x vs vals).
Proof.
  intros vs vals H. revert vals. induction H as [|v vr [Hw Hn] Hvr IH]; intros vals Hvals; destruct Hvals as [|a valr Ha Hvalr]; simpl; safe_tac.
  apply Forall_app_intro; [|assumption]. apply Forall_map_intro. intros it Hit. split; [|simpl; f_equal; exact Hn].
  constructor; [exact (Forall_in _ _ _ (wf_arr_inv _ Ha) Hit) | exact Hw].
Qed.

Lemma safe_filter_if names : forall vs vals,
  Forall (vars_ok names) vs -> safe (Forall (vars_ok names)) (filter_if vs vals).
Proof.
  intros vs vals H. revert vals. induction H as [|v vr Hv Hvr IH]; intros [|a valr]; simpl; safe_tac.
  match goal with |- Forall _ (if ?keep then _ else _) => destruct keep end; auto with wf.
Qed.

Lemma wf_env_vars v en : wf_vars v -> wf_env en -> wf_env (FVars v [] :: en).
Proof. intros Hv He. constructor; [exact Hv | constructor | exact He]. Qed.

Lemma dom_vars v en : dom (FVars v [] :: en) = map fst v ++ dom en.
Proof. reflexivity. Qed.

Lemma safe_eval_vars en names v e d :
  wf_env en -> vars_ok names v -> closed (names ++ dom en) (hasobj en) e -> safe wf_value (eval (FVars v [] :: en) e d).
Proof.
  intros He [Hw Hn] Hc. apply safe_eval; [apply wf_env_vars; assumption|]. rewrite dom_vars, hasobj_vars, Hn. exact Hc.
Qed.

Lemma safe_comp_bfs en d : wf_env en -> forall specs names vs out,
  closed_specs (names ++ dom en) (hasobj en) specs out ->
  Forall (vars_ok names) vs ->
  safe (Forall (fun v => wf_vars v /\ map fst v ++ dom en = out)) (comp_bfs en specs vs d).
Proof.
  intros He. induction specs as [|s r IH]; intros names vs out Hs Hvs; apply closed_specs_inv in Hs; simpl.
  - subst out. apply safe_ret. eapply Forall_impl; [|exact Hvs]. intros v [Hw Hn]. split; [exact Hw | rewrite Hn; reflexivity].
  - destruct s as [x e | c]; destruct Hs as [Hce Hr];
      (eapply safe_bind;
       [apply safe_mapM with (P := wf_value); intros v Hv;
        apply (safe_eval_vars en names); [exact He | exact (Forall_in _ _ _ Hvs Hv) | exact Hce] |]);
      intros vals Hvals.
    + destruct (first_non_array vals); [apply safe_kind|].
      eapply safe_bind; [apply safe_expand_for; eassumption|]. intros vs' Hvs'.
      apply (IH (x :: names)); assumption.
    + destruct (first_non_bool vals); [apply safe_kind|].
      eapply safe_bind; [apply safe_filter_if; eassumption|]. intros vs' Hvs'.
      apply (IH names); assumption.
Qed.

Lemma safe_comp_dfs en d : wf_env en -> forall specs v out,
  closed_specs (map fst v ++ dom en) (hasobj en) specs out -> wf_vars v ->
  safe (Forall (fun v' => wf_vars v' /\ map fst v' ++ dom en = out)) (comp_dfs en specs v d).
Proof.
  intros He. induction specs as [|s r IH]; intros v out Hs Hv; apply closed_specs_inv in Hs; simpl.
  - subst out. apply safe_ret. constructor; [split; [exact Hv | reflexivity] | constructor].
  - destruct s as [x e | c]; destruct Hs as [Hce Hr];
      (eapply safe_bind; [apply (safe_eval_vars en (map fst v)); [exact He | split; [exact Hv | reflexivity] | exact Hce]|]);
      intros a Ha; destruct a; try apply safe_kind.
    + apply wf_arr_inv in Ha. eapply safe_bind.
      { apply safe_mapM with (P := Forall (fun v' => wf_vars v' /\ map fst v' ++ dom en = out)).
        intros it Hit. apply IH; [exact Hr|]. constructor; [exact (Forall_in _ _ _ Ha Hit) | exact Hv]. }
      intros ll Hll. apply safe_ret, Forall_concat, Hll.
    + destruct b; [apply IH; assumption | apply safe_ret; constructor].
Qed.

Definition env_ok (en : env) (out : list str) (e' : env) : Prop :=
  wf_env e' /\ dom e' = out /\ hasobj e' = hasobj en.

Lemma safe_comp_envs en specs d out :
  wf_env en -> closed_specs (dom en) (hasobj en) specs out -> safe (Forall (env_ok en out)) (comp_envs en specs d).
Proof.
  intros He Hs. unfold comp_envs. eapply safe_bind; [apply safe_ask_bfs|]. intros bfs _.
  eapply safe_bind with (Q := Forall (fun v => wf_vars v /\ map fst v ++ dom en = out)).
  - destruct bfs.
    + apply (safe_comp_bfs en d He specs [] [[]] out); [exact Hs|]. constructor; [split; [constructor | reflexivity] | constructor].
    + apply (safe_comp_dfs en d He specs [] out); [exact Hs | constructor].
  - intros vs Hvs. apply safe_ret, Forall_map_intro. intros v Hv. destruct (Forall_in _ _ _ Hvs Hv) as [Hw Hn].
    repeat split; [apply wf_env_vars; assumption | rewrite dom_vars; exact Hn].
Qed.

Lemma safe_build_comp_fields locals en0 en out name plus body d :
  closed out (hasobj en) name ->
  Forall (fun p => closed (map fst locals ++ out) true (snd p)) locals ->
  closed (map fst locals ++ out) true body ->
  forall envs acc, Forall (env_ok en out) envs -> Forall (field_ok locals en0) acc ->
  safe (Forall (field_ok locals en0)) (build_comp_fields envs name plus body acc d).
Proof.
  intros Hn Hl Hb. induction envs as [|e r IH]; intros acc Henvs Hacc; simpl.
  - apply safe_ret. exact Hacc.
  - inversion Henvs as [|? ? He Hr]; subst. destruct He as (Hwe & Hd & Ho).
    eapply safe_bind; [apply safe_eval; [exact Hwe | rewrite Hd, Ho; exact Hn]|]. intros v Hv.
    eapply safe_bind; [apply safe_field_name_of|]. intros on _.
    eapply safe_bind; [apply safe_add_field; [exact Hacc|]|].
    { intros s. unfold field_ok. simpl. constructor; [exact Hwe | rewrite Hd; exact Hl | rewrite Hd; exact Hb]. }
    intros acc' Hacc'. apply IH; assumption.
Qed.

Lemma safe_index_value v i d : wf_value v -> wf_value i -> safe wf_value (index_value v i d).
Proof.
  intros Hv Hi. unfold index_value. destruct v; try apply safe_kind; destruct i; try apply safe_kind; try solve [safe_tac].
  destruct (to_index f); [|apply safe_kind]. destruct (nthN items n) as [t|] eqn:En; [|apply safe_kind].
  pose proof (Forall_in _ _ _ (wf_arr_inv _ Hv) (nthN_in _ _ _ En)). safe_tac.
Qed.
#[export] Hint Resolve safe_index_value : safe.

Lemma safe_opt_num v s : safe any (opt_num v s).
Proof. unfold opt_num. destruct v; safe_tac. Qed.
Lemma safe_slice_pos l f : safe any (slice_pos l f).
Proof. unfold slice_pos. safe_tac. Qed.
#[export] Hint Resolve safe_opt_num safe_slice_pos : safe.
Lemma safe_slice_range l a b c : safe any (slice_range l a b c).
Proof. unfold slice_range. destruct a, b, c; safe_tac; (apply safe_bind_any; [safe_tac | auto with safe]). Qed.
#[export] Hint Resolve safe_slice_range : safe.

Lemma safe_do_slice v a b c f : wf_value v -> safe wf_value (do_slice v a b c f).
Proof. intros Hv. unfold do_slice. destruct v; safe_tac. Qed.
#[export] Hint Resolve safe_do_slice : safe.

Lemma safe_eval_opt en o d : wf_env en -> closed_opt (dom en) (hasobj en) o -> safe wf_value (eval_opt en o d).
Proof. intros He Ho. unfold eval_opt. inversion Ho; subst; safe_tac. Qed.
#[export] Hint Resolve safe_eval_opt : safe.

Lemma is_fun_wf v : wf_value v -> wf_value v. Proof. auto. Qed.

(* the list-walking builtins: induction on the derivation that every item is a well-scoped thunk *)
Lemma safe_filter_m fv d : wf_value fv -> forall items, Forall wf_thunk items -> safe (Forall wf_thunk) (filter_m fv items d).
Proof. intros Hf items H. induction H as [|it r Hit Hr IH]; simpl; safe_tac.
  match goal with |- Forall _ (if ?keep then _ else _) => destruct keep end; auto with wf.
Qed.

Lemma safe_foldl_m fv d : wf_value fv -> forall items acc, Forall wf_thunk items -> wf_thunk acc -> safe wf_value (foldl_m fv items acc d).
Proof. intros Hf items acc H. revert acc. induction H as [|it r Hit Hr IH]; intros acc Ha; simpl; safe_tac. Qed.

Lemma safe_foldr_m fv d : wf_value fv -> forall items acc, Forall wf_thunk items -> wf_thunk acc -> safe wf_value (foldr_m fv items acc d).
Proof. intros Hf items acc H. revert acc. induction H as [|it r Hit Hr IH]; intros acc Ha; simpl; safe_tac. Qed.

Lemma safe_join_str_m sep d : forall items first acc, Forall wf_thunk items -> safe wf_value (join_str_m sep items first acc d).
Proof. intros items first acc H. revert first acc. induction H as [|it r Hit Hr IH]; intros first acc; simpl; safe_tac. Qed.

Lemma safe_join_arr_m sep d : Forall wf_thunk sep -> forall items first acc,
  Forall wf_thunk items -> Forall wf_thunk acc -> safe wf_value (join_arr_m sep items first acc d).
Proof.
  intros Hs items first acc H. revert first acc. induction H as [|it r Hit Hr IH]; intros first acc Ha; simpl; safe_tac.
  apply IH. destruct first; auto with wf.
Qed.
#[export] Hint Resolve safe_filter_m safe_foldl_m safe_foldr_m safe_join_str_m safe_join_arr_m : safe.

Lemma safe_object_has o f h : safe wf_value (object_has o f h).
Proof.
  unfold object_has. destruct o; try apply safe_argtype. destruct f; try apply safe_argtype.
  destruct h as [|[|]| | | | | |]; try apply safe_argtype; apply safe_ret; constructor.
Qed.
Lemma safe_object_fields o h : safe wf_value (object_fields o h).
Proof.
  unfold object_fields. destruct o; try solve [safe_tac]. destruct h; try solve [safe_tac].
  apply safe_ret. constructor. apply Forall_map_intro. intros. repeat constructor.
Qed.
Lemma safe_prim_equals a b : safe wf_value (prim_equals a b).
Proof. unfold prim_equals. destruct a, b; safe_tac. Qed.
Lemma safe_mod_num a b : safe wf_value (mod_num a b).
Proof. unfold mod_num. destruct a, b; safe_tac. Qed.
#[export] Hint Resolve safe_object_has safe_object_fields safe_prim_equals safe_mod_num : safe.
