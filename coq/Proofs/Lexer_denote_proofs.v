(* Proofs/Lexer_denote_proofs.v — the rational a number token denotes (QArith). *)
From RJ Require Import Base.Outcome Model.Token Model.Utf8 Model.Lexer Proofs.Utf8_proofs Proofs.Lexer_proofs Proofs.Lexer_values_proofs.
From Coq Require Import Lia QArith Qpower Qfield.

Definition Zdigits (ds : list N) : Z := Z.of_N (dec_value ds).
Definition ten : Q := 10 # 1.

(* Number{digits, exp} is read downstream as digits * 10^exp *)
Definition num_denote (digits : list N) (e : Z) : Q := inject_Z (Zdigits digits) * ten ^ e.

(* the literal's text  int . frac e (+/-) X  denotes (int + frac / 10^|frac|) * 10^(+/-X) *)
Definition text_denote (di df : list N) (sign : bool) (X : N) : Q :=
  (inject_Z (Zdigits di) + inject_Z (Zdigits df) / ten ^ Z.of_nat (length df))
  * ten ^ (if sign then - Z.of_N X else Z.of_N X).

Lemma ten_neq_0 : ~ ten == 0.
Proof. unfold ten. intros H. discriminate H. Qed.

Theorem num_finish_denotes di df sign X t digits e t' :
  num_finish di df sign X t = Ok (digits, e, t') ->
  num_denote digits e == text_denote di df sign X.
Proof.
  unfold num_finish. destruct (i64_max <? Z.of_N X)%Z; [discriminate|].
  destruct (in_i64 _); [|discriminate]. intros H. inversion H; subst. clear H.
  unfold num_denote, text_denote, Zdigits. rewrite dec_value_app.
  set (s := if sign then (- Z.of_N X)%Z else Z.of_N X). set (k := Z.of_nat (length df)).
  rewrite N2Z.inj_add, N2Z.inj_mul, N2Z.inj_pow, nat_N_Z. fold k. change (Z.of_N 10) with 10%Z.
  rewrite inject_Z_plus, inject_Z_mult.
  rewrite (Zpower_Qpower 10 k) by (unfold k; lia). change (inject_Z 10) with ten.
  unfold Z.sub. rewrite (Qpower_plus ten s (- k) ten_neq_0), Qpower_opp.
  field. apply Qpower_not_0, ten_neq_0.
Qed.

(* every number token denotes what its text denotes: the integer segment is the
   first digit followed by the digits of the first group, [df] / [X] are the
   fraction digits and the explicit exponent read from the text *)
Theorem number_spec_denotes strict chr0 r digits e t :
  number_spec strict chr0 r = Ok (digits, e, t) ->
  exists df sign X, digits = (chr0 :: fst (fst (scan_group false r))) ++ df /\
                    num_denote digits e == text_denote (chr0 :: fst (fst (scan_group false r))) df sign X.
Proof.
  unfold number_spec, after_us, spec_tail, spec_exp.
  destruct (scan_group false r) as [[di us1] r1]. cbn [fst].
  intros H.
  assert (FIN : forall df sign X t0, num_finish (chr0 :: di) df sign X t0 = Ok (digits, e, t) ->
            exists df sign X, digits = (chr0 :: di) ++ df /\ num_denote digits e == text_denote (chr0 :: di) df sign X).
  { intros df sign X t0 F. exists df, sign, X. split; [|apply (num_finish_denotes _ _ _ _ _ _ _ _ F)].
    unfold num_finish in F. destruct (i64_max <? Z.of_N X)%Z; [discriminate|]. destruct (in_i64 _); [|discriminate].
    inversion F; reflexivity. }
  repeat match type of H with
  | (if ?c then _ else _) = _ => destruct c
  | (let '(_, _) := ?x in _) = _ => destruct x
  | match ?x with _ => _ end = _ => destruct x
  | Err _ = _ => discriminate H
  end; try discriminate H; eapply FIN; exact H.
Qed.
