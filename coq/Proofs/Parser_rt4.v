(* Proofs/Parser_rt4.v — round trip: object bodies (members, comprehensions) *)
From RJ Require Import Base.Outcome Model.Token Model.Ast Model.Parser Model.Print
  Proofs.Parser_rt Proofs.Parser_rt2 Proofs.Parser_rt3.
From Coq Require Import Lia.
Local Open Scope list_scope.
Local Open Scope N_scope.

(* the two halves of one iteration of parse_obj_inside's loop, as in Model/Parser.v *)
Definition obj_chain (pexpr : P expr) (lf : nat) (members : list member) (can_be_comp has_dyn : bool)
  : P (list member * bool * bool) :=
  IFLET l <== maybe_parse_obj_local pexpr lf THEN ret (members ++ [MLocal l], can_be_comp, has_dyn) ELSE
  IFLET fld <== maybe_parse_field pexpr lf THEN
    (match fld with
     | FValue (FnExpr _ _) _ VisDefault _ =>
         if has_dyn then ret (members ++ [MField fld], false, has_dyn)
         else ret (members ++ [MField fld], can_be_comp, true)
     | _ => ret (members ++ [MField fld], false, has_dyn)
     end) ELSE
  IFLET '(_, a) <== maybe_parse_assert pexpr true THEN ret (members ++ [MAssert a], false, has_dyn) ELSE
  report_expected.

Definition obj_cont (pexpr : P expr) (lf f : nat) (members : list member) (can_be_comp has_dyn : bool)
  : P (obj_inside * span) :=
  IFLET e <== eat_simple SRightBrace true THEN ret (OMembers members, e) ELSE
  IFLET _ <== eat_simple SComma true THEN
    (IFLET e <== eat_simple SRightBrace true THEN ret (OMembers members, e) ELSE
     if can_be_comp && has_dyn then
       (IFLET r <== comp_tail pexpr lf members THEN ret r ELSE obj_loop pexpr lf f members can_be_comp has_dyn)
     else obj_loop pexpr lf f members can_be_comp has_dyn)
  ELSE
    if can_be_comp && has_dyn then
      (IFLET r <== comp_tail pexpr lf members THEN ret r ELSE report_expected)
    else report_expected.

Lemma obj_loop_unfold pexpr lf f members cbc hd :
  obj_loop pexpr lf (S f) members cbc hd =
  bindP (obj_chain pexpr lf members cbc hd)
        (fun x => match x with (members', cbc', hd') => obj_cont pexpr lf f members' cbc' hd' end).
Proof. reflexivity. Qed.

Lemma app_eq_cons_l {A} (l : list A) c r t : l = c :: r -> l ++ t = c :: (r ++ t).
Proof. intros ->. reflexivity. Qed.

Lemma run_app_head {A} (m : P (option A)) l c r t : l = c :: r ->
  (forall t', run m (c :: t') None (c :: t')) -> run m (l ++ t) None (l ++ t).
Proof. intros -> H. cbn [app]. apply H. Qed.

(* object comprehensions: the member list the parser sees, and make_comp on it *)
Definition comp_field (name : expr) (plus : bool) (body : expr) : member :=
  MField (FValue (FnExpr name sp0) plus VisDefault body).
Definition comp_members (l1 : list bind) (name : expr) (plus : bool) (body : expr) (l2 : list bind) : list member :=
  map MLocal l1 ++ comp_field name plus body :: map MLocal l2.

Lemma flat_map_map {A B} (h : A -> B) (g : B -> list token) l :
  flat_map g (map h l) = flat_map (fun x => g (h x)) l.
Proof. induction l as [|x l IH]; [reflexivity|]. cbn [map flat_map]. rewrite IH. reflexivity. Qed.

(* around an element [x]: commas follow the elements before it and precede those after it *)
Lemma sep_by_app {A} (f : A -> list token) l x r :
  sep_by comma f (l ++ x :: r) =
  flat_map (fun y => f y ++ comma) l ++ f x ++ flat_map (fun y => comma ++ f y) r.
Proof.
  induction l as [|a l IH]; [reflexivity|].
  cbn [app flat_map]. rewrite <- app_assoc, <- IH.
  destruct l; cbn [app sep_by flat_map]; rewrite <- !app_assoc; reflexivity.
Qed.

Lemma comp_tokens l1 name plus body l2 specs :
  print_obj (OComp l1 name plus body l2 specs) =
  sep_by comma print_member (comp_members l1 name plus body l2) ++ flat_map print_spec specs.
Proof.
  unfold comp_members, comp_field. rewrite sep_by_app, !flat_map_map.
  cbn [print_obj print_member print_field print_fname]. norm_app. reflexivity.
Qed.

(* make_comp_go moves leading locals to the first list before the field is seen, to the second after *)
Lemma go_locals l rest a1 a2 fld :
  make_comp_go (map MLocal l ++ rest) a1 a2 fld =
  match fld with
  | None => make_comp_go rest (a1 ++ l) a2 fld
  | Some _ => make_comp_go rest a1 (a2 ++ l) fld
  end.
Proof.
  revert a1 a2. induction l as [|b l IH]; intros a1 a2; cbn [map app make_comp_go].
  - destruct fld; rewrite app_nil_r; reflexivity.
  - destruct fld; rewrite IH, <- app_assoc; reflexivity.
Qed.

Lemma make_comp_members l1 name plus body l2 specs :
  make_comp (comp_members l1 name plus body l2) specs = Ok (OComp l1 name plus body l2 specs).
Proof.
  unfold make_comp, comp_members, comp_field. rewrite go_locals. cbn [make_comp_go].
  rewrite <- (app_nil_r (map MLocal l2)), go_locals. reflexivity.
Qed.

Lemma strip_comp_members l1 name plus body l2 :
  map strip_member (comp_members l1 name plus body l2) =
  comp_members (map strip_bind l1) (strip_spans name) plus (strip_spans body) (map strip_bind l2).
Proof. unfold comp_members. rewrite map_app. cbn [map]. rewrite !map_map. reflexivity. Qed.

Lemma specs_start specs : specs_ok specs = true -> exists r0, flat_map print_spec specs = sim KFor :: r0.
Proof. intros H. destruct specs as [|[v y|y] more]; try discriminate H. eexists. reflexivity. Qed.

Section Obj.
  Variable pexpr : P expr.
  Variable L : nat.
  Hypothesis Hp : pexpr_ok pexpr L.
  Variable lf : nat.

  Lemma run_fname n t : wp_fname n = true -> (List.length (print_fname n) < L)%nat -> t <> [] ->
    run (maybe_parse_field_name pexpr) (print_fname n ++ t) (Some (strip_fname n)) t.
  Proof.
    intros Hw Hl Ht. destruct n as [i|x sp|y sp]; cbn [print_fname strip_fname wp_fname app] in *.
    - apply run_field_name_ident; exact Ht.
    - apply run_field_name_string; exact Ht.
    - rewrite <- app_assoc. cbn [app].
      apply (run_field_name_expr pexpr L Hp); [exact Hw| |exact Ht].
      revert Hl. len_tac.
  Qed.

  Definition field_ok (f : field) : Prop :=
    wp_field f = true /\ (List.length (print_field f) < L)%nat /\
    (List.length (print_field f) <= lf)%nat.

  Lemma vis_not_paren plus vis : is_simple SLeftParen (sim (vis_tok plus vis)) = false.
  Proof. destruct plus, vis; reflexivity. Qed.

  Lemma field_head f : exists c r, print_field f = c :: r /\ is_simple KLocal c = false /\
    is_simple SRightBrace c = false /\ is_simple KFor c = false.
  Proof.
    destruct f as [n ? ? ?|n ? ? ? ?]; destruct n; cbn [print_field print_fname app];
      (eexists; eexists; split; [reflexivity|repeat split; reflexivity]).
  Qed.

  Lemma run_field f fo r : field_ok f -> follow fo ->
    run (maybe_parse_field pexpr lf) (print_field f ++ fo :: r) (Some (strip_field f)) (fo :: r).
  Proof.
    intros (Hw & Hl & Hlf) Hfo. unfold maybe_parse_field. apply run_call.
    destruct f as [n plus vis v|n ps psp vis v]; cbn [print_field strip_field wp_field] in *.
    - apply andb_true_iff in Hw as [Hwn Hwv].
      rewrite app_length in Hl. cbn [List.length] in Hl.
      rewrite <- app_assoc. cbn [app].
      eapply run_orelse_hit; [apply run_fname; [exact Hwn|lia|discriminate]|].
      apply run_alt_miss; [apply vis_not_paren|].
      eapply run_orelse_hit; [apply run_plus_vis; auto with rt|].
      eapply run_bind; [apply (run_pexpr pexpr L Hp); [exact Hwv|lia|exact Hfo]|apply run_ret].
    - apply andb_true_iff in Hw as [Hw Hwv]. apply andb_true_iff in Hw as [Hwn Hwp].
      repeat (rewrite app_length in Hl, Hlf; cbn [List.length] in Hl, Hlf).
      norm_app.
      eapply run_orelse_hit; [apply run_fname; [exact Hwn|lia|discriminate]|].
      apply run_alt_hit; [reflexivity|auto with rt|].
      eapply run_bind; [apply (run_params pexpr L Hp lf ps); [exact Hwp|lia|lia|discriminate]|].
      cbv beta iota.
      eapply run_orelse_hit; [apply run_vis; auto with rt|].
      eapply run_bind; [apply (run_pexpr pexpr L Hp); [exact Hwv|lia|exact Hfo]|].
      apply run_span0_then, run_ret.
  Qed.

  Definition assert_ok (a : assert_) : Prop :=
    wp_assert a = true /\ (List.length (print_assert a) < L)%nat.

  (* [add]: add_to_expected, true for an object member, false for the expression form *)
  Lemma run_assert add a fo r : assert_ok a -> follow fo -> is_simple SColon fo = false ->
    run (maybe_parse_assert pexpr add) (print_assert a ++ fo :: r) (Some (sp0, strip_assert a)) (fo :: r).
  Proof.
    intros (Hw & Hl) Hfo Hcol. destruct a as [asp c m].
    cbn [wp_assert print_assert strip_assert] in *. apply andb_true_iff in Hw as [Hwc Hwm].
    unfold maybe_parse_assert. apply run_call. cbn [app].
    apply run_alt_hit; [reflexivity|auto with rt|].
    destruct m as [m|]; cbn [opt_all option_map] in *; norm_app.
    - cbn [List.length] in Hl. rewrite app_length in Hl. cbn [List.length] in Hl.
      eapply run_bind; [apply (run_pexpr pexpr L Hp); [exact Hwc|lia|split; reflexivity]|].
      apply run_eat_then; [reflexivity|auto with rt|].
      cbn [opt_expr].
      eapply run_bind; [eapply run_bind; [apply (run_pexpr pexpr L Hp); [exact Hwm|lia|exact Hfo]|apply run_ret]|].
      cbv beta iota. rewrite strip_span0. apply run_span0_then, run_ret.
    - rewrite app_nil_r in *. cbn [List.length] in Hl.
      eapply run_bind; [apply (run_pexpr pexpr L Hp); [exact Hwc|lia|exact Hfo]|].
      eapply run_bind; [apply run_eat_miss; exact Hcol|].
      cbn [opt_expr]. eapply run_bind; [apply run_ret|].
      cbv beta iota. rewrite strip_span0. apply run_span0_then, run_ret.
  Qed.

  Definition member_ok (m : member) : Prop :=
    wp_member m = true /\ (List.length (print_member m) < L)%nat /\
    (List.length (print_member m) <= lf)%nat.

  Definition flags_after (m : member) (cbc hd : bool) : bool * bool :=
    match m with
    | MLocal _ => (cbc, hd)
    | MField (FValue (FnExpr _ _) _ VisDefault _) => if hd then (false, hd) else (cbc, true)
    | _ => (false, hd)
    end.

  Lemma run_obj_local_miss c t : is_simple KLocal c = false ->
    run (maybe_parse_obj_local pexpr lf) (c :: t) None (c :: t).
  Proof.
    intros H. unfold maybe_parse_obj_local. apply run_call.
    eapply run_orelse_miss; [apply run_eat_miss; exact H|apply run_ret].
  Qed.

  Lemma run_field_miss_assert t : run (maybe_parse_field pexpr lf) (sim KAssert :: t) None (sim KAssert :: t).
  Proof. run_compute. Qed.

  Lemma run_obj_chain m acc cbc hd fo r : member_ok m -> follow fo -> is_simple SColon fo = false ->
    run (obj_chain pexpr lf acc cbc hd) (print_member m ++ fo :: r)
        (acc ++ [strip_member m], fst (flags_after m cbc hd), snd (flags_after m cbc hd)) (fo :: r).
  Proof.
    intros Hm Hfo Hcol. unfold obj_chain.
    destruct m as [b|a|f]; cbn [print_member strip_member flags_after fst snd].
    - destruct Hm as (Hw & Hl & Hlf). cbn [print_member List.length] in Hl, Hlf. cbn [app].
      eapply run_orelse_hit; [|apply run_ret].
      apply (run_obj_local pexpr L Hp lf b fo r); [split; [exact Hw|lia]|lia|exact Hfo].
    - destruct Hm as (Hw & Hl & _).
      assert (Ea : exists ra, print_assert a = sim KAssert :: ra) by (destruct a; eexists; reflexivity).
      destruct Ea as (ra & Ea).
      eapply run_orelse_miss; [eapply run_app_head; [exact Ea|intros t'; apply run_obj_local_miss; reflexivity]|].
      eapply run_orelse_miss; [eapply run_app_head; [exact Ea|intros t'; apply run_field_miss_assert]|].
      eapply run_orelse_hit; [apply run_assert; [exact (conj Hw Hl)|exact Hfo|exact Hcol]|].
      cbv beta iota. apply run_ret.
    - destruct (field_head f) as (ch & rr & Ehead & Hloc & _).
      eapply run_orelse_miss; [eapply run_app_head; [exact Ehead|intros t'; apply run_obj_local_miss; exact Hloc]|].
      eapply run_orelse_hit; [apply run_field; [exact Hm|exact Hfo]|].
      destruct f as [n plus vis v|n ps psp vis v]; cbn [strip_field].
      + destruct n as [i|x sp|y sp]; cbn [strip_fname]; try apply run_ret.
        destruct vis; try apply run_ret. destruct hd; apply run_ret.
      + apply run_ret.
  Qed.

  Lemma member_head m : exists c r, print_member m = c :: r /\ is_simple SRightBrace c = false /\
    is_simple KFor c = false.
  Proof.
    destruct m as [b|a|f]; cbn [print_member].
    - eexists; eexists; split; [reflexivity|split; reflexivity].
    - destruct a. eexists; eexists; split; [reflexivity|split; reflexivity].
    - destruct (field_head f) as (c & r & E & _ & H1 & H2).
      exists c, r. split; [exact E|split; assumption].
  Qed.

  Lemma run_comp_tail_miss c t members : is_simple KFor c = false ->
    run (comp_tail pexpr lf members) (c :: t) None (c :: t).
  Proof.
    intros H. unfold comp_tail.
    eapply run_orelse_miss; [apply run_comp_spec_miss; exact H|apply run_ret].
  Qed.

  Lemma cont_last f members cbc hd rest : rest <> [] ->
    run (obj_cont pexpr lf f members cbc hd) (sim SRightBrace :: rest) (OMembers members, sp0) rest.
  Proof.
    intros Hr. unfold obj_cont.
    eapply run_orelse_hit; [apply run_eat_hit; [reflexivity|exact Hr]|apply run_ret].
  Qed.

  Lemma cont_more f members cbc hd l c r t res tf : l = c :: r ->
    is_simple SRightBrace c = false -> is_simple KFor c = false ->
    run (obj_loop pexpr lf f members cbc hd) (l ++ t) res tf ->
    run (obj_cont pexpr lf f members cbc hd) (sim SComma :: l ++ t) res tf.
  Proof.
    intros -> Hb Hf H. cbn [app] in *. unfold obj_cont.
    apply run_alt_miss; [reflexivity|].
    apply run_alt_hit; [reflexivity|discriminate|].
    apply run_alt_miss; [exact Hb|].
    destruct (cbc && hd)%bool; [|exact H].
    eapply run_orelse_miss; [apply run_comp_tail_miss; exact Hf|exact H].
  Qed.

  Lemma run_lift_ok {A} (a : A) t : run (lift (Ok a)) t a t.
  Proof. intros s Es. exists s. split; [reflexivity|exact Es]. Qed.

  Lemma cont_comp f members specs oi rest : specs_ok specs = true -> (List.length specs <= lf)%nat ->
    Forall (spec_ok L) specs -> make_comp members (map strip_spec specs) = Ok oi -> rest <> [] ->
    run (obj_cont pexpr lf f members true true) (flat_map print_spec specs ++ sim SRightBrace :: rest) (oi, sp0) rest.
  Proof.
    intros Hok Hlen Hall Hmk Hr. unfold obj_cont.
    destruct (specs_start specs Hok) as (r0 & Eh).
    eapply run_orelse_miss; [eapply run_eat_miss_app; [exact Eh|reflexivity]|].
    eapply run_orelse_miss; [eapply run_eat_miss_app; [exact Eh|reflexivity]|].
    cbn [andb].
    eapply run_orelse_hit; [|apply run_ret].
    unfold comp_tail.
    eapply run_orelse_hit;
      [apply (run_comp_spec pexpr L Hp lf specs (sim SRightBrace) rest);
         [exact Hok|exact Hlen|exact Hall|split; reflexivity|reflexivity|reflexivity]|].
    apply run_expect_then; [reflexivity|exact Hr|].
    rewrite Hmk. eapply run_bind; [apply run_lift_ok|apply run_ret].
  Qed.

  Fixpoint flags_seq (ms : list member) (cbc hd : bool) : bool * bool :=
    match ms with
    | [] => (cbc, hd)
    | m :: r => flags_seq r (fst (flags_after m cbc hd)) (snd (flags_after m cbc hd))
    end.

  Lemma run_obj_seq : forall more m0 acc cbc hd frem t0 r0 res tf,
    Forall member_ok (m0 :: more) -> follow t0 -> is_simple SColon t0 = false ->
    run (obj_cont pexpr lf frem (acc ++ map strip_member (m0 :: more))
           (fst (flags_seq (m0 :: more) cbc hd)) (snd (flags_seq (m0 :: more) cbc hd))) (t0 :: r0) res tf ->
    run (obj_loop pexpr lf (S (List.length more) + frem) acc cbc hd)
        (print_member m0 ++ flat_map (fun m => comma ++ print_member m) more ++ t0 :: r0) res tf.
  Proof.
    induction more as [|m1 more IH]; intros m0 acc cbc hd frem t0 r0 res tf Hall Hfo Hcol H;
      inversion Hall as [|? ? Hok0 Hall']; subst.
    - cbn [flat_map app List.length Nat.add]. rewrite obj_loop_unfold.
      eapply run_bind; [apply (run_obj_chain m0 acc cbc hd t0 r0 Hok0 Hfo Hcol)|].
      cbv beta iota. exact H.
    - cbn [flat_map List.length Nat.add]. unfold comma at 1. norm_app. rewrite obj_loop_unfold.
      eapply run_bind;
        [apply (run_obj_chain m0 acc cbc hd (sim SComma) _ Hok0); [split; reflexivity|reflexivity]|].
      cbv beta iota.
      destruct (member_head m1) as (c1 & r1 & E1 & Hb1 & Hf1).
      rewrite app_assoc.
      eapply cont_more; [apply app_eq_cons_l; exact E1|exact Hb1|exact Hf1|].
      rewrite <- app_assoc.
      apply IH; [exact Hall'|exact Hfo|exact Hcol|].
      cbn [map flags_seq] in H. rewrite <- app_assoc. exact H.
  Qed.

  Lemma flags_locals l rest c h : flags_seq (map MLocal l ++ rest) c h = flags_seq rest c h.
  Proof. induction l as [|b l IH]; [reflexivity|exact IH]. Qed.

  Lemma flags_comp l1 name plus body l2 : flags_seq (comp_members l1 name plus body l2) true false = (true, true).
  Proof.
    unfold comp_members. rewrite flags_locals. cbn [flags_seq flags_after comp_field fst snd].
    rewrite <- (app_nil_r (map MLocal l2)), flags_locals. reflexivity.
  Qed.

  (* a non-empty body: the loop takes all the members; [tl] is what follows them *)
  Lemma run_obj_body m0 more tl t0 r0 res tf : tl = t0 :: r0 ->
    Forall member_ok (m0 :: more) -> (List.length (m0 :: more) <= lf)%nat ->
    follow t0 -> is_simple SColon t0 = false ->
    (forall f, run (obj_cont pexpr lf f (map strip_member (m0 :: more))
                      (fst (flags_seq (m0 :: more) true false)) (snd (flags_seq (m0 :: more) true false)))
                   tl res tf) ->
    run (parse_obj_inside pexpr lf) (sep_by comma print_member (m0 :: more) ++ tl) res tf.
  Proof.
    intros -> Hall Hlen Hfo Hcol H. unfold parse_obj_inside. apply run_call. unfold sep_by.
    destruct (member_head m0) as (c0 & rh & E0 & Hb0 & _).
    rewrite <- app_assoc.
    eapply run_orelse_miss; [eapply run_eat_miss_app; [exact E0|exact Hb0]|].
    cbn [List.length] in Hlen.
    replace lf with (S (List.length more) + (lf - S (List.length more)))%nat at 2 by lia.
    apply run_obj_seq; [exact Hall|exact Hfo|exact Hcol|apply H].
  Qed.

  Lemma run_obj_members ms rest : Forall member_ok ms -> (List.length ms <= lf)%nat -> rest <> [] ->
    run (parse_obj_inside pexpr lf) (sep_by comma print_member ms ++ sim SRightBrace :: rest)
        (OMembers (map strip_member ms), sp0) rest.
  Proof.
    intros Hall Hlen Hr. destruct ms as [|m0 more].
    - unfold parse_obj_inside. apply run_call. apply run_alt_hit; [reflexivity|exact Hr|apply run_ret].
    - eapply run_obj_body; [reflexivity|exact Hall|exact Hlen|split; reflexivity|reflexivity|].
      intros f. apply cont_last. exact Hr.
  Qed.

  Lemma run_obj_comp l1 name plus body l2 specs rest :
    Forall member_ok (comp_members l1 name plus body l2) ->
    (List.length (comp_members l1 name plus body l2) <= lf)%nat ->
    specs_ok specs = true -> (List.length specs <= lf)%nat -> Forall (spec_ok L) specs -> rest <> [] ->
    run (parse_obj_inside pexpr lf) (print_obj (OComp l1 name plus body l2 specs) ++ sim SRightBrace :: rest)
        (OComp (map strip_bind l1) (strip_spans name) plus (strip_spans body) (map strip_bind l2) (map strip_spec specs), sp0)
        rest.
  Proof.
    intros Hall Hlen Hok Hsl Hsp Hr. rewrite comp_tokens, <- app_assoc.
    destruct (comp_members l1 name plus body l2) as [|m0 more] eqn:Ems.
    { unfold comp_members in Ems. destruct l1; discriminate. }
    destruct (specs_start specs Hok) as (r1 & Eh).
    eapply run_obj_body; [apply app_eq_cons_l; exact Eh|exact Hall|exact Hlen|split; reflexivity|reflexivity|].
    intros f. rewrite <- Ems, flags_comp.
    apply cont_comp; [exact Hok|exact Hsl|exact Hsp| |exact Hr].
    rewrite strip_comp_members. apply make_comp_members.
  Qed.
End Obj.

Lemma member_nonempty m : print_member m <> [].
Proof. destruct (member_head m) as (c & r & E & _). rewrite E. discriminate. Qed.

Lemma members_ok L lf ms : (forall m, In m ms -> wp_member m = true) ->
  (List.length (sep_by comma print_member ms) < L)%nat -> (List.length (sep_by comma print_member ms) <= lf)%nat ->
  Forall (member_ok L lf) ms /\ (List.length ms <= lf)%nat.
Proof.
  intros Hw Hl Hlf. split.
  - apply Forall_forall. intros m Hin. pose proof (sep_by_len print_member ms m Hin).
    split; [exact (Hw m Hin)|]. split; lia.
  - pose proof (sep_by_count print_member ms (fun x _ => member_nonempty x)). lia.
Qed.

Lemma run_obj pexpr L (Hp : pexpr_ok pexpr L) lf o rest :
  wp_obj o = true -> (List.length (print_obj o) < L)%nat ->
  (List.length (print_obj o) <= lf)%nat -> rest <> [] ->
  run (parse_obj_inside pexpr lf) (print_obj o ++ sim SRightBrace :: rest) (strip_obj o, sp0) rest.
Proof.
  intros Hw Hl Hlf Hr. destruct o as [ms|l1 name plus body l2 specs]; cbn [wp_obj] in Hw.
  - rewrite forallb_forall in Hw. destruct (members_ok L lf ms Hw Hl Hlf) as [Hall Hlen].
    exact (run_obj_members pexpr L Hp lf ms rest Hall Hlen Hr).
  - rewrite !andb_true_iff in Hw. destruct Hw as (((((Hw1 & Hwn) & Hwb) & Hw2) & Hok) & Hws).
    rewrite forallb_forall in Hw1, Hw2, Hws.
    rewrite comp_tokens, app_length in Hl, Hlf.
    assert (Hwm : forall m, In m (comp_members l1 name plus body l2) -> wp_member m = true).
    { intros m Hin. unfold comp_members in Hin. apply in_app_or in Hin as [Hin|[<-|Hin]].
      - apply in_map_iff in Hin as (b & <- & Hb). exact (Hw1 b Hb).
      - cbn [comp_field wp_member wp_field wp_fname]. rewrite Hwn, Hwb. reflexivity.
      - apply in_map_iff in Hin as (b & <- & Hb). exact (Hw2 b Hb). }
    destruct (members_ok L lf _ Hwm) as [Hall Hlen]; [lia|lia|].
    apply (run_obj_comp pexpr L Hp lf); [exact Hall|exact Hlen|exact Hok| | |exact Hr].
    + pose proof (flat_map_count print_spec specs (fun x _ => spec_nonempty x)). lia.
    + apply Forall_forall. intros sc Hin. split; [exact (Hws sc Hin)|].
      pose proof (flat_map_len_in print_spec specs sc Hin). lia.
Qed.
