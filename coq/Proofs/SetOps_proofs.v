(* Proofs/SetOps_proofs.v — lemmas and proofs about Model/SetOps.v *)
From Coq Require Import List Arith Lia Permutation Sorted Bool.
From RJ Require Import Base.Outcome Model.Sort Model.SetOps Proofs.Sort_proofs.
Import ListNotations.
Local Open Scope outcome_scope.

Section Order3.
  Variables (X : Type) (c : X -> X -> comparison).
  Hypothesis TP : total_preorder c.

  Lemma gt_lt x y : c x y = Gt -> c y x = Lt.
  Proof. intros H. rewrite (tp_sym c TP x y), H. reflexivity. Qed.

  Lemma lt_gt x y : c x y = Lt -> c y x = Gt.
  Proof. intros H. rewrite (tp_sym c TP x y), H. reflexivity. Qed.

  (* A chain x <= y <= z with one strict link is strict: x ~ z would close a cycle of <= through
     the strict link. *)
  Lemma lt_le_trans x y z : c x y = Lt -> c y z <> Gt -> c x z = Lt.
  Proof.
    intros Hxy Hyz. destruct (c x z) eqn:Exz; [exfalso|reflexivity|exfalso].
    - apply (tp_trans c TP y z x Hyz); [rewrite (ceq_sym X c TP x z Exz); discriminate|exact (lt_gt x y Hxy)].
    - exact (tp_trans c TP x y z (lt_cle X c x y Hxy) Hyz Exz).
  Qed.

  Lemma le_lt_trans x y z : c x y <> Gt -> c y z = Lt -> c x z = Lt.
  Proof.
    intros Hxy Hyz. destruct (c x z) eqn:Exz; [exfalso|reflexivity|exfalso].
    - apply (tp_trans c TP z x y); [rewrite (ceq_sym X c TP x z Exz); discriminate|exact Hxy|exact (lt_gt y z Hyz)].
    - exact (tp_trans c TP x y z Hxy (lt_cle X c y z Hyz) Exz).
  Qed.

  Lemma lt_trans' x y z : c x y = Lt -> c y z = Lt -> c x z = Lt.
  Proof. intros H1 H2. apply (lt_le_trans x y z H1). rewrite H2; discriminate. Qed.

  Lemma eq_lt_trans x y z : c x y = Eq -> c y z = Lt -> c x z = Lt.
  Proof. intros H1 H2. rewrite <- (eq_cong_l X c TP x y z H1). exact H2. Qed.

  Lemma total_preorder_flip : total_preorder (fun a b => c b a).
  Proof.
    destruct TP as [R S T]. constructor; intros.
    - apply R.
    - apply S.
    - eapply T; eassumption.
  Qed.
End Order3.

Lemma StronglySorted_nth {X} (R : X -> X -> Prop) l d i j :
  StronglySorted R l -> i < j < length l -> R (nth i l d) (nth j l d).
Proof.
  intros S; revert i j; induction S as [|a l S IH F]; intros i j H; cbn [length] in H; [lia|].
  destruct i as [|i]; destruct j as [|j]; try lia; cbn [nth].
  - apply (proj1 (Forall_forall _ _) F). apply nth_In. lia.
  - apply IH. lia.
Qed.

Definition pick {X} (mask : list bool) (l : list X) : list X :=
  map snd (filter fst (combine mask l)).

Section Uniq.
  Variables (A K E : Type) (keyf : A -> outcome K E) (eqv : K -> K -> outcome bool E).
  Variables (kf : A -> K) (e : K -> K -> bool).

  Definition eqv_pure (arr : list A) : Prop :=
    forall a b, In a arr -> In b arr -> eqv (kf a) (kf b) = Ok (e (kf a) (kf b)).

  (* what std.uniq keeps of the items after one of key [kprev], when keyF and == compute [kf] and [e] *)
  Fixpoint uniq_rest (kprev : K) (items : list A) : list A :=
    match items with
    | [] => []
    | it :: more => if e kprev (kf it) then uniq_rest (kf it) more else it :: uniq_rest (kf it) more
    end.

  Definition uniq_of (arr : list A) : list A :=
    match arr with [] => [] | a0 :: rest => a0 :: uniq_rest (kf a0) rest end.

  Lemma uniq_loop_pure items : forall a0 (all : list A),
    In a0 all -> incl items all -> keys_pure A K E keyf kf all -> eqv_pure all ->
    uniq_loop keyf eqv (kf a0) items = Ok (uniq_rest (kf a0) items).
  Proof.
    induction items as [|it more IH]; intros a0 all H0 Hin HK HE; cbn [uniq_loop uniq_rest]; [reflexivity|].
    assert (Hit : In it all) by (apply Hin; left; reflexivity).
    rewrite (HK it Hit); cbn [obind]. rewrite (HE a0 it H0 Hit); cbn [obind].
    rewrite (IH it all Hit) by (try assumption; intros x Hx; apply Hin; right; exact Hx). reflexivity.
  Qed.

  Lemma std_uniq_pure arr :
    keys_pure A K E keyf kf arr -> eqv_pure arr -> std_uniq keyf eqv arr = Ok (uniq_of arr).
  Proof.
    intros HK HE. destruct arr as [|a0 [|a1 rest]]; [reflexivity|reflexivity|].
    cbn [std_uniq]. rewrite (HK a0 (or_introl eq_refl)); cbn [obind].
    rewrite (uniq_loop_pure (a1 :: rest) a0 (a0 :: a1 :: rest)); try assumption;
      [reflexivity|left; reflexivity|intros x Hx; right; exact Hx].
  Qed.

  Fixpoint uniq_mask (kprev : K) (items : list A) : list bool :=
    match items with
    | [] => []
    | it :: more => negb (e kprev (kf it)) :: uniq_mask (kf it) more
    end.

  Lemma uniq_mask_length kprev items : length (uniq_mask kprev items) = length items.
  Proof. revert kprev; induction items as [|it more IH]; intros kprev; cbn [uniq_mask length]; [reflexivity|]. rewrite IH; reflexivity. Qed.

  Lemma uniq_mask_nth items d : forall kprev i, i < length items ->
    nth i (uniq_mask kprev items) false =
    negb (e (match i with 0 => kprev | S i' => kf (nth i' items d) end) (kf (nth i items d))).
  Proof.
    induction items as [|it more IH]; intros kprev i Hi; cbn [length] in Hi; [lia|].
    destruct i as [|i]; cbn [uniq_mask nth]; [reflexivity|].
    rewrite IH by lia. destruct i; reflexivity.
  Qed.

  Lemma uniq_rest_pick items : forall kprev, uniq_rest kprev items = pick (uniq_mask kprev items) items.
  Proof.
    induction items as [|it more IH]; intros kprev; cbn [uniq_rest uniq_mask]; [reflexivity|].
    rewrite IH. unfold pick. cbn [combine filter fst]. destruct (e kprev (kf it)); reflexivity.
  Qed.

  Theorem uniq_spec arr d :
    keys_pure A K E keyf kf arr -> eqv_pure arr ->
    exists mask, length mask = length arr /\
      (forall i, i < length arr ->
         nth i mask false = match i with 0 => true | S i' => negb (e (kf (nth i' arr d)) (kf (nth i arr d))) end) /\
      std_uniq keyf eqv arr = Ok (pick mask arr).
  Proof.
    intros HK HE. rewrite (std_uniq_pure arr HK HE). destruct arr as [|a0 rest].
    - exists []. repeat split. intros i Hi; cbn in Hi; lia.
    - exists (true :: uniq_mask (kf a0) rest). split; [cbn [length]; rewrite uniq_mask_length; reflexivity|]. split.
      + intros i Hi. destruct i as [|i]; [reflexivity|]. cbn [nth length] in *.
        rewrite (uniq_mask_nth rest d) by lia. destruct i; reflexivity.
      + cbn [uniq_of]. rewrite uniq_rest_pick. reflexivity.
  Qed.

  Hypothesis e_sym : forall a b, e a b = e b a.
  Hypothesis e_trans : forall a b c', e a b = true -> e b c' = true -> e a c' = true.

  Lemma uniq_rest_no_adj items : forall a0,
    HdRel (fun x y => e (kf x) (kf y) = false) a0 (uniq_rest (kf a0) items) /\
    Sorted (fun x y => e (kf x) (kf y) = false) (uniq_rest (kf a0) items) /\
    incl (uniq_rest (kf a0) items) items.
  Proof.
    induction items as [|it more IH]; intros a0; cbn [uniq_rest].
    - repeat split; [constructor|constructor|intros x []].
    - destruct (IH it) as [Hd [Hs Hi]]. destruct (e (kf a0) (kf it)) eqn:Ee.
      + split; [|split; [exact Hs|intros x Hx; right; apply Hi; exact Hx]].
        destruct (uniq_rest (kf it) more) as [|x r]; constructor. inversion Hd as [|? ? Hx]; subst.
        (* a0 == it and it =/= x, so a0 =/= x *)
        destruct (e (kf a0) (kf x)) eqn:Ex; [|reflexivity].
        assert (Ht : e (kf it) (kf x) = true)
          by (apply (e_trans (kf it) (kf a0) (kf x)); [rewrite e_sym; exact Ee|exact Ex]).
        congruence.
      + split; [constructor; exact Ee|]. split; [constructor; assumption|].
        intros x [<-|Hx]; [left; reflexivity|right; apply Hi; exact Hx].
  Qed.

  Theorem uniq_no_adjacent_duplicates arr r :
    keys_pure A K E keyf kf arr -> eqv_pure arr -> std_uniq keyf eqv arr = Ok r ->
    Sorted (fun x y => e (kf x) (kf y) = false) r /\ incl r arr.
  Proof.
    intros HK HE H. rewrite (std_uniq_pure arr HK HE) in H. inversion H; subst r; clear H.
    destruct arr as [|a0 rest]; [split; [constructor|intros x []]|].
    destruct (uniq_rest_no_adj rest a0) as [Hd [Hs Hi]].
    split; [constructor; assumption|].
    intros x [<-|Hx]; [left; reflexivity|right; apply Hi; exact Hx].
  Qed.
End Uniq.

(* std.set = std.uniq o std.sort, as outcomes, whatever keyF / the comparison / == do *)

Lemma Forall2_length' {X Y} (R : X -> Y -> Prop) l l' : Forall2 R l l' -> length l = length l'.
Proof. induction 1; cbn [length]; congruence. Qed.

Lemma Forall2_nth_ok {A K E} (keyf : A -> outcome K E) arr keys d dk i :
  Forall2 (fun a k => keyf a = Ok k) arr keys -> i < length arr -> keyf (nth i arr d) = Ok (nth i keys dk).
Proof.
  intros H; revert i; induction H as [|a k arr keys Hak H IH]; intros i Hi; cbn [length] in Hi; [lia|].
  destruct i; cbn [nth]; [exact Hak|apply IH; lia].
Qed.

Section SetUniqSort.
  Variables (A K E : Type) (keyf : A -> outcome K E) (cmp : K -> K -> outcome comparison E) (eqv : K -> K -> outcome bool E).

  Lemma set_uniq_loop_incl keys : forall rest prev r, set_uniq_loop eqv keys prev rest = Ok r -> incl r rest.
  Proof.
    induction rest as [|i more IH]; intros prev r H; cbn [set_uniq_loop] in H.
    - inversion H; intros x [].
    - obind_inv H. obind_inv H. obind_inv H. obind_inv H. inversion H; subst r.
      specialize (IH _ _ Hv2). destruct v1; intros x Hx.
      + right; apply IH; exact Hx.
      + destruct Hx as [<-|Hx]; [left; reflexivity|right; apply IH; exact Hx].
  Qed.

  Lemma loops_agree arr keys d dk (f := fun i => nth i arr d) :
    Forall2 (fun a k => keyf a = Ok k) arr keys ->
    forall rest prev, prev < length arr -> (forall i, In i rest -> i < length arr) ->
    uniq_loop keyf eqv (nth prev keys dk) (map f rest) = omap (map f) (set_uniq_loop eqv keys prev rest).
  Proof.
    intros HF. pose proof (Forall2_length' _ _ _ HF) as HL.
    induction rest as [|i more IH]; intros prev Hp Hr; cbn [map uniq_loop set_uniq_loop]; [reflexivity|].
    assert (Hi : i < length arr) by (apply Hr; left; reflexivity).
    unfold f at 1. rewrite (Forall2_nth_ok keyf arr keys d dk i HF Hi); cbn [obind].
    unfold set_key_at.
    rewrite (nth_error_nth' keys dk) by lia. rewrite (nth_error_nth' keys dk) by lia. cbn [obind].
    destruct (eqv (nth prev keys dk) (nth i keys dk)) as [ee| | |]; cbn [obind omap]; try reflexivity.
    rewrite (IH i Hi) by (intros j Hj; apply Hr; right; exact Hj).
    destruct (set_uniq_loop eqv keys i more) as [r| | |]; cbn [obind omap]; try reflexivity.
    destruct ee; reflexivity.
  Qed.

  Theorem set_is_uniq_sort arr :
    std_set keyf cmp eqv arr = (do s <- std_sort keyf cmp arr; std_uniq keyf eqv s).
  Proof.
    unfold std_set, std_sort.
    destruct (length arr <=? 1) eqn:E1.
    - apply Nat.leb_le in E1. cbn [obind]. destruct arr as [|a [|b arr]]; cbn [length] in E1; try lia; reflexivity.
    - apply Nat.leb_gt in E1.
      destruct (mapM keyf arr) as [keys| | |] eqn:EK; cbn [obind]; try reflexivity.
      destruct (sort_idx cmp keys) as [p| | |] eqn:EP; cbn [obind]; try reflexivity.
      pose proof (mapM_ok_forall2 keyf arr keys EK) as HF.
      pose proof (Forall2_length' _ _ _ HF) as HL.
      pose proof (sort_slice_perm _ _ _ _ _ _ EP) as HP. rewrite <- HL in HP.
      destruct arr as [|d rest0]; [cbn in E1; lia|]. set (arr := d :: rest0) in *.
      destruct keys as [|dk keys0]; [cbn in HL; lia|]. set (keys := dk :: keys0) in *.
      rewrite (elems_of_perm A E arr d p HP); cbn [obind].
      set (f := fun i => nth i arr d).
      assert (Hrange : forall i, In i p -> i < length arr).
      { intros i Hi. apply (Permutation_in _ HP) in Hi. apply in_seq in Hi. lia. }
      pose proof (Permutation_length HP) as HPl. rewrite seq_length in HPl.
      destruct p as [|i0 [|i1 rest]]; [cbn [length] in HPl; lia..|].
      set (tl := i1 :: rest) in *.
      change (std_uniq keyf eqv (map f (i0 :: tl))) with
        (do k0 <- keyf (f i0); do r <- uniq_loop keyf eqv k0 (map f tl); Ok (f i0 :: r)).
      assert (H0 : i0 < length arr) by (apply Hrange; left; reflexivity).
      unfold f. rewrite (Forall2_nth_ok keyf arr keys d dk i0 HF H0); cbn [obind].
      rewrite (loops_agree arr keys d dk HF tl i0 H0) by (intros j Hj; apply Hrange; right; exact Hj).
      fold f. cbn [set_uniq].
      destruct (set_uniq_loop eqv keys i0 tl) as [u| | |] eqn:EU; cbn [obind omap]; try reflexivity.
      pose proof (set_uniq_loop_incl keys tl i0 u EU) as HI.
      assert (HM : mapM (set_elem_at A E arr) (i0 :: u) = Ok (map f (i0 :: u))).
      { apply mapM_pure. intros i Hi. unfold set_elem_at.
        rewrite (nth_error_nth' arr d); [reflexivity|].
        destruct Hi as [<-|Hi]; [exact H0|apply Hrange; right; apply HI; exact Hi]. }
      rewrite HM. reflexivity.
  Qed.
End SetUniqSort.

Section Walks.
  Variables (A K E : Type) (keyf : A -> outcome K E) (cmp : K -> K -> outcome comparison E).
  Variables (kf : A -> K) (c : K -> K -> comparison).
  Hypothesis TP : total_preorder c.

  Definition klt (x y : A) : Prop := c (kf x) (kf y) = Lt.
  Definition keq (x y : A) : Prop := c (kf x) (kf y) = Eq.
  Definition is_set (l : list A) : Prop := StronglySorted klt l.

  Definition walk_pure (a b : list A) : Prop :=
    keys_pure A K E keyf kf (a ++ b) /\
    (forall x y, In x a -> In y b -> cmp (kf x) (kf y) = Ok (c (kf x) (kf y))).

  Lemma cmp_ab_pure a b x y : walk_pure a b -> In x a -> In y b -> cmp_ab keyf cmp x y = Ok (c (kf x) (kf y)).
  Proof.
    intros [HK HC] Hx Hy. unfold cmp_ab.
    rewrite (HK x) by (apply in_or_app; left; exact Hx). cbn [obind].
    rewrite (HK y) by (apply in_or_app; right; exact Hy). cbn [obind].
    apply HC; assumption.
  Qed.

  Lemma walk_pure_tl_a x a b : walk_pure (x :: a) b -> walk_pure a b.
  Proof.
    intros [HK HC]; split.
    - intros z Hz. apply HK. cbn [app]. right; exact Hz.
    - intros u v Hu Hv. apply HC; [right; exact Hu|exact Hv].
  Qed.

  Lemma walk_pure_tl_b a y b : walk_pure a (y :: b) -> walk_pure a b.
  Proof.
    intros [HK HC]; split.
    - intros z Hz. apply HK. apply in_app_or in Hz. apply in_or_app. destruct Hz; [left|right; right]; assumption.
    - intros u v Hu Hv. apply HC; [exact Hu|right; exact Hv].
  Qed.

  Lemma set_hd_lt x a : is_set (x :: a) -> forall z, In z a -> klt x z.
  Proof. intros S. inversion S as [|? ? _ F]; subst. exact (proj1 (Forall_forall _ _) F). Qed.

  Lemma set_tl x a : is_set (x :: a) -> is_set a.
  Proof. intros S; inversion S; assumption. Qed.

  Lemma set_hd_le x a z : is_set (x :: a) -> In z (x :: a) -> c (kf x) (kf z) <> Gt.
  Proof.
    intros S [<-|Hz].
    - rewrite (tp_refl c TP); discriminate.
    - rewrite (set_hd_lt x a S z Hz); discriminate.
  Qed.

  Lemma lt_hd_lt_all x y b : klt x y -> is_set (y :: b) -> forall z, In z (y :: b) -> klt x z.
  Proof. intros Hxy Sb z Hz. exact (lt_le_trans K c TP _ _ _ Hxy (set_hd_le y b z Sb Hz)). Qed.

  Lemma eq_hd_lt_tl x y b : keq x y -> is_set (y :: b) -> forall z, In z b -> klt x z.
  Proof. intros Hxy Sb z Hz. exact (eq_lt_trans K c TP _ _ _ Hxy (set_hd_lt y b Sb z Hz)). Qed.

  Lemma klt_not_keq x z : klt x z -> ~ keq x z.
  Proof. unfold klt, keq. intros ->. discriminate. Qed.

  Definition key_in (b : list A) (z : A) : bool := existsb (fun y => same_key c (kf z) (kf y)) b.

  Lemma key_in_iff b z : key_in b z = true <-> exists y, In y b /\ keq z y.
  Proof.
    unfold key_in, keq, same_key. rewrite existsb_exists.
    split; intros [y [Hy H]]; exists y; (split; [exact Hy|]); destruct (c (kf z) (kf y)); congruence.
  Qed.

  Lemma key_in_false b z : key_in b z = false <-> forall y, In y b -> ~ keq z y.
  Proof.
    rewrite <- not_true_iff_false, key_in_iff. split.
    - intros Hn y Hy Hk. apply Hn. exists y. split; assumption.
    - intros Hn [y [Hy Hk]]. exact (Hn y Hy Hk).
  Qed.

  Lemma key_in_below b x : (forall y, In y b -> klt x y) -> key_in b x = false.
  Proof. intros H. apply key_in_false. intros y Hy. exact (klt_not_keq x y (H y Hy)). Qed.

  Lemma key_in_skip y b z : klt y z -> key_in (y :: b) z = key_in b z.
  Proof.
    intros H. unfold key_in. cbn [existsb]. unfold same_key at 1.
    rewrite (lt_gt K c TP _ _ H). reflexivity.
  Qed.

  Lemma filter_key_in_skip y b l :
    (forall z, In z l -> klt y z) ->
    filter (key_in (y :: b)) l = filter (key_in b) l /\
    filter (fun z => negb (key_in (y :: b) z)) l = filter (fun z => negb (key_in b z)) l.
  Proof. intros Hl. split; apply filter_ext_in; intros z Hz; rewrite (key_in_skip y b z (Hl z Hz)); reflexivity. Qed.

  Lemma union_walk_cons x a y b :
    union_walk keyf cmp (x :: a) (y :: b) =
    do cc <- cmp_ab keyf cmp x y;
    match cc with
    | Lt => do r <- union_walk keyf cmp a (y :: b); Ok (x :: r)
    | Eq => do r <- union_walk keyf cmp a b; Ok (x :: r)
    | Gt => do r <- union_walk keyf cmp (x :: a) b; Ok (y :: r)
    end.
  Proof. reflexivity. Qed.
  Lemma union_walk_nil_l b : union_walk keyf cmp [] b = Ok b.
  Proof. destruct b; reflexivity. Qed.
  Lemma union_walk_nil_r a : union_walk keyf cmp a [] = Ok a.
  Proof. destruct a; reflexivity. Qed.

  Lemma inter_walk_cons x a y b :
    inter_walk keyf cmp (x :: a) (y :: b) =
    do cc <- cmp_ab keyf cmp x y;
    match cc with
    | Lt => inter_walk keyf cmp a (y :: b)
    | Eq => do r <- inter_walk keyf cmp a b; Ok (x :: r)
    | Gt => inter_walk keyf cmp (x :: a) b
    end.
  Proof. reflexivity. Qed.
  Lemma inter_walk_nil_l b : inter_walk keyf cmp [] b = Ok [].
  Proof. destruct b; reflexivity. Qed.
  Lemma inter_walk_nil_r a : inter_walk keyf cmp a [] = Ok [].
  Proof. destruct a; reflexivity. Qed.

  Lemma diff_walk_cons x a y b :
    diff_walk keyf cmp (x :: a) (y :: b) =
    do cc <- cmp_ab keyf cmp x y;
    match cc with
    | Lt => do r <- diff_walk keyf cmp a (y :: b); Ok (x :: r)
    | Eq => diff_walk keyf cmp a b
    | Gt => diff_walk keyf cmp (x :: a) b
    end.
  Proof. reflexivity. Qed.
  Lemma diff_walk_nil_l b : diff_walk keyf cmp [] b = Ok [].
  Proof. destruct b; reflexivity. Qed.
  Lemma diff_walk_nil_r a : diff_walk keyf cmp a [] = Ok a.
  Proof. destruct a; reflexivity. Qed.

  (* Intersection and difference are the items of a whose key is / is not a key of b.  The two
     walks take the same steps and differ only in which items they keep, so one induction serves
     both.  A step that drops the head y of b is sound because everything still to come in a is
     above y. *)
  Lemma inter_diff_walk_filter : forall a b,
    walk_pure a b -> is_set a -> is_set b ->
    inter_walk keyf cmp a b = Ok (filter (key_in b) a) /\
    diff_walk keyf cmp a b = Ok (filter (fun z => negb (key_in b z)) a).
  Proof.
    induction a as [|x a IHa]; intros b HP Sa Sb.
    - rewrite inter_walk_nil_l, diff_walk_nil_l. split; reflexivity.
    - induction b as [|y b IHb].
      + rewrite inter_walk_nil_r, diff_walk_nil_r, filter_none, filter_all by reflexivity.
        split; reflexivity.
      + rewrite inter_walk_cons, diff_walk_cons.
        rewrite (cmp_ab_pure (x :: a) (y :: b) x y HP) by (left; reflexivity). cbn [obind filter].
        pose proof (set_tl _ _ Sa) as Sa'. pose proof (set_tl _ _ Sb) as Sb'.
        destruct (c (kf x) (kf y)) eqn:Exy.
        * (* x meets y; the rest of a is above both *)
          assert (Hx : key_in (y :: b) x = true) by (apply key_in_iff; exists y; split; [left; reflexivity|exact Exy]).
          pose proof (eq_hd_lt_tl y x a (ceq_sym K c TP _ _ Exy) Sa) as Ha.
          rewrite Hx. cbn [negb]. destruct (filter_key_in_skip y b a Ha) as [-> ->].
          destruct (IHa b) as [-> ->]; [eapply walk_pure_tl_a, walk_pure_tl_b, HP|assumption..|].
          split; reflexivity.
        * (* x is below all of b *)
          rewrite (key_in_below (y :: b) x (lt_hd_lt_all x y b Exy Sb)). cbn [negb].
          destruct (IHa (y :: b)) as [-> ->]; [eapply walk_pure_tl_a, HP|assumption..|].
          split; reflexivity.
        * (* y is below all of a *)
          apply (gt_lt K c TP) in Exy.
          pose proof (lt_hd_lt_all y x a Exy Sa) as Ha.
          destruct (filter_key_in_skip y b _ Ha) as [E1 E2]. cbn [filter] in E1, E2. rewrite E1, E2.
          apply IHb; [eapply walk_pure_tl_b, HP|assumption].
  Qed.

  Lemma set_cons_perm h r a b (f : A -> bool) :
    is_set r -> Permutation r (a ++ filter f b) ->
    (forall z, In z a -> klt h z) -> (forall z, In z b -> klt h z) -> is_set (h :: r).
  Proof.
    intros Sr Pr Ha Hb. constructor; [exact Sr|]. apply Forall_forall. intros z Hz.
    apply (Permutation_in _ Pr), in_app_or in Hz. destruct Hz as [Hz|Hz]; [exact (Ha z Hz)|].
    apply filter_In in Hz. exact (Hb z (proj1 Hz)).
  Qed.

  (* The union is a together with the items of b whose key is not a key of a, in key order.
     At each step the emitted head is below everything still to come on both sides. *)
  Lemma union_walk_perm : forall a b,
    walk_pure a b -> is_set a -> is_set b ->
    exists r, union_walk keyf cmp a b = Ok r /\ is_set r /\
      Permutation r (a ++ filter (fun z => negb (key_in a z)) b).
  Proof.
    induction a as [|x a IHa]; intros b HP Sa Sb.
    - exists b. rewrite union_walk_nil_l, filter_all by reflexivity. auto.
    - induction b as [|y b IHb].
      + exists (x :: a). rewrite union_walk_nil_r, app_nil_r. auto.
      + rewrite union_walk_cons.
        rewrite (cmp_ab_pure (x :: a) (y :: b) x y HP) by (left; reflexivity). cbn [obind].
        pose proof (set_tl _ _ Sa) as Sa'. pose proof (set_tl _ _ Sb) as Sb'.
        destruct (c (kf x) (kf y)) eqn:Exy.
        * (* equal heads: a's is kept, b's has a key of a; the tail of b is above both *)
          destruct (IHa b) as [r [-> [Sr Pr]]]; [eapply walk_pure_tl_a, walk_pure_tl_b, HP|assumption..|].
          pose proof (eq_hd_lt_tl x y b Exy Sb) as Hb.
          assert (Hy : key_in (x :: a) y = true).
          { apply key_in_iff. exists x. split; [left; reflexivity|apply (ceq_sym K c TP); exact Exy]. }
          eexists; split; [reflexivity|]. split; [exact (set_cons_perm x r a b _ Sr Pr (set_hd_lt x a Sa) Hb)|].
          cbn [filter app]. rewrite Hy, (proj2 (filter_key_in_skip x a b Hb)). cbn [negb].
          constructor. exact Pr.
        * (* x < y: x is below all of b *)
          destruct (IHa (y :: b)) as [r [-> [Sr Pr]]]; [eapply walk_pure_tl_a, HP|assumption..|].
          pose proof (lt_hd_lt_all x y b Exy Sb) as Hb.
          eexists; split; [reflexivity|]. split; [exact (set_cons_perm x r a _ _ Sr Pr (set_hd_lt x a Sa) Hb)|].
          rewrite (proj2 (filter_key_in_skip x a _ Hb)). constructor. exact Pr.
        * (* x > y: y is below all of a, so its key is not one of a *)
          apply (gt_lt K c TP) in Exy.
          destruct IHb as [r [-> [Sr Pr]]]; [eapply walk_pure_tl_b, HP|assumption|].
          pose proof (lt_hd_lt_all y x a Exy Sa) as Ha.
          eexists; split; [reflexivity|]. split; [exact (set_cons_perm y r _ b _ Sr Pr Ha (set_hd_lt y b Sb))|].
          cbn [filter]. rewrite (key_in_below (x :: a) y Ha). cbn [negb].
          apply Permutation_cons_app. exact Pr.
  Qed.

  Lemma std_set_union_walk a b : std_set_union keyf cmp a b = union_walk keyf cmp a b.
  Proof. destruct a, b; reflexivity. Qed.
  Lemma std_set_inter_walk a b : std_set_inter keyf cmp a b = inter_walk keyf cmp a b.
  Proof. destruct a, b; reflexivity. Qed.
  Lemma std_set_diff_walk a b : std_set_diff keyf cmp a b = diff_walk keyf cmp a b.
  Proof. destruct a, b; reflexivity. Qed.

  Theorem union_spec a b : walk_pure a b -> is_set a -> is_set b ->
    exists r, std_set_union keyf cmp a b = Ok r /\ is_set r /\
      (forall z, In z r <-> In z a \/ (In z b /\ forall x, In x a -> ~ keq x z)).
  Proof.
    intros HP Sa Sb. rewrite std_set_union_walk.
    destruct (union_walk_perm a b HP Sa Sb) as [r [Er [Sr Pr]]].
    exists r. split; [exact Er|]. split; [exact Sr|].
    intros z. rewrite Pr, in_app_iff, filter_In, negb_true_iff, key_in_false.
    apply or_iff_compat_l, and_iff_compat_l.
    split; intros Hn x Hx Hk; apply (Hn x Hx), (ceq_sym K c TP), Hk.
  Qed.

  Theorem inter_spec a b : walk_pure a b -> is_set a -> is_set b ->
    exists r, std_set_inter keyf cmp a b = Ok r /\ is_set r /\
      (forall z, In z r <-> In z a /\ exists y, In y b /\ keq z y).
  Proof.
    intros HP Sa Sb. rewrite std_set_inter_walk, (proj1 (inter_diff_walk_filter a b HP Sa Sb)).
    eexists; split; [reflexivity|]. split; [apply StronglySorted_filter; exact Sa|].
    intros z. rewrite filter_In, key_in_iff. reflexivity.
  Qed.

  Theorem diff_spec a b : walk_pure a b -> is_set a -> is_set b ->
    exists r, std_set_diff keyf cmp a b = Ok r /\ is_set r /\
      (forall z, In z r <-> In z a /\ forall y, In y b -> ~ keq z y).
  Proof.
    intros HP Sa Sb. rewrite std_set_diff_walk, (proj2 (inter_diff_walk_filter a b HP Sa Sb)).
    eexists; split; [reflexivity|]. split; [apply StronglySorted_filter; exact Sa|].
    intros z. rewrite filter_In, negb_true_iff, key_in_false. reflexivity.
  Qed.
End Walks.

Section Member.
  Variables (A K E : Type) (keyf : A -> outcome K E) (cmp : K -> K -> outcome comparison E).
  Variables (kf : A -> K) (c : K -> K -> comparison).
  Hypothesis TP : total_preorder c.

  Definition kle (x y : A) : Prop := c (kf x) (kf y) <> Gt.

  Variables (x : A) (arr : list A) (d : A).
  Hypothesis HK : keys_pure A K E keyf kf arr.
  Hypothesis HC : forall y, In y arr -> cmp (kf x) (kf y) = Ok (c (kf x) (kf y)).
  Hypothesis HS : StronglySorted kle arr.

  Definition holds_key (i : nat) : Prop := c (kf x) (kf (nth i arr d)) = Eq.
  Definition member_answer : bool := existsb (fun y => same_key c (kf x) (kf y)) arr.

  Lemma member_answer_iff : member_answer = true <-> exists i, i < length arr /\ holds_key i.
  Proof.
    unfold member_answer, holds_key. rewrite existsb_exists. split.
    - intros [y [Hy Hs]]. destruct (In_nth arr y d Hy) as [i [Hi Ei]]. exists i. split; [exact Hi|].
      rewrite Ei. apply same_key_eq. exact Hs.
    - intros [i [Hi He]]. exists (nth i arr d). split; [apply nth_In; exact Hi|apply same_key_eq; exact He].
  Qed.

  Lemma sorted_nth_le i j : i <= j < length arr -> kle (nth i arr d) (nth j arr d).
  Proof.
    intros H. destruct (Nat.eq_dec i j) as [->|Hne]; [apply (cle_refl K c TP)|].
    apply (StronglySorted_nth kle arr d i j HS). lia.
  Qed.

  (* the invariant of the search: every index that holds the key of x lies in [lo, hi] *)
  Lemma member_slice_spec : forall fuel lo hi,
    lo <= hi -> hi < length arr -> hi - lo < fuel ->
    (forall i, i < length arr -> holds_key i -> lo <= i <= hi) ->
    member_slice keyf cmp fuel (kf x) arr lo hi = Ok member_answer.
  Proof.
    induction fuel as [|f IH]; intros lo hi Hlh Hhn Hf Hin_range; [lia|].
    cbn [member_slice].
    assert (E0 : (hi <? lo) = false) by (apply Nat.ltb_ge; exact Hlh). rewrite E0. cbv zeta.
    set (mid := lo + Nat.div (hi - lo) 2).
    assert (Hmid : lo <= mid <= hi).
    { unfold mid. pose proof (Nat.div_le_upper_bound (hi - lo) 2 (hi - lo)). lia. }
    rewrite (nth_error_nth' arr d) by lia.
    assert (Hin : In (nth mid arr d) arr) by (apply nth_In; lia).
    rewrite (HK _ Hin); cbn [obind]. rewrite (HC _ Hin); cbn [obind].
    (* when the range cannot be narrowed any more, no index is left *)
    assert (Hnone : (forall i, i < length arr -> holds_key i -> False) -> Ok false = Ok member_answer :> outcome bool E).
    { intros H. f_equal. symmetry. apply not_true_iff_false. rewrite member_answer_iff.
      intros [i [Hi He]]. exact (H i Hi He). }
    destruct (c (kf x) (kf (nth mid arr d))) eqn:Ec.
    - f_equal. symmetry. apply member_answer_iff. exists mid. split; [lia|exact Ec].
    - (* x < arr[mid]: nothing at or after mid has the key of x *)
      assert (Habove : forall i, mid <= i -> i < length arr -> holds_key i -> False).
      { intros i Hi Hn He. unfold holds_key in He.
        rewrite (lt_le_trans K c TP _ (kf (nth mid arr d)) (kf (nth i arr d)) Ec) in He; [discriminate|].
        apply sorted_nth_le. lia. }
      destruct (Nat.eqb_spec mid lo) as [Eml|Eml].
      + apply Hnone. intros i Hi He. specialize (Hin_range i Hi He). apply (Habove i); [lia|exact Hi|exact He].
      + apply IH; [lia|lia|lia|]. intros i Hi He. specialize (Hin_range i Hi He).
        destruct (le_lt_dec mid i) as [Hge|Hlt]; [destruct (Habove i Hge Hi He)|lia].
    - (* x > arr[mid]: nothing at or before mid has the key of x *)
      assert (Hbelow : forall i, i <= mid -> holds_key i -> False).
      { intros i Hi He. unfold holds_key in He. apply (ceq_sym K c TP) in He.
        rewrite (le_lt_trans K c TP (kf (nth i arr d)) (kf (nth mid arr d)) (kf x)) in He;
          [discriminate| |apply (gt_lt K c TP); exact Ec].
        apply sorted_nth_le. lia. }
      destruct (Nat.eqb_spec mid hi) as [Emh|Emh].
      + apply Hnone. intros i Hi He. specialize (Hin_range i Hi He). apply (Hbelow i); [lia|exact He].
      + apply IH; [lia|lia|lia|]. intros i Hi He. specialize (Hin_range i Hi He).
        destruct (le_lt_dec i mid) as [Hle|Hgt]; [destruct (Hbelow i Hle He)|lia].
  Qed.

  Hypothesis HKx : keyf x = Ok (kf x).

  Theorem member_spec :
    std_set_member keyf cmp x arr = Ok (existsb (fun y => same_key c (kf x) (kf y)) arr).
  Proof.
    unfold std_set_member. destruct arr as [|a0 rest] eqn:Earr; [reflexivity|]. rewrite <- Earr in *.
    rewrite HKx; cbn [obind].
    assert (Hn : 0 < length arr) by (rewrite Earr; cbn; lia).
    apply member_slice_spec; [lia|lia|lia|]. intros i Hi _. lia.
  Qed.
End Member.

Section Scan.
  Variables (A K E : Type) (keyf : A -> outcome K E) (cmp : K -> K -> outcome comparison E).
  Variables (kf : A -> K) (c g : K -> K -> comparison) (take : comparison -> bool).
  Hypothesis TP : total_preorder c.
  Hypothesis take_gt : forall a b, take (g a b) = is_gt (c a b).
  Variables (arr : list A) (d : A).
  Hypothesis HK : keys_pure A K E keyf kf arr.
  Hypothesis HC : forall a b, In a arr -> In b arr -> cmp (kf a) (kf b) = Ok (g (kf a) (kf b)).

  Definition key (i : nat) : K := kf (nth i arr d).

  (* [best] is the first minimum (for c) of the items before [cur] *)
  Definition scan_inv (best cur : nat) : Prop :=
    best < cur /\ (forall j, j < cur -> c (key best) (key j) <> Gt) /\ (forall j, j < best -> c (key best) (key j) = Lt).

  Lemma scan_loop_spec : forall items pre best,
    arr = pre ++ items -> scan_inv best (length pre) ->
    exists m, scan_loop keyf cmp take best (key best) (length pre) items = Ok m /\ scan_inv m (length arr).
  Proof.
    induction items as [|it more IH]; intros pre best Harr Hinv.
    - exists best. split; [reflexivity|]. rewrite Harr, app_nil_r. exact Hinv.
    - specialize (IH (pre ++ [it])). rewrite <- app_assoc, app_length, Nat.add_1_r in IH.
      specialize (fun b => IH b Harr). remember (length pre) as cur eqn:Ecur.
      assert (Hnth : nth cur arr d = it) by (rewrite Harr, Ecur; apply nth_middle).
      assert (Hit : In it arr) by (rewrite Harr; apply in_elt).
      assert (Hlt : cur < length arr) by (rewrite Harr, app_length, <- Ecur; cbn [length]; lia).
      destruct Hinv as [Hb [Hle Hfirst]].
      cbn [scan_loop].
      assert (Hbest : In (nth best arr d) arr) by (apply nth_In; lia).
      rewrite (HK it Hit); cbn [obind].
      unfold key at 1. rewrite (HC _ _ Hbest Hit); cbn [obind].
      rewrite take_gt.
      assert (Hkc : kf it = key cur) by (unfold key; rewrite Hnth; reflexivity).
      (* unless the current item is strictly below it, the best so far stays *)
      assert (Hkeep : c (kf (nth best arr d)) (kf it) <> Gt -> scan_inv best (S cur)).
      { intros Hne. split; [lia|]. split; [|exact Hfirst].
        intros j Hj. destruct (Nat.eq_dec j cur) as [->|Hn]; [|apply Hle; lia].
        unfold key. rewrite Hnth. exact Hne. }
      destruct (c (kf (nth best arr d)) (kf it)) eqn:Ec; cbn [is_gt].
      + apply IH, Hkeep; discriminate.
      + apply IH, Hkeep; discriminate.
      + rewrite Hkc. apply IH.
        assert (Hcb : c (key cur) (key best) = Lt).
        { apply (gt_lt K c TP). rewrite <- Hkc. exact Ec. }
        split; [lia|]. split.
        * intros j Hj. destruct (Nat.eq_dec j cur) as [->|Hne]; [rewrite (tp_refl c TP); discriminate|].
          rewrite (lt_le_trans K c TP _ (key best) _ Hcb (Hle j ltac:(lia))). discriminate.
        * intros j Hj. apply (lt_le_trans K c TP _ (key best) _ Hcb). apply Hle; lia.
  Qed.

  Lemma scan_inv_start : scan_inv 0 1.
  Proof.
    split; [lia|]. split; [|intros j Hj; lia].
    intros j Hj. replace j with 0 by lia. rewrite (tp_refl c TP). discriminate.
  Qed.

  Theorem scan_array_spec :
    arr <> [] ->
    exists m, scan_array keyf cmp take arr = Ok (Some m) /\ m < length arr /\
      (forall j, j < length arr -> c (key m) (key j) <> Gt) /\ (forall j, j < m -> c (key m) (key j) = Lt).
  Proof.
    intros Hne. destruct arr as [|a0 [|a1 rest]] eqn:Earr; [congruence| |].
    - exists 0. split; [reflexivity|exact scan_inv_start].
    - rewrite <- Earr in *.
      assert (Hs : scan_array keyf cmp take arr =
                   do k0 <- keyf a0; do m <- scan_loop keyf cmp take 0 k0 1 (a1 :: rest); Ok (Some m))
        by (rewrite Earr; reflexivity).
      rewrite Hs.
      assert (H0 : In a0 arr) by (rewrite Earr; left; reflexivity).
      rewrite (HK a0 H0); cbn [obind].
      assert (Hk0 : kf a0 = key 0) by (unfold key; rewrite Earr; reflexivity).
      rewrite Hk0.
      destruct (scan_loop_spec (a1 :: rest) [a0] 0 Earr scan_inv_start) as [m [Em Hinv]].
      cbn [length] in Em. rewrite Em; cbn [obind]. exists m. split; [reflexivity|exact Hinv].
  Qed.
End Scan.

Section MinMax.
  Variables (A K E : Type) (keyf : A -> outcome K E) (cmp : K -> K -> outcome comparison E).
  Variables (kf : A -> K) (c : K -> K -> comparison).
  Hypothesis TP : total_preorder c.
  Variables (arr : list A) (d : A).
  Hypothesis HK : keys_pure A K E keyf kf arr.
  Hypothesis HC : cmp_pure A K E cmp kf c arr.

  Theorem minArray_first_min :
    arr <> [] ->
    exists m, std_min_array_idx keyf cmp arr = Ok (Some m) /\ m < length arr /\
      (forall j, j < length arr -> c (kf (nth m arr d)) (kf (nth j arr d)) <> Gt) /\
      (forall j, j < m -> c (kf (nth m arr d)) (kf (nth j arr d)) = Lt).
  Proof.
    intros Hne. unfold std_min_array_idx.
    exact (scan_array_spec A K E keyf cmp kf c c is_gt TP (fun a b => eq_refl) arr d HK HC Hne).
  Qed.

  Theorem maxArray_first_max :
    arr <> [] ->
    exists m, std_max_array_idx keyf cmp arr = Ok (Some m) /\ m < length arr /\
      (forall j, j < length arr -> c (kf (nth j arr d)) (kf (nth m arr d)) <> Gt) /\
      (forall j, j < m -> c (kf (nth j arr d)) (kf (nth m arr d)) = Lt).
  Proof.
    intros Hne. unfold std_max_array_idx.
    assert (Htake : forall a b, is_lt (c a b) = is_gt (c b a)).
    { intros a b. rewrite (tp_sym c TP a b). destruct (c a b); reflexivity. }
    exact (scan_array_spec A K E keyf cmp kf (fun a b => c b a) c is_lt (total_preorder_flip K c TP) Htake arr d HK HC Hne).
  Qed.

  Theorem min_max_empty :
    std_min_array_idx keyf cmp (@nil A) = Ok None /\ std_max_array_idx keyf cmp (@nil A) = Ok None.
  Proof. split; reflexivity. Qed.
End MinMax.

Section SetSpec.
  Variables (A K E : Type) (keyf : A -> outcome K E) (cmp : K -> K -> outcome comparison E) (eqv : K -> K -> outcome bool E).
  Variables (kf : A -> K) (c : K -> K -> comparison) (e : K -> K -> bool).
  Hypothesis TP : total_preorder c.
  Hypothesis e_is_eq : forall a b, e a b = true <-> c a b = Eq.

  (* Dropping from a key-sorted list every item that is == to the one before it leaves a
     strictly sorted list in which every key of the list still occurs. *)
  Lemma uniq_rest_set items : forall a0,
    StronglySorted (kle A K kf c) (a0 :: items) ->
    let r := a0 :: uniq_rest A K kf e (kf a0) items in
    is_set A K kf c r /\ incl r (a0 :: items) /\
    (forall z, In z (a0 :: items) -> exists y, In y r /\ c (kf y) (kf z) = Eq).
  Proof.
    induction items as [|it more IH]; intros a0 S; cbn [uniq_rest]; cbv zeta.
    - split; [repeat constructor|]. split; [apply incl_refl|].
      intros z [<-|[]]. exists a0. split; [left; reflexivity|apply (tp_refl c TP)].
    - inversion S as [|? ? S' F]; subst. inversion F as [|? ? Hle _]; subst.
      destruct (IH it S') as [Sr [Ir Cr]]. cbv zeta in Sr, Ir, Cr.
      inversion Sr as [|? ? Sr' Fr]; subst.
      destruct (e (kf a0) (kf it)) eqn:Ee.
      + (* a0 == it: it is dropped, a0 stands for it *)
        apply e_is_eq in Ee. split; [|split].
        * constructor; [exact Sr'|]. eapply Forall_impl; [|exact Fr].
          intros y Hy. exact (eq_lt_trans K c TP _ _ _ Ee Hy).
        * intros x [<-|Hx]; [left; reflexivity|right; apply Ir; right; exact Hx].
        * intros z [<-|Hz]; [exists a0; split; [left; reflexivity|apply (tp_refl c TP)]|].
          destruct (Cr z Hz) as [y [[<-|Hy] Hyz]].
          -- exists a0. split; [left; reflexivity|]. rewrite <- (eq_cong_l K c TP _ _ _ Ee). exact Hyz.
          -- exists y. split; [right; exact Hy|exact Hyz].
      + (* a0 below it: both stay *)
        assert (Hlt : klt A K kf c a0 it).
        { unfold klt. unfold kle in Hle. destruct (c (kf a0) (kf it)) eqn:Ec; [|reflexivity|congruence].
          apply e_is_eq in Ec. congruence. }
        split; [|split].
        * constructor; [exact Sr|]. constructor; [exact Hlt|]. eapply Forall_impl; [|exact Fr].
          intros y Hy. exact (lt_trans' K c TP _ _ _ Hlt Hy).
        * intros x [<-|Hx]; [left; reflexivity|right; apply Ir; exact Hx].
        * intros z [<-|Hz]; [exists a0; split; [left; reflexivity|apply (tp_refl c TP)]|].
          destruct (Cr z Hz) as [y [Hy Hyz]]. exists y. split; [right; exact Hy|exact Hyz].
  Qed.

  Theorem set_spec arr :
    keys_pure A K E keyf kf arr -> cmp_pure A K E cmp kf c arr -> eqv_pure A K E eqv kf e arr ->
    exists r, std_set keyf cmp eqv arr = Ok r /\ is_set A K kf c r /\ incl r arr /\
      (forall z, In z arr -> exists y, In y r /\ c (kf y) (kf z) = Eq).
  Proof.
    intros HK HC HE. rewrite set_is_uniq_sort.
    destruct (std_sort_correct A K E keyf cmp kf c TP arr HK HC) as [s [Es [Ps [Ss _]]]].
    rewrite Es; cbn [obind].
    assert (Is : incl s arr) by (intros z Hz; eapply Permutation_in; eassumption).
    assert (HKs : keys_pure A K E keyf kf s) by (intros a Ha; apply HK; apply Is; exact Ha).
    assert (HEs : eqv_pure A K E eqv kf e s) by (intros a b Ha Hb; apply HE; apply Is; assumption).
    rewrite (std_uniq_pure A K E keyf eqv kf e s HKs HEs). eexists; split; [reflexivity|].
    apply Permutation_sym in Ps. destruct s as [|a0 items]; cbn [uniq_of].
    - split; [constructor|]. split; [intros z []|]. intros z Hz. destruct (Permutation_in _ Ps Hz).
    - destruct (uniq_rest_set items a0 Ss) as [Sr [Ir Cr]]. split; [exact Sr|].
      split; [intros z Hz; apply Is, Ir, Hz|]. intros z Hz. apply Cr, (Permutation_in _ Ps Hz).
  Qed.
End SetSpec.

(* none of the set functions can Panic or run out of fuel: they answer Ok or Err
   whenever keyF, the comparison and == do *)

Section NoPanicSetOps.
  Variables (A K E : Type) (keyf : A -> outcome K E) (cmp : K -> K -> outcome comparison E) (eqv : K -> K -> outcome bool E).
  Hypothesis keyf_clean : forall a, clean (keyf a).
  Hypothesis cmp_clean' : forall a b, clean (cmp a b).
  Hypothesis eqv_clean : forall a b, clean (eqv a b).

  Lemma uniq_loop_clean items : forall k, clean (uniq_loop keyf eqv k items).
  Proof.
    induction items as [|it more IH]; intros k; cbn [uniq_loop]; [exact I|].
    apply clean_obind; [apply keyf_clean|]. intros k' _.
    apply clean_obind; [apply eqv_clean|]. intros e' _.
    apply clean_obind; [apply IH|]. intros; exact I.
  Qed.

  Theorem std_uniq_clean arr : clean (std_uniq keyf eqv arr).
  Proof.
    destruct arr as [|a0 [|a1 rest]]; cbn [std_uniq]; try exact I.
    apply clean_obind; [apply keyf_clean|]. intros k _.
    apply clean_obind; [apply uniq_loop_clean|]. intros; exact I.
  Qed.

  Theorem std_set_clean arr : clean (std_set keyf cmp eqv arr).
  Proof.
    rewrite set_is_uniq_sort. apply clean_obind.
    - apply std_sort_clean; intros; [apply keyf_clean|apply cmp_clean'].
    - intros s _. apply std_uniq_clean.
  Qed.

  Lemma cmp_ab_clean x y : clean (cmp_ab keyf cmp x y).
  Proof.
    unfold cmp_ab. apply clean_obind; [apply keyf_clean|]. intros kx _.
    apply clean_obind; [apply keyf_clean|]. intros ky _. apply cmp_clean'.
  Qed.

  Lemma walks_clean : forall a b,
    clean (union_walk keyf cmp a b) /\ clean (inter_walk keyf cmp a b) /\ clean (diff_walk keyf cmp a b).
  Proof.
    induction a as [|x a IHa]; intros b.
    { rewrite union_walk_nil_l, inter_walk_nil_l, diff_walk_nil_l. repeat split. }
    induction b as [|y b IHb].
    { rewrite union_walk_nil_r, inter_walk_nil_r, diff_walk_nil_r. repeat split. }
    rewrite union_walk_cons, inter_walk_cons, diff_walk_cons.
    destruct (IHa b) as [Ue [Ie De]], (IHa (y :: b)) as [Ul [Il Dl]], IHb as [Ug [Ig Dg]].
    assert (Hemit : forall (o : outcome (list A) E) h, clean o -> clean (do r <- o; Ok (h :: r))).
    { intros o h Ho. apply clean_obind; [exact Ho|intros; exact I]. }
    split; [|split]; (apply clean_obind; [apply cmp_ab_clean|]); intros cc _; destruct cc; auto.
  Qed.

  Lemma member_slice_clean kx arr : forall fuel lo hi,
    lo <= hi -> hi < length arr -> hi - lo < fuel -> clean (member_slice keyf cmp fuel kx arr lo hi).
  Proof.
    induction fuel as [|f IH]; intros lo hi Hlh Hhn Hf; [lia|].
    cbn [member_slice].
    assert (E0 : (hi <? lo) = false) by (apply Nat.ltb_ge; exact Hlh). rewrite E0. cbv zeta.
    set (mid := lo + Nat.div (hi - lo) 2).
    assert (Hmid : lo <= mid <= hi).
    { unfold mid. pose proof (Nat.div_le_upper_bound (hi - lo) 2 (hi - lo)). lia. }
    destruct (nth_error arr mid) eqn:En; [|apply nth_error_None in En; lia].
    apply clean_obind; [apply keyf_clean|]. intros km _.
    apply clean_obind; [apply cmp_clean'|]. intros cc _.
    destruct cc; [exact I| |].
    - destruct (mid =? lo) eqn:Em; [exact I|]. apply Nat.eqb_neq in Em. apply IH; lia.
    - destruct (mid =? hi) eqn:Em; [exact I|]. apply Nat.eqb_neq in Em. apply IH; lia.
  Qed.

  Theorem std_set_member_clean x arr : clean (std_set_member keyf cmp x arr).
  Proof.
    unfold std_set_member. destruct arr as [|a0 rest] eqn:Earr; [exact I|]. rewrite <- Earr.
    assert (0 < length arr) by (rewrite Earr; cbn; lia).
    apply clean_obind; [apply keyf_clean|]. intros kx _. apply member_slice_clean; lia.
  Qed.

  Lemma scan_loop_clean take items : forall best kbest cur, clean (scan_loop keyf cmp take best kbest cur items).
  Proof.
    induction items as [|it more IH]; intros best kbest cur; cbn [scan_loop]; [exact I|].
    apply clean_obind; [apply keyf_clean|]. intros k _.
    apply clean_obind; [apply cmp_clean'|]. intros cc _. destruct (take cc); apply IH.
  Qed.

  Theorem scan_array_clean take arr : clean (scan_array keyf cmp take arr).
  Proof.
    destruct arr as [|a0 [|a1 rest]]; cbn [scan_array]; try exact I.
    apply clean_obind; [apply keyf_clean|]. intros k _.
    apply clean_obind; [apply scan_loop_clean|]. intros; exact I.
  Qed.

  Theorem set_functions_clean :
    (forall arr, clean (std_uniq keyf eqv arr)) /\ (forall arr, clean (std_set keyf cmp eqv arr)) /\
    (forall a b, clean (std_set_union keyf cmp a b)) /\ (forall a b, clean (std_set_inter keyf cmp a b)) /\
    (forall a b, clean (std_set_diff keyf cmp a b)) /\ (forall x arr, clean (std_set_member keyf cmp x arr)) /\
    (forall arr, clean (std_min_array_idx keyf cmp arr)) /\ (forall arr, clean (std_max_array_idx keyf cmp arr)).
  Proof.
    split; [exact std_uniq_clean|]. split; [exact std_set_clean|].
    split; [intros; rewrite std_set_union_walk; apply walks_clean|].
    split; [intros; rewrite std_set_inter_walk; apply walks_clean|].
    split; [intros; rewrite std_set_diff_walk; apply walks_clean|].
    split; [exact std_set_member_clean|].
    split; intros; apply scan_array_clean.
  Qed.
End NoPanicSetOps.

(* the wire instance on number keys: the hypotheses of the theorems above are met
   (used by the non-vacuity examples of Props/C17.v) *)

Definition numkey (r : N) : wkey := (2%N, r, 0%N).
Definition num_c (a b : wkey) : comparison := N.compare (snd (fst a)) (snd (fst b)).
Definition num_e (a b : wkey) : bool := N.eqb (snd (fst a)) (snd (fst b)).
Definition num_kf (ranks : list N) (i : nat) : wkey := numkey (nth i ranks 0%N).
Definition num_script (ranks : list N) : list (outcome wkey werr) := map (fun r => Ok (numkey r)) ranks.

Lemma num_c_total_preorder : total_preorder num_c.
Proof.
  constructor; unfold num_c; intros.
  - apply N.compare_refl.
  - apply N.compare_antisym.
  - rewrite N.compare_le_iff in *. eapply N.le_trans; eassumption.
Qed.

Lemma wcmp_numkey r1 r2 : wcmp (numkey r1) (numkey r2) = Ok (num_c (numkey r1) (numkey r2)).
Proof. unfold wcmp, numkey, num_c. cbn. destruct (N.compare r1 r2); reflexivity. Qed.

Lemma weqv_numkey r1 r2 : weqv (numkey r1) (numkey r2) = Ok (num_e (numkey r1) (numkey r2)).
Proof. unfold weqv, numkey, num_e. cbn. destruct (N.eqb r1 r2); reflexivity. Qed.

Lemma num_keys_pure ranks l :
  (forall i, In i l -> i < length ranks) ->
  keys_pure nat wkey werr (wkeyf (num_script ranks)) (num_kf ranks) l.
Proof.
  intros H i Hi. unfold wkeyf, num_script, num_kf.
  rewrite (nth_error_nth' _ (Ok (numkey 0%N))) by (rewrite map_length; apply H; exact Hi).
  rewrite (map_nth (fun r => Ok (numkey r)) ranks 0%N). reflexivity.
Qed.

Lemma num_cmp_pure ranks l : cmp_pure nat wkey werr wcmp (num_kf ranks) num_c l.
Proof. intros a b _ _. apply wcmp_numkey. Qed.

Lemma num_eqv_pure ranks l : eqv_pure nat wkey werr weqv (num_kf ranks) num_e l.
Proof. intros a b _ _. apply weqv_numkey. Qed.

Lemma num_e_is_eq a b : num_e a b = true <-> num_c a b = Eq.
Proof. unfold num_e, num_c. rewrite N.eqb_eq, N.compare_eq_iff. reflexivity. Qed.

Lemma num_e_sym a b : num_e a b = num_e b a.
Proof. unfold num_e. apply N.eqb_sym. Qed.

Lemma num_e_trans a b c' : num_e a b = true -> num_e b c' = true -> num_e a c' = true.
Proof. unfold num_e. rewrite !N.eqb_eq. congruence. Qed.

(* the function the correspondence check runs, on every script of number keys: the
   stable sorted permutation *)
Theorem run_sort_numkeys_spec (ranks : list N) :
  exists p, run_sort (num_script ranks) = Ok p /\
    Permutation p (seq 0 (length ranks)) /\
    StronglySorted (fun i j => (nth i ranks 0 <= nth j ranks 0)%N) p /\
    (forall r, filter (fun i => N.eqb r (nth i ranks 0%N)) p =
               filter (fun i => N.eqb r (nth i ranks 0%N)) (seq 0 (length ranks))).
Proof.
  unfold run_sort, num_script. rewrite map_length. fold (num_script ranks).
  destruct (std_sort_correct nat wkey werr (wkeyf (num_script ranks)) wcmp (num_kf ranks) num_c
              num_c_total_preorder (seq 0 (length ranks))) as [p [Ep [Pp [Sp Tp]]]].
  - apply num_keys_pure. intros i Hi. apply in_seq in Hi. exact (proj2 Hi).
  - apply num_cmp_pure.
  - exists p. split; [exact Ep|]. split; [exact Pp|]. split.
    + eapply StronglySorted_impl; [|exact Sp]. intros i j H. unfold num_c, num_kf, numkey in H. cbn in H.
      apply N.compare_le_iff. exact H.
    + intros r. specialize (Tp (numkey r)).
      assert (Hf : forall i, same_key num_c (numkey r) (num_kf ranks i) = N.eqb r (nth i ranks 0%N)).
      { intros i. symmetry. apply N.eqb_compare. }
      rewrite !(filter_ext _ _ Hf) in Tp. exact Tp.
Qed.
