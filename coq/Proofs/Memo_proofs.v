(* Every step of the thunk machine (Model/Memo.v) moves each cell at most one arrow along
   absent -> Pending -> InProgress -> Done ([cell_move]); that Done is final and that a thunk
   runs once are read off this diagram. *)
From RJ Require Import Base.Outcome Model.Memo.
From Coq Require Import Lia.

Section MemoProofs.
Variable V : Type.
Notation cell := (cell V).
Notation mstate := (mstate V).
Notation event := (event V).

Lemma nth_set_cell : forall (cs : list cell) j c x id,
  nth_error cs j = Some x ->
  nth_error (set_cell V cs j c) id = if Nat.eqb id j then Some c else nth_error cs id.
Proof.
  induction cs as [|y cs IH]; intros [|j] c x [|id] H; simpl in *; try discriminate; eauto.
Qed.

Lemma length_set_cell : forall (cs : list cell) id c, length (set_cell V cs id c) = length cs.
Proof. induction cs; intros [|id] c; simpl; auto. Qed.

Lemma nth_error_snoc : forall (cs : list cell) c id,
  nth_error (cs ++ [c]) id = nth_error cs id \/
  (nth_error cs id = None /\ nth_error (cs ++ [c]) id = Some c).
Proof.
  induction cs as [|y cs IH]; intros c [|id]; simpl; auto.
  destruct id; auto.
Qed.

Lemma exec_cons : forall m e es,
  exec V m (e :: es) =
  (fst (exec V (fst (step V m e)) es), snd (step V m e) :: snd (exec V (fst (step V m e)) es)).
Proof.
  intros. simpl. destruct (step V m e) as [m1 o]. simpl. destruct (exec V m1 es) as [m2 os]. reflexivity.
Qed.

Lemma count_run_cons : forall id o os,
  count_run V id (o :: os) = (if is_run V id o then 1 else 0) + count_run V id os.
Proof. intros. unfold count_run. simpl. destruct (is_run V id o); reflexivity. Qed.

Definition cell_at (m : mstate) (id : nat) : option cell := nth_error (cells V m) id.

(* Pending -> InProgress is switch_state, InProgress -> Done is set_done; the flag marks the
   one move that starts the payload. *)
Inductive cell_move : option cell -> bool -> option cell -> Prop :=
| mv_same o : cell_move o false o
| mv_alloc c : cell_move None false (Some c)
| mv_run : cell_move (Some Pending) true (Some InProgress)
| mv_done v : cell_move (Some InProgress) false (Some (Done v)).

Lemma step_cell : forall m e id,
  cell_move (cell_at m id) (is_run V id (snd (step V m e))) (cell_at (fst (step V m e)) id).
Proof.
  intros m e id. unfold step, cell_at.
  destruct (halted V m); [constructor|].
  destruct e as [c|j|v|]; simpl.
  - assert (A : cell_move (nth_error (cells V m) id) false (nth_error (cells V m ++ [c]) id)).
    { destruct (nth_error_snoc (cells V m) c id) as [->|[-> ->]]; constructor. }
    destruct c; simpl; [exact A|constructor|exact A].
  - destruct (nth_error (cells V m) j) as [[| |w]|] eqn:E; simpl; try constructor.
    rewrite (nth_set_cell _ _ _ _ id E).
    destruct (Nat.eqb_spec id j) as [->|_]; [rewrite E|]; constructor.
  - destruct (running V m) as [|j rest]; simpl; [constructor|].
    destruct (nth_error (cells V m) j) as [[| |w]|] eqn:E; simpl; try constructor.
    rewrite (nth_set_cell _ _ _ _ id E).
    destruct (Nat.eqb_spec id j) as [->|_]; [rewrite E|]; constructor.
  - constructor.
Qed.

Theorem done_is_stable : forall es m id v,
  cell_at m id = Some (Done v) ->
  cell_at (fst (exec V m es)) id = Some (Done v).
Proof.
  induction es as [|e es IH]; intros m id v H; [exact H|].
  rewrite exec_cons. apply IH.
  (* mv_same is the only move out of Done *)
  pose proof (step_cell m e id) as C. rewrite H in C. inversion C. congruence.
Qed.

Theorem done_answers_without_run : forall m id v,
  halted V m = false -> cell_at m id = Some (Done v) ->
  step V m (EvForce id) = (m, OHit id v).
Proof.
  intros m id v Hh H. unfold step, cell_at in *. rewrite Hh, H. reflexivity.
Qed.

Definition started (o : option cell) : nat :=
  match o with
  | Some InProgress | Some (Done _) => 1
  | _ => 0
  end.

Lemma started_le_1 : forall o, started o <= 1.
Proof. intros [[| |w]|]; simpl; lia. Qed.

Lemma started_eq_1 : forall o,
  o = Some InProgress \/ (exists v, o = Some (Done v)) -> started o = 1.
Proof. intros o [->|[v ->]]; reflexivity. Qed.

(* a Run of id takes its cell from not started to started, and no move takes it back *)
Lemma step_started : forall m e id,
  (if is_run V id (snd (step V m e)) then 1 else 0) + started (cell_at m id)
  <= started (cell_at (fst (step V m e)) id).
Proof. intros m e id. destruct (step_cell m e id); simpl; lia. Qed.

(* so the Runs of id in a trace are bounded by the rise of [started], which is at most 1 *)
Lemma exec_started : forall es m id,
  count_run V id (snd (exec V m es)) + started (cell_at m id)
  <= started (cell_at (fst (exec V m es)) id).
Proof.
  induction es as [|e es IH]; intros m id; [apply Nat.le_refl|].
  rewrite exec_cons. cbn [fst snd]. rewrite count_run_cons.
  pose proof (step_started m e id). pose proof (IH (fst (step V m e)) id). lia.
Qed.

Theorem run_once : forall (m : mstate) (es : list event) (id : nat),
  count_run V id (snd (exec V m es)) <= 1.
Proof.
  intros m es id. pose proof (exec_started es m id).
  pose proof (started_le_1 (cell_at (fst (exec V m es)) id)). lia.
Qed.

Theorem started_never_reruns : forall (m : mstate) es id,
  cell_at m id = Some InProgress \/ (exists v, cell_at m id = Some (Done v)) ->
  count_run V id (snd (exec V m es)) = 0.
Proof.
  intros m es id H. pose proof (exec_started es m id) as R. rewrite (started_eq_1 _ H) in R.
  pose proof (started_le_1 (cell_at (fst (exec V m es)) id)). lia.
Qed.

Lemma never_back_to_pending : forall es m id,
  cell_at m id = Some InProgress \/ (exists v, cell_at m id = Some (Done v)) ->
  cell_at (fst (exec V m es)) id <> Some Pending /\ cell_at (fst (exec V m es)) id <> None.
Proof.
  intros es m id H. pose proof (exec_started es m id) as R. rewrite (started_eq_1 _ H) in R.
  split; intros E; rewrite E in R; simpl in R; lia.
Qed.

(* while a run is live, the GotThunk stack is exactly the set of InProgress cells *)
Definition inv (m : mstate) : Prop :=
  halted V m = false ->
  NoDup (running V m) /\
  forall id, In id (running V m) <-> cell_at m id = Some InProgress.

Lemma inv_init : inv (@init V).
Proof.
  intros _. split; [constructor|]. intros id. unfold cell_at. simpl. split; [tauto|].
  destruct id; discriminate.
Qed.

Lemma step_inv : forall m e, inv m -> inv (fst (step V m e)) /\ snd (step V m e) <> OPanic.
Proof.
  intros m e I. unfold step.
  destruct (halted V m) eqn:Hh; [split; [exact I|discriminate]|].
  destruct (I Hh) as [ND IP]. unfold cell_at in IP.
  destruct e as [c|j|w|]; simpl.
  - (* the new cell is not InProgress, and its id was not on the stack *)
    assert (A : c <> InProgress -> inv (MkM V (cells V m ++ [c]) (running V m) false)).
    { intros Hc _. split; [exact ND|]. intros id. unfold cell_at. simpl. rewrite IP.
      destruct (nth_error_snoc (cells V m) c id) as [->|[-> ->]]; [tauto|].
      split; [discriminate|congruence]. }
    destruct c; simpl; (split; [|discriminate]); [apply A; discriminate|exact I|apply A; discriminate].
  - (* a Pending cell becomes InProgress as its id is pushed *)
    destruct (nth_error (cells V m) j) as [[| |u]|] eqn:E; simpl; (split; [|discriminate]);
      [|intros H; discriminate H|exact I|exact I].
    intros _. split.
    + constructor; [|exact ND]. rewrite IP, E. discriminate.
    + intros id. unfold cell_at. simpl. rewrite (nth_set_cell _ _ _ _ id E).
      destruct (Nat.eqb_spec id j) as [->|Hne]; [split; auto|].
      rewrite <- IP. intuition congruence.
  - (* the id on top of the stack is InProgress by the invariant, so the assert holds;
       it is popped as its cell becomes Done *)
    destruct (running V m) as [|j rest] eqn:R; simpl; [split; [exact I|discriminate]|].
    assert (Hj : nth_error (cells V m) j = Some InProgress) by (apply IP; left; reflexivity).
    rewrite Hj. simpl. split; [|discriminate]. intros _.
    inversion ND as [|? ? Hnin ND']; subst. split; [exact ND'|].
    intros id. unfold cell_at. simpl. rewrite (nth_set_cell _ _ _ _ id Hj).
    destruct (Nat.eqb_spec id j) as [->|Hne]; [split; [contradiction|discriminate]|].
    rewrite <- IP. simpl. intuition congruence.
  - split; discriminate.
Qed.

Theorem set_done_assert_never_fires : forall es m,
  inv m -> ~ In OPanic (snd (exec V m es)).
Proof.
  induction es as [|e es IH]; intros m I; [simpl; tauto|].
  rewrite exec_cons. simpl. destruct (step_inv m e I) as [I' Hn].
  intros [H|H]; [exact (Hn H)|exact (IH _ I' H)].
Qed.

Theorem inprogress_reentry_fails : forall m id,
  halted V m = false -> cell_at m id = Some InProgress ->
  snd (step V m (EvForce id)) = OCycle id /\ halted V (fst (step V m (EvForce id))) = true.
Proof.
  intros m id Hh H. unfold step, cell_at in *. rewrite Hh, H. simpl. auto.
Qed.

(* as the code is written: an evaluation error does not reset the cells that were
   being evaluated; a later request on the same program finds them InProgress *)
Theorem error_leaves_inprogress : forall m id,
  halted V m = false -> cell_at m id = Some InProgress ->
  cell_at (restart V (fst (step V m EvError))) id = Some InProgress.
Proof.
  intros m id Hh H. unfold step, restart, cell_at in *. rewrite Hh. simpl. exact H.
Qed.

Theorem hit_returns_stored : forall m id v,
  snd (step V m (EvForce id)) = OHit id v -> cell_at m id = Some (Done v).
Proof.
  intros m id v. unfold step, cell_at. destruct (halted V m); simpl; [discriminate|].
  destruct (nth_error (cells V m) id) as [[| |u]|]; simpl; try discriminate.
  intros H. inversion H. reflexivity.
Qed.

End MemoProofs.

(* thunk 0 = `local a = <thunk 1> + <thunk 1>`: forcing 0 runs 1 once, the second use hits *)
Example memo_trace :
  snd (exec nat init [EvAlloc Pending; EvAlloc Pending;
                      EvForce 0; EvForce 1; EvReturn 21; EvForce 1; EvReturn 42; EvForce 0; EvForce 1])
  = [OAlloc 0; OAlloc 1; ORun 0; ORun 1; OStored 1 21; OHit 1 21; OStored 0 42; OHit 0 42; OHit 1 21].
Proof. reflexivity. Qed.

(* `local x = x; x` *)
Example memo_cycle :
  snd (exec nat init [EvAlloc Pending; EvForce 0; EvForce 0; EvReturn 1])
  = [OAlloc 0; ORun 0; OCycle 0; OIgnored].
Proof. reflexivity. Qed.
