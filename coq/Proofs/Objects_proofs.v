(* Proofs/Objects_proofs.v — lemmas about Model/Objects.v.

   Plan: every lookup function of the model (find_field, has_visible_field,
   get_fields_order) is shown equal to a function of one structural object, the
   *effective chain* of a name: the Normal fields of that name met when walking
   the layers from a start layer downwards and jumping over [depth] layers after
   each Removed marker.  The algebraic laws (extension, removal) are then laws of
   effective chains. *)
From RJ Require Import Base.Outcome Model.Objects.
From RJ Require Proofs.Utf8Order_proofs.
From Coq Require Import Lia Sorted.
Local Open Scope N_scope.

(* [name_compare] is [lex_compare] of Model/Utf8Order.v written out again: the two are convertible *)
Lemma name_compare_eq : forall a b, name_compare a b = Eq <-> a = b.
Proof. exact Utf8Order_proofs.lex_eq_iff. Qed.

Lemma name_compare_refl : forall a, name_compare a a = Eq.
Proof. exact Utf8Order_proofs.lex_refl. Qed.

Lemma name_compare_antisym : forall a b, name_compare b a = CompOpp (name_compare a b).
Proof. exact Utf8Order_proofs.lex_opp. Qed.

Definition name_lt (a b : name) : Prop := name_compare a b = Lt.

Lemma name_lt_trans : forall a b c, name_lt a b -> name_lt b c -> name_lt a c.
Proof. exact Utf8Order_proofs.lex_trans_lt. Qed.

Lemma name_lt_irrefl : forall a, ~ name_lt a a.
Proof. unfold name_lt. intros a H. rewrite name_compare_refl in H. discriminate. Qed.

Lemma name_eqb_eq : forall a b, name_eqb a b = true <-> a = b.
Proof.
  intros a b. unfold name_eqb. rewrite <- name_compare_eq.
  destruct (name_compare a b); split; intros H; auto; discriminate.
Qed.

Lemma name_eqb_refl : forall a, name_eqb a a = true.
Proof. intros a. apply name_eqb_eq. reflexivity. Qed.

Lemma name_eqb_neq : forall a b, name_eqb a b = false <-> a <> b.
Proof.
  intros a b. rewrite <- name_eqb_eq. destruct (name_eqb a b); split; congruence.
Qed.

Definition wf_layer (l : layer) : Prop := NoDup (map fst l).
Definition wf_obj (o : obj) : Prop := Forall wf_layer (layers o).

Lemma layer_get_none : forall l n, ~ In n (map fst l) -> layer_get l n = None.
Proof.
  induction l as [|[k f] r IH]; cbn; intros n H; auto.
  destruct (name_eqb k n) eqn:E.
  - apply name_eqb_eq in E. subst. exfalso. apply H. left. reflexivity.
  - apply IH. intros HI. apply H. right. exact HI.
Qed.

Lemma layer_get_in : forall l n f, layer_get l n = Some f -> In (n, f) l.
Proof.
  induction l as [|[k g] r IH]; cbn; intros n f H; try discriminate.
  destruct (name_eqb k n) eqn:E.
  - apply name_eqb_eq in E. injection H as ->. subst. left. reflexivity.
  - right. apply IH. exact H.
Qed.

Lemma layers_extend : forall a b, layers (extend a b) = layers b ++ layers a.
Proof. intros a b. unfold layers, extend. cbn. reflexivity. Qed.

Lemma layers_length : forall o, length (layers o) = S (length (super_layers o)).
Proof. reflexivity. Qed.

Definition lit (l : layer) : obj := {| self_layer := l; super_layers := []; asserts := [[]] |}.

Definition marker (o : obj) (n : name) : layer := [(n, Removed (N.of_nat (length (layers o))))].

Lemma layers_remove_key : forall o n, layers (remove_key o n) = marker o n :: layers o.
Proof.
  intros o n. unfold layers, remove_key, marker. cbn [self_layer super_layers].
  replace (N.of_nat (length (super_layers o)) + 1) with (N.of_nat (length (self_layer o :: super_layers o)))
    by (cbn [length]; lia).
  reflexivity.
Qed.

Lemma extend_assoc : forall a b c, extend (extend a b) c = extend a (extend b c).
Proof.
  intros a b c. unfold extend; cbn [self_layer super_layers asserts]. f_equal.
  - repeat rewrite <- app_assoc. reflexivity.
  - rewrite app_assoc. reflexivity.
Qed.

Lemma wf_extend : forall a b, wf_obj a -> wf_obj b -> wf_obj (extend a b).
Proof.
  unfold wf_obj. intros a b Ha Hb. rewrite layers_extend. apply Forall_app. split; assumption.
Qed.

Lemma wf_remove_key : forall o n, wf_obj o -> wf_obj (remove_key o n).
Proof.
  unfold wf_obj. intros o n H. rewrite layers_remove_key. constructor; auto.
  unfold wf_layer, marker. cbn. constructor; [intros [] | constructor].
Qed.

Lemma wf_lit : forall l, wf_layer l -> wf_obj (lit l).
Proof. intros l H. unfold wf_obj, layers, lit. cbn. constructor; [exact H | constructor]. Qed.

Lemma wf_empty : wf_obj empty_obj.
Proof. unfold wf_obj, layers, empty_obj. cbn. constructor; [constructor | constructor]. Qed.

(* the Normal fields of [n] met from the head of [ls] (whose index is [idx]) downwards,
   the first [skip] layers being hidden by a Removed marker above *)
Fixpoint eff_chain (ls : list layer) (idx skip : N) (n : name) : list (N * fdata) :=
  match ls with
  | [] => []
  | l :: r =>
      if skip =? 0 then
        match layer_get l n with
        | Some (Normal d) => (idx, d) :: eff_chain r (idx + 1) 0 n
        | Some (Removed depth) => eff_chain r (idx + 1) depth n
        | None => eff_chain r (idx + 1) 0 n
        end
      else eff_chain r (idx + 1) (skip - 1) n
  end.

Definition chain (o : obj) (n : name) : list (N * fdata) := eff_chain (layers o) 0 0 n.

Definition shift (k : N) (p : N * fdata) : N * fdata := (fst p + k, snd p).

Lemma skipn_skipn' : forall A (l : list A) x y, skipn x (skipn y l) = skipn (y + x) l.
Proof.
  intros A l x y. revert l. induction y as [|y IH]; intros l; cbn [skipn plus]; auto.
  destruct l; [rewrite skipn_nil; reflexivity | apply IH].
Qed.

Lemma nth_error_skipn' : forall A (l : list A) k i, nth_error (skipn k l) i = nth_error l (k + i).
Proof.
  intros A l k. revert l. induction k as [|k IH]; intros l i; cbn [skipn plus]; auto.
  destruct l; [destruct i; reflexivity | apply IH].
Qed.

Lemma eff_chain_skip : forall ls idx skip n,
  eff_chain ls idx skip n = eff_chain (skipn (N.to_nat skip) ls) (idx + skip) 0 n.
Proof.
  induction ls as [|l r IH]; intros idx skip n.
  - rewrite skipn_nil. reflexivity.
  - destruct (N.eq_dec skip 0) as [->|Hs].
    + cbn [N.to_nat skipn]. rewrite N.add_0_r. reflexivity.
    + cbn [eff_chain]. apply N.eqb_neq in Hs as Hb. rewrite Hb.
      replace (N.to_nat skip) with (S (N.to_nat (skip - 1))) by lia. cbn [skipn]. rewrite IH. f_equal. lia.
Qed.

Lemma eff_chain_shift : forall ls idx skip k n,
  eff_chain ls (idx + k) skip n = map (shift k) (eff_chain ls idx skip n).
Proof.
  induction ls as [|l r IH]; intros idx skip k n; cbn [eff_chain map]; auto.
  replace (idx + k + 1) with (idx + 1 + k) by lia.
  destruct (skip =? 0); [|apply IH].
  destruct (layer_get l n) as [[d|depth]|]; cbn [map]; try apply IH.
  f_equal. apply IH.
Qed.

Lemma eff_chain_sound : forall ls idx skip n j d,
  In (j, d) (eff_chain ls idx skip n) ->
  exists l, nth_error ls (N.to_nat (j - idx)) = Some l /\ layer_get l n = Some (Normal d) /\ idx <= j.
Proof.
  induction ls as [|l r IH]; intros idx skip n j d H; cbn [eff_chain] in H; [contradiction|].
  assert (C : (j = idx /\ layer_get l n = Some (Normal d)) \/ exists s, In (j, d) (eff_chain r (idx + 1) s n)).
  { destruct (skip =? 0); [|eauto]. destruct (layer_get l n) as [[d0|depth]|]; [|eauto|eauto].
    destruct H as [E|H]; [injection E as <- <-|]; eauto. }
  destruct C as [[-> G]|[s H']].
  - exists l. rewrite N.sub_diag. repeat split; [exact G | lia].
  - apply IH in H'. destruct H' as (l0 & Hn & Hg & Hle). exists l0. repeat split; auto; try lia.
    replace (N.to_nat (j - idx)) with (S (N.to_nat (j - (idx + 1)))) by lia. exact Hn.
Qed.

Lemma eff_chain_index_ge : forall ls idx skip n p, In p (eff_chain ls idx skip n) -> idx <= fst p.
Proof.
  intros ls idx skip n [j d] H. apply eff_chain_sound in H. destruct H as (_ & _ & _ & H). exact H.
Qed.

Lemma eff_chain_app_closed : forall ls idx skip n,
  eff_chain (ls ++ [[]]) idx skip n = eff_chain ls idx skip n.
Proof.
  induction ls as [|l r IH]; intros idx skip n; cbn [app eff_chain].
  - cbn. destruct (skip =? 0); reflexivity.
  - destruct (skip =? 0); [|apply IH].
    destruct (layer_get l n) as [[d|depth]|]; try apply IH. f_equal. apply IH.
Qed.

Lemma eff_chain_skip_prefix : forall ls1 ls2 idx n,
  eff_chain (ls1 ++ ls2) idx (N.of_nat (length ls1)) n = eff_chain ls2 (idx + N.of_nat (length ls1)) 0 n.
Proof.
  intros ls1 ls2 idx n. rewrite eff_chain_skip. rewrite Nat2N.id.
  rewrite skipn_app, skipn_all, Nat.sub_diag. cbn [app skipn]. reflexivity.
Qed.

Lemma nthN_spec : forall A (l : list A) i,
  nthN l i = nth_error l (N.to_nat i).
Proof.
  intros A l i. unfold nthN. destruct (N.of_nat (length l) <=? i) eqn:E; auto.
  apply N.leb_le in E. symmetry. apply nth_error_None. lia.
Qed.

Lemma skipn_nth_error_cons : forall A (l : list A) k x,
  nth_error l k = Some x -> skipn k l = x :: skipn (S k) l.
Proof.
  induction l as [|y r IH]; intros k x H; destruct k; cbn in *; try discriminate.
  - injection H as ->. reflexivity.
  - apply IH. exact H.
Qed.

(* the chain of [n] seen from layer [i]; it obeys the recursion of the lookup loops *)
Definition chain_from (ls : list layer) (i : N) (n : name) : list (N * fdata) :=
  eff_chain (skipn (N.to_nat i) ls) i 0 n.

Lemma chain_from_step : forall ls i n,
  chain_from ls i n =
  match nth_error ls (N.to_nat i) with
  | None => []
  | Some l =>
      match layer_get l n with
      | Some (Normal d) => (i, d) :: chain_from ls (i + 1) n
      | Some (Removed depth) => chain_from ls (i + depth + 1) n
      | None => chain_from ls (i + 1) n
      end
  end.
Proof.
  intros ls i n. unfold chain_from. destruct (nth_error ls (N.to_nat i)) as [l|] eqn:Hn.
  - rewrite (skipn_nth_error_cons _ _ _ _ Hn). cbn [eff_chain N.eqb].
    replace (N.to_nat (i + 1)) with (S (N.to_nat i)) by lia.
    destruct (layer_get l n) as [[d|depth]|]; try reflexivity.
    rewrite eff_chain_skip, skipn_skipn'. f_equal; [f_equal|]; lia.
  - apply nth_error_None in Hn. rewrite skipn_all2 by lia. reflexivity.
Qed.

(* the loops index [supers] by [layer_i - 1]: [l0] stands for the self layer *)
Lemma nthN_supers : forall (l0 : layer) supers i, 1 <= i ->
  nthN supers (i - 1) = nth_error (l0 :: supers) (N.to_nat i).
Proof.
  intros l0 supers i Hi. rewrite nthN_spec.
  replace (N.to_nat i) with (S (N.to_nat (i - 1))) by lia. reflexivity.
Qed.

Lemma find_loop_spec : forall fuel l0 supers i n,
  1 <= i -> (1 <= fuel)%nat -> (length supers + 2 <= fuel + N.to_nat i)%nat ->
  find_loop fuel supers i n = Ok (hd_error (chain_from (l0 :: supers) i n)).
Proof.
  induction fuel as [|fuel IH]; intros l0 supers i n Hi Hf1 Hf; [lia|].
  cbn [find_loop]. assert (Hz : (i =? 0) = false) by (apply N.eqb_neq; lia). rewrite Hz.
  rewrite chain_from_step, (nthN_supers l0) by exact Hi.
  destruct (nth_error (l0 :: supers) (N.to_nat i)) as [layer|] eqn:Hn; [|reflexivity].
  assert (Hlt : (N.to_nat i < length (l0 :: supers))%nat) by (apply nth_error_Some; congruence).
  cbn [length] in Hlt.
  destruct (layer_get layer n) as [[d|depth]|]; [reflexivity | |]; apply IH; lia.
Qed.

Theorem find_field_spec : forall o i n,
  find_field o i n = Ok (hd_error (eff_chain (skipn (N.to_nat i) (layers o)) i 0 n)).
Proof.
  intros o i n. fold (chain_from (layers o) i n). unfold find_field, loop_fuel, layers.
  destruct (i =? 0) eqn:Hz.
  - apply N.eqb_eq in Hz. subst i. rewrite chain_from_step. cbn [N.to_nat nth_error].
    destruct (layer_get (self_layer o) n) as [[d|depth]|]; [reflexivity | |]; apply find_loop_spec; lia.
  - apply N.eqb_neq in Hz. apply find_loop_spec; lia.
Qed.

Corollary find_field_chain : forall o n, find_field o 0 n = Ok (hd_error (chain o n)).
Proof. intros o n. rewrite find_field_spec. reflexivity. Qed.

Corollary has_field_spec : forall o i n,
  has_field o i n = Ok (match eff_chain (skipn (N.to_nat i) (layers o)) i 0 n with [] => false | _ => true end).
Proof.
  intros o i n. unfold has_field. rewrite find_field_spec. cbn [obind].
  destruct (eff_chain _ _ _ _); reflexivity.
Qed.

Theorem find_field_found : forall o i n j d,
  find_field o i n = Ok (Some (j, d)) ->
  i <= j /\ exists l, nth_error (layers o) (N.to_nat j) = Some l /\ layer_get l n = Some (Normal d).
Proof.
  intros o i n j d H. rewrite find_field_spec in H. injection H as H.
  destruct (eff_chain (skipn (N.to_nat i) (layers o)) i 0 n) as [|p c] eqn:E; cbn in H; try discriminate.
  injection H as ->. assert (HI : In (j, d) (eff_chain (skipn (N.to_nat i) (layers o)) i 0 n)) by (rewrite E; left; reflexivity).
  apply eff_chain_sound in HI. destruct HI as (l & Hn & Hg & Hle). split; auto.
  exists l. split; auto. rewrite nth_error_skipn' in Hn. rewrite <- Hn. f_equal. lia.
Qed.

(* a lookup started at layer i+1 (super, seen from layer i) never consults layers <= i *)
Theorem super_starts_left : forall o o' i n,
  skipn (S (N.to_nat i)) (layers o) = skipn (S (N.to_nat i)) (layers o') ->
  find_field o (i + 1) n = find_field o' (i + 1) n.
Proof.
  intros o o' i n H. rewrite !find_field_spec.
  replace (N.to_nat (i + 1)) with (S (N.to_nat i)) by lia. rewrite H. reflexivity.
Qed.

(* the `:` `::` `:::` rule, from base to derived: a derived field of default
   visibility keeps the visibility it inherits *)
Definition inherit (base derived : vis) : vis :=
  match derived with Default => base | v => v end.

(* [top_down]: visibilities of the effective chain, most derived first *)
Definition resolve (top_down : list vis) : option vis :=
  match rev top_down with
  | [] => None
  | b :: r => Some (fold_left inherit r b)
  end.

Definition visible_of (r : option vis) : bool :=
  match r with
  | None => false
  | Some Hidden => false
  | Some _ => true
  end.

Definition chain_vis (c : list (N * fdata)) : list vis := map (fun p => f_vis (snd p)) c.

Lemma resolve_cons : forall v c,
  resolve (v :: c) = Some (match v with
                           | Default => match resolve c with Some x => x | None => Default end
                           | _ => v
                           end).
Proof.
  intros v c. unfold resolve. cbn [rev]. destruct (rev c) as [|b r]; cbn [app].
  - cbn. destruct v; reflexivity.
  - rewrite fold_left_app. cbn [fold_left]. unfold inherit at 1. destruct v; reflexivity.
Qed.

Lemma resolve_nil : resolve [] = None.
Proof. reflexivity. Qed.

Lemma resolve_none : forall c, resolve c = None <-> c = [].
Proof.
  intros c. split; [|intros ->; reflexivity].
  destruct c; auto. rewrite resolve_cons. discriminate.
Qed.

(* has_visible_field's walk: most derived first, with the [found] flag *)
Fixpoint vis_walk (c : list vis) (found : bool) : bool :=
  match c with
  | [] => found
  | Default :: r => vis_walk r true
  | Hidden :: _ => false
  | ForceVisible :: _ => true
  end.

Lemma vis_walk_resolve : forall c found,
  vis_walk c found = match resolve c with None => found | Some v => visible_of (Some v) end.
Proof.
  induction c as [|v c IH]; intros found; auto.
  rewrite resolve_cons. destruct v; cbn [vis_walk]; auto.
  rewrite IH. destruct (resolve c) as [x|]; reflexivity.
Qed.

Lemma hv_loop_spec : forall fuel l0 supers i n found,
  1 <= i -> (1 <= fuel)%nat -> (length supers + 2 <= fuel + N.to_nat i)%nat ->
  hv_loop fuel supers i n found = Ok (vis_walk (chain_vis (chain_from (l0 :: supers) i n)) found).
Proof.
  induction fuel as [|fuel IH]; intros l0 supers i n found Hi Hf1 Hf; [lia|].
  cbn [hv_loop]. assert (Hz : (i =? 0) = false) by (apply N.eqb_neq; lia). rewrite Hz.
  rewrite chain_from_step, (nthN_supers l0) by exact Hi.
  destruct (nth_error (l0 :: supers) (N.to_nat i)) as [layer|] eqn:Hn; [|reflexivity].
  assert (Hlt : (N.to_nat i < length (l0 :: supers))%nat) by (apply nth_error_Some; congruence).
  cbn [length] in Hlt.
  destruct (layer_get layer n) as [[d|depth]|]; [|apply IH; lia|apply IH; lia].
  cbn [chain_vis map snd vis_walk]. destruct (f_vis d); [apply IH; lia | reflexivity | reflexivity].
Qed.

Lemma has_visible_field_walk : forall o n,
  has_visible_field o n = Ok (vis_walk (chain_vis (chain o n)) false).
Proof.
  intros o n. change (chain o n) with (chain_from (layers o) 0 n).
  unfold has_visible_field, loop_fuel, layers. rewrite chain_from_step. cbn [N.to_nat nth_error].
  destruct (layer_get (self_layer o) n) as [[d|depth]|]; [|apply hv_loop_spec; lia|apply hv_loop_spec; lia].
  cbn [chain_vis map snd vis_walk]. destruct (f_vis d); [apply hv_loop_spec; lia | reflexivity | reflexivity].
Qed.

Theorem visibility_rule : forall o n,
  has_visible_field o n = Ok (visible_of (resolve (chain_vis (chain o n)))).
Proof.
  intros o n. rewrite has_visible_field_walk, vis_walk_resolve.
  destruct (resolve (chain_vis (chain o n))); reflexivity.
Qed.

Lemma bt_get_set : forall m n s k,
  bt_get (bt_set m n s) k = if name_eqb n k then Some s else bt_get m k.
Proof.
  induction m as [|[k0 v] r IH]; intros n s k; cbn [bt_set bt_get]; [reflexivity|].
  destruct (name_compare n k0) eqn:C; cbn [bt_get]; [|reflexivity|].
  - apply name_compare_eq in C. subst k0. destruct (name_eqb n k); reflexivity.
  - rewrite IH. destruct (name_eqb k0 k) eqn:E0, (name_eqb n k) eqn:E; try reflexivity.
    (* n = k = k0 contradicts n > k0 *)
    apply name_eqb_eq in E0, E. subst. rewrite name_compare_refl in C. discriminate.
Qed.

Definition bt_sorted (m : btmap) : Prop := StronglySorted name_lt (map fst m).

Lemma bt_set_keys : forall m n s k, In k (map fst (bt_set m n s)) -> k = n \/ In k (map fst m).
Proof.
  induction m as [|[k0 v] r IH]; intros n s k; cbn [bt_set]; [|destruct (name_compare n k0)];
    cbn [map fst In]; intros [<-|H]; auto.
  apply IH in H. destruct H; auto.
Qed.

Lemma bt_set_sorted : forall m n s, bt_sorted m -> bt_sorted (bt_set m n s).
Proof.
  unfold bt_sorted. induction m as [|[k v] r IH]; intros n s H; cbn [bt_set map fst].
  - constructor; constructor.
  - cbn [map fst] in H. apply StronglySorted_inv in H. destruct H as [Hr Hk].
    destruct (name_compare n k) eqn:C; cbn [map fst].
    + apply name_compare_eq in C. subst k. constructor; assumption.
    + constructor; [constructor; assumption|]. constructor; [exact C|].
      rewrite Forall_forall in *. intros x Hx. eapply name_lt_trans; [exact C | apply Hk; exact Hx].
    + constructor; [apply IH; exact Hr|]. rewrite Forall_forall in *. intros x Hx.
      apply bt_set_keys in Hx. destruct Hx as [->|Hx]; [|apply Hk; exact Hx].
      unfold name_lt. rewrite name_compare_antisym, C. reflexivity.
Qed.

Lemma sorted_nodup : forall l, StronglySorted name_lt l -> NoDup l.
Proof.
  induction l as [|x r IH]; intros H; constructor.
  - apply StronglySorted_inv in H. destruct H as [_ Hk]. intros HI.
    rewrite Forall_forall in Hk. apply Hk in HI. exact (name_lt_irrefl _ HI).
  - apply IH. apply StronglySorted_inv in H. tauto.
Qed.

Lemma bt_get_in : forall m n s, bt_get m n = Some s -> In (n, s) m.
Proof.
  induction m as [|[k v] r IH]; cbn [bt_get]; intros n s H; try discriminate.
  destruct (name_eqb k n) eqn:E.
  - apply name_eqb_eq in E. injection H as ->. subst. left. reflexivity.
  - right. apply IH. exact H.
Qed.

Lemma bt_in_get : forall m n s, NoDup (map fst m) -> In (n, s) m -> bt_get m n = Some s.
Proof.
  induction m as [|[k v] r IH]; cbn [bt_get map fst]; intros n s Hd HI; [contradiction|].
  apply NoDup_cons_iff in Hd. destruct Hd as [Hk Hd]. destruct HI as [E|HI].
  - injection E as -> ->. rewrite name_eqb_refl. reflexivity.
  - destruct (name_eqb k n) eqn:E.
    + apply name_eqb_eq in E. subst k. exfalso. apply Hk. apply (in_map fst) in HI. exact HI.
    + apply IH; assumption.
Qed.

(* the Vacant / Occupied arms as a transition of one name's state *)
Definition step (st : option fstate) (layer_i : N) (f : field) : option fstate :=
  match st with
  | None => Some (field_to_state f layer_i)
  | Some (SNormal Default sk) =>
      if sk <? layer_i then
        match f with
        | Normal d => Some (SNormal (f_vis d) 0)
        | Removed depth => Some (SNormal Default (layer_i + depth))
        end
      else st
  | Some (SNormal _ _) => st
  | Some (SRemoved r) => if r <? layer_i then Some (field_to_state f layer_i) else st
  end.

Fixpoint name_state (ls : list layer) (i : N) (st : option fstate) (n : name) : option fstate :=
  match ls with
  | [] => st
  | l :: r => name_state r (i + 1) (match layer_get l n with Some f => step st i f | None => st end) n
  end.

Lemma merge_entry_step : forall i m n f,
  (merge_entry i m (n, f) = m /\ step (bt_get m n) i f = bt_get m n) \/
  (exists s, merge_entry i m (n, f) = bt_set m n s /\ step (bt_get m n) i f = Some s).
Proof.
  intros i m n f. unfold merge_entry, step.
  destruct (bt_get m n) as [[v sk|r]|]; [| |right; eauto].
  - destruct v; auto. destruct (sk <? i); auto. destruct f; right; eauto.
  - destruct (r <? i); [right; eauto | auto].
Qed.

Lemma merge_entry_get : forall i m n f k,
  bt_get (merge_entry i m (n, f)) k = if name_eqb n k then step (bt_get m n) i f else bt_get m k.
Proof.
  intros i m n f k. destruct (merge_entry_step i m n f) as [[-> ->]|(s & -> & ->)]; [|apply bt_get_set].
  destruct (name_eqb n k) eqn:E; [|reflexivity]. apply name_eqb_eq in E. subst. reflexivity.
Qed.

Lemma merge_entry_sorted : forall i m nf, bt_sorted m -> bt_sorted (merge_entry i m nf).
Proof.
  intros i m [n f] H. destruct (merge_entry_step i m n f) as [[-> _]|(s & -> & _)];
    [exact H | apply bt_set_sorted, H].
Qed.

(* iteration over a hash map with unique keys: only the entry of [n] matters for [n] *)
Lemma fold_layer_get : forall (ins : btmap -> name * field -> btmap) (upd : option fstate -> field -> option fstate),
  (forall m n f k, bt_get (ins m (n, f)) k = if name_eqb n k then upd (bt_get m n) f else bt_get m k) ->
  forall l m n, wf_layer l ->
  bt_get (fold_left ins l m) n = match layer_get l n with Some f => upd (bt_get m n) f | None => bt_get m n end.
Proof.
  intros ins upd Hget.
  induction l as [|[k f] r IH]; intros m n Hwf; cbn [fold_left layer_get]; auto.
  unfold wf_layer in Hwf. cbn [map fst] in Hwf. apply NoDup_cons_iff in Hwf. destruct Hwf as [Hk Hr].
  rewrite IH, Hget by exact Hr. destruct (name_eqb k n) eqn:E; [|reflexivity].
  apply name_eqb_eq in E. subst k. rewrite (layer_get_none r n Hk). reflexivity.
Qed.

Lemma fold_left_inv : forall A B (P : A -> Prop) (f : A -> B -> A),
  (forall a b, P a -> P (f a b)) -> forall l a, P a -> P (fold_left f l a).
Proof. intros A B P f H. induction l as [|b r IH]; intros a Ha; cbn [fold_left]; auto. Qed.

Lemma merge_layers_get : forall ls i m n, Forall wf_layer ls ->
  bt_get (merge_layers m i ls) n = name_state ls i (bt_get m n) n.
Proof.
  induction ls as [|l r IH]; intros i m n H; cbn [merge_layers name_state]; auto.
  apply Forall_cons_iff in H. destruct H as [Hl Hr]. rewrite IH by exact Hr.
  rewrite (fold_layer_get _ (fun st f => step st i f) (merge_entry_get i)) by exact Hl.
  reflexivity.
Qed.

Lemma merge_layers_sorted : forall ls i m, bt_sorted m -> bt_sorted (merge_layers m i ls).
Proof.
  induction ls as [|l r IH]; intros i m H; cbn [merge_layers]; auto.
  apply IH. apply fold_left_inv; [intros; apply merge_entry_sorted; assumption | exact H].
Qed.

Lemma all_fields_sorted : forall o, bt_sorted (all_fields o).
Proof.
  intros o. unfold all_fields. apply merge_layers_sorted.
  apply fold_left_inv; [intros; apply bt_set_sorted; assumption | constructor].
Qed.

Lemma all_fields_get : forall o n, wf_obj o -> bt_get (all_fields o) n = name_state (layers o) 0 None n.
Proof.
  intros o n H. unfold wf_obj, layers in H. apply Forall_cons_iff in H. destruct H as [Hs Hr].
  unfold all_fields. rewrite merge_layers_get by exact Hr.
  rewrite (fold_layer_get _ (fun _ f => Some (field_to_state f 0)) (fun m k f => bt_get_set m k _)) by exact Hs.
  unfold layers. cbn [name_state bt_get]. destruct (layer_get (self_layer o) n); reflexivity.
Qed.

(* what the state of a name has recorded: a visibility, and how many of the layers from [i] on a
   marker hides.  The visibility a name ends with is the rule over what was recorded followed by
   what the walk still meets. *)
Definition st_vis (st : option fstate) : list vis :=
  match st with Some (SNormal v _) => [v] | _ => [] end.

Definition st_skip (st : option fstate) (i : N) : N :=
  match st with
  | None => 0
  | Some (SRemoved r) => r + 1 - i
  | Some (SNormal _ sk) => sk + 1 - i
  end.

Lemma st_skip_succ : forall st i, st_skip st (i + 1) = st_skip st i - 1.
Proof. intros [[v sk|rr]|] i; cbn [st_skip]; lia. Qed.

Lemma step_hidden : forall st i f, st_skip st i <> 0 -> step st i f = st.
Proof.
  intros [[v sk|rr]|] i f H; cbn [st_skip] in H; [| |contradiction]; cbn [step].
  - assert (Hlt : (sk <? i) = false) by (apply N.ltb_ge; lia). rewrite Hlt. destruct v; reflexivity.
  - assert (Hlt : (rr <? i) = false) by (apply N.ltb_ge; lia). rewrite Hlt. reflexivity.
Qed.

(* a layer that is consulted: [g skip] stands for what the walk meets below it *)
Lemma step_consulted : forall st i f (g : N -> list vis), st_skip st i = 0 ->
  resolve (st_vis (step st i f) ++ g (st_skip (step st i f) (i + 1))) =
  resolve (st_vis st ++ match f with Normal d => f_vis d :: g 0 | Removed depth => g depth end).
Proof.
  intros st i f g Z.
  assert (E0 : 0 + 1 - (i + 1) = 0) by lia.
  assert (Ed : forall depth, i + depth + 1 - (i + 1) = depth) by (intros; lia).
  destruct st as [[v sk|rr]|]; cbn [st_skip] in Z; cbn [step].
  - destruct v; [|cbn [st_vis app]; rewrite !resolve_cons; reflexivity..].
    assert (Hlt : (sk <? i) = true) by (apply N.ltb_lt; lia). rewrite Hlt.
    destruct f as [d|depth]; cbn [st_vis st_skip app]; rewrite ?E0, ?Ed; [|reflexivity].
    rewrite !resolve_cons. destruct (f_vis d); reflexivity.
  - assert (Hlt : (rr <? i) = true) by (apply N.ltb_lt; lia). rewrite Hlt.
    destruct f as [d|depth]; cbn [field_to_state st_vis st_skip app]; rewrite ?E0, ?Ed; reflexivity.
  - destruct f as [d|depth]; cbn [field_to_state st_vis st_skip app]; rewrite ?E0, ?Ed; reflexivity.
Qed.

Lemma eff_chain_pass : forall l r i skip n, skip <> 0 \/ layer_get l n = None ->
  eff_chain (l :: r) i skip n = eff_chain r (i + 1) (skip - 1) n.
Proof.
  intros l r i skip n H. cbn [eff_chain]. destruct (N.eqb_spec skip 0) as [->|Hs]; [|reflexivity].
  destruct H as [H|H]; [contradiction | rewrite H; reflexivity].
Qed.

Lemma name_state_chain : forall ls i st n,
  resolve (st_vis (name_state ls i st n)) =
  resolve (st_vis st ++ chain_vis (eff_chain ls i (st_skip st i) n)).
Proof.
  induction ls as [|l r IH]; intros i st n; cbn [name_state].
  - cbn [eff_chain chain_vis map]. rewrite app_nil_r. reflexivity.
  - rewrite IH.
    destruct (layer_get l n) as [f|] eqn:G;
      [|rewrite eff_chain_pass, st_skip_succ by auto; reflexivity].
    destruct (N.eq_dec (st_skip st i) 0) as [Z|Z];
      [|rewrite step_hidden, eff_chain_pass, st_skip_succ by auto; reflexivity].
    rewrite (step_consulted st i f (fun skip => chain_vis (eff_chain r (i + 1) skip n)) Z).
    cbn [eff_chain]. rewrite Z, G. destruct f; reflexivity.
Qed.

Lemma in_filter_map : forall A B (f : A -> option B) l y,
  In y (filter_map f l) <-> exists x, In x l /\ f x = Some y.
Proof.
  induction l as [|a r IH]; intros y; cbn [filter_map].
  - split; [intros [] | intros (x & [] & _)].
  - destruct (f a) as [b|] eqn:E; cbn [In]; rewrite IH; split.
    + intros [<-|(x & Hx & Hf)]; [exists a | exists x]; auto.
    + intros (x & [<-|Hx] & Hf); [left; congruence | right; exists x; auto].
    + intros (x & Hx & Hf). exists x. auto.
    + intros (x & [<-|Hx] & Hf); [congruence | exists x; auto].
Qed.

(* dropping entries of a list sorted by key, and changing the others without touching their key *)
Lemma filter_map_sorted : forall A B (ka : A -> name) (kb : B -> name) (f : A -> option B),
  (forall x y, f x = Some y -> kb y = ka x) ->
  forall l, StronglySorted name_lt (map ka l) -> StronglySorted name_lt (map kb (filter_map f l)).
Proof.
  intros A B ka kb f Hk. induction l as [|a r IH]; intros H; cbn [filter_map map]; [constructor|].
  cbn [map] in H. apply StronglySorted_inv in H. destruct H as [Hr Ha].
  destruct (f a) as [b|] eqn:E; [|apply IH; exact Hr].
  cbn [map]. constructor; [apply IH; exact Hr|].
  rewrite (Hk _ _ E). rewrite Forall_forall in *. intros k Hin.
  apply in_map_iff in Hin. destruct Hin as (y & <- & Hy).
  apply in_filter_map in Hy. destruct Hy as (x & Hx & Hf).
  rewrite (Hk _ _ Hf). apply Ha. apply in_map. exact Hx.
Qed.

(* the recorded visibility of a name is the `:` `::` `:::` rule over its effective chain *)
Theorem fields_order_entry : forall o n v, wf_obj o ->
  (In (n, v) (get_fields_order o) <-> resolve (chain_vis (chain o n)) = Some v).
Proof.
  intros o n v Hwf.
  pose proof (sorted_nodup _ (all_fields_sorted o)) as Hd.
  pose proof (name_state_chain (layers o) 0 None n) as Hc. cbn [st_skip st_vis app] in Hc.
  fold (chain o n) in Hc. rewrite <- (all_fields_get o n Hwf) in Hc. rewrite <- Hc.
  unfold get_fields_order. rewrite in_filter_map. split.
  - intros ([k [v0 sk|rr]] & Hm & E); [|discriminate E]. injection E as -> ->.
    rewrite (bt_in_get _ _ _ Hd Hm). reflexivity.
  - destruct (bt_get (all_fields o) n) as [[v0 sk|rr]|] eqn:G; cbn; try discriminate.
    intros [= ->]. exists (n, SNormal v sk). split; [apply bt_get_in; exact G | reflexivity].
Qed.

Theorem fields_order_sorted : forall o, StronglySorted name_lt (map fst (get_fields_order o)).
Proof.
  intros o. apply (filter_map_sorted _ _ fst); [|apply all_fields_sorted].
  intros [k [v sk|rr]] y [= <-]. reflexivity.
Qed.

Definition visible_name (nv : name * vis) : option name :=
  match snd nv with Hidden => None | _ => Some (fst nv) end.

Theorem visible_fields_order_sorted : forall o, StronglySorted name_lt (get_visible_fields_order o).
Proof.
  intros o. rewrite <- map_id. apply (filter_map_sorted _ _ fst _ visible_name); [|apply fields_order_sorted].
  intros [k v] y. destruct v; intros [= <-]; reflexivity.
Qed.

Lemma visible_nodup : forall o, NoDup (get_visible_fields_order o).
Proof. intros o. apply sorted_nodup. apply visible_fields_order_sorted. Qed.

Theorem fields_order_sorted_nodup : forall o,
  StronglySorted name_lt (map fst (get_fields_order o)) /\
  NoDup (map fst (get_fields_order o)) /\
  StronglySorted name_lt (get_visible_fields_order o) /\
  NoDup (get_visible_fields_order o).
Proof.
  intros o. pose proof (fields_order_sorted o). pose proof (visible_fields_order_sorted o).
  repeat split; auto using sorted_nodup.
Qed.

Lemma in_visible_iff : forall (l : list (name * vis)) n,
  In n (filter_map visible_name l) <-> exists v, In (n, v) l /\ v <> Hidden.
Proof.
  intros l n. rewrite in_filter_map. split.
  - intros ([k v] & H & E). exists v. destruct v; try discriminate E; injection E as <-; (split; [exact H | discriminate]).
  - intros (v & H & Hv). exists (n, v). split; [exact H|]. destruct v; [reflexivity | contradiction | reflexivity].
Qed.

(* get_fields_order lists exactly the names find_field finds ... *)
Theorem fields_order_agree : forall o n, wf_obj o ->
  (In n (map fst (get_fields_order o)) <-> exists j d, find_field o 0 n = Ok (Some (j, d))).
Proof.
  intros o n Hwf. rewrite find_field_chain. split.
  - intros H. apply in_map_iff in H. destruct H as ([k v] & <- & H). cbn [fst].
    apply fields_order_entry in H; [|exact Hwf].
    destruct (chain o k) as [|[j d] c]; [discriminate|]. exists j, d. reflexivity.
  - intros (j & d & H). injection H as H.
    destruct (resolve (chain_vis (chain o n))) as [v|] eqn:R.
    + apply fields_order_entry in R; [|exact Hwf]. apply (in_map fst) in R. exact R.
    + apply resolve_none in R. destruct (chain o n); [discriminate|]. discriminate.
Qed.

(* ... and the visible ones are exactly those has_visible_field accepts *)
Theorem fields_order_agree_visible : forall o n, wf_obj o ->
  (In n (get_visible_fields_order o) <-> has_visible_field o n = Ok true).
Proof.
  intros o n Hwf. unfold get_visible_fields_order. rewrite in_visible_iff, visibility_rule. split.
  - intros (v & H & Hv). apply fields_order_entry in H; [|exact Hwf]. rewrite H.
    destruct v; try contradiction; reflexivity.
  - intros H. injection H as H. destruct (resolve (chain_vis (chain o n))) as [v|] eqn:R; [|discriminate].
    exists v. split; [apply fields_order_entry; assumption|]. intros ->. discriminate.
Qed.

Lemma sorted_head_lt : forall k (t : list (name * vis)) n v,
  StronglySorted name_lt (k :: map fst t) -> In (n, v) t -> name_lt k n.
Proof.
  intros k t n v H HI. apply StronglySorted_inv in H. destruct H as [_ H].
  rewrite Forall_forall in H. apply H. apply (in_map fst) in HI. exact HI.
Qed.

Lemma sorted_keys_ext : forall (l1 l2 : list (name * vis)),
  StronglySorted name_lt (map fst l1) -> StronglySorted name_lt (map fst l2) ->
  (forall n v, In (n, v) l1 <-> In (n, v) l2) -> l1 = l2.
Proof.
  induction l1 as [|[k1 v1] t1 IH]; intros [|[k2 v2] t2] H1 H2 Hiff; cbn [map fst] in *.
  - reflexivity.
  - exfalso. apply (Hiff k2 v2). left. reflexivity.
  - exfalso. apply (Hiff k1 v1). left. reflexivity.
  - (* neither head can occur in the other tail: it would be both above and below the other head *)
    assert (E : (k2, v2) = (k1, v1)).
    { destruct (proj1 (Hiff k1 v1) (or_introl eq_refl)) as [E|HI]; [exact E|].
      destruct (proj2 (Hiff k2 v2) (or_introl eq_refl)) as [E|HJ]; [symmetry; exact E|].
      exfalso. apply (name_lt_irrefl k1). eapply name_lt_trans; eapply sorted_head_lt; eassumption. }
    injection E as -> ->. f_equal.
    apply IH; [apply StronglySorted_inv in H1; tauto | apply StronglySorted_inv in H2; tauto |].
    intros n v. split; intros HI.
    + destruct (proj1 (Hiff n v) (or_intror HI)) as [E|HJ]; [|exact HJ].
      injection E as <- <-. exfalso. exact (name_lt_irrefl _ (sorted_head_lt _ _ _ _ H1 HI)).
    + destruct (proj2 (Hiff n v) (or_intror HI)) as [E|HJ]; [|exact HJ].
      injection E as <- <-. exfalso. exact (name_lt_irrefl _ (sorted_head_lt _ _ _ _ H2 HI)).
Qed.

Definition res_shift (k : N) (r : res (option (N * fdata))) : res (option (N * fdata)) :=
  match r with
  | Ok x => Ok (option_map (shift k) x)
  | Err e => Err e
  | Panic s => Panic s
  | OutOfFuel => OutOfFuel
  end.

Lemma hd_error_map : forall A B (f : A -> B) l, hd_error (map f l) = option_map f (hd_error l).
Proof. intros A B f [|x l]; reflexivity. Qed.

Lemma chain_vis_shift : forall k c, chain_vis (map (shift k) c) = chain_vis c.
Proof. intros k c. unfold chain_vis. rewrite map_map. reflexivity. Qed.

(* a name whose chain is only renumbered is looked up and seen as before *)
Lemma chain_shift_lookup : forall o e k n, chain e n = map (shift k) (chain o n) ->
  find_field e 0 n = res_shift k (find_field o 0 n) /\ has_visible_field e n = has_visible_field o n.
Proof.
  intros o e k n H. rewrite !find_field_chain, !visibility_rule, H, hd_error_map, chain_vis_shift.
  split; reflexivity.
Qed.

Lemma chain_shift_order : forall o e k, wf_obj o -> wf_obj e ->
  (forall n, chain e n = map (shift k) (chain o n)) ->
  get_fields_order e = get_fields_order o /\
  get_visible_fields_order e = get_visible_fields_order o /\
  obj_length e = obj_length o.
Proof.
  intros o e k Ho He H.
  assert (Hord : get_fields_order e = get_fields_order o).
  { apply sorted_keys_ext; try apply fields_order_sorted.
    intros n v. rewrite !fields_order_entry by assumption. rewrite H, chain_vis_shift. reflexivity. }
  unfold obj_length, get_visible_fields_order. rewrite Hord. auto.
Qed.

(* new layers on top: every lookup that starts below them is the old lookup, renumbered *)
Lemma find_field_under : forall o e top, layers e = top ++ layers o ->
  forall i m, find_field e (i + N.of_nat (length top)) m = res_shift (N.of_nat (length top)) (find_field o i m).
Proof.
  intros o e top H i m. rewrite !find_field_spec, H.
  replace (N.to_nat (i + N.of_nat (length top))) with (length top + N.to_nat i)%nat by lia.
  rewrite <- skipn_skipn', skipn_app, skipn_all, Nat.sub_diag. cbn [app skipn res_shift].
  rewrite eff_chain_shift, hd_error_map. reflexivity.
Qed.

Lemma chain_under_top : forall o e t n, layers e = t :: layers o -> layer_get t n = None ->
  chain e n = map (shift 1) (chain o n).
Proof.
  intros o e t n H G. unfold chain. rewrite H. cbn [eff_chain N.eqb]. rewrite G, <- eff_chain_shift. reflexivity.
Qed.

Lemma chain_extend_empty_r : forall o n, chain (extend o empty_obj) n = map (shift 1) (chain o n).
Proof. intros o n. apply (chain_under_top o _ []); [rewrite layers_extend|]; reflexivity. Qed.

Lemma map_shift_0 : forall c, map (shift 0) c = c.
Proof.
  induction c as [|[j d] c IH]; cbn [map]; auto. rewrite IH. unfold shift. cbn [fst snd].
  rewrite N.add_0_r. reflexivity.
Qed.

Lemma chain_extend_empty_l : forall o n, chain (extend empty_obj o) n = map (shift 0) (chain o n).
Proof.
  intros o n. rewrite map_shift_0. unfold chain. rewrite layers_extend.
  cbn [layers empty_obj self_layer super_layers]. apply eff_chain_app_closed.
Qed.

Theorem extend_empty_r : forall o, wf_obj o ->
  let e := extend o empty_obj in
  (forall n, find_field e 0 n = res_shift 1 (find_field o 0 n)) /\
  (forall i n, find_field e (i + 1) n = res_shift 1 (find_field o i n)) /\
  (forall n, has_visible_field e n = has_visible_field o n) /\
  get_fields_order e = get_fields_order o /\
  get_visible_fields_order e = get_visible_fields_order o /\
  obj_length e = obj_length o.
Proof.
  intros o Hwf e. pose proof (chain_extend_empty_r o) as Hc.
  assert (He : wf_obj e) by (apply wf_extend; [exact Hwf | apply wf_empty]).
  split; [|split; [|split]].
  - intros n. apply chain_shift_lookup, Hc.
  - apply (find_field_under o e [[]]). unfold e. rewrite layers_extend. reflexivity.
  - intros n. apply (chain_shift_lookup o e 1), Hc.
  - apply (chain_shift_order o e 1); assumption.
Qed.

Lemma find_field_extend_empty_l : forall o i n, find_field (extend empty_obj o) i n = find_field o i n.
Proof.
  intros o i n. rewrite !find_field_spec, layers_extend.
  change (layers empty_obj) with [[] : layer]. f_equal. f_equal.
  generalize (layers o). intros ls.
  destruct (Nat.le_gt_cases (N.to_nat i) (length ls)) as [Hle|Hgt].
  - rewrite skipn_app. replace (N.to_nat i - length ls)%nat with 0%nat by lia.
    cbn [skipn]. apply eff_chain_app_closed.
  - rewrite !skipn_all2; auto; [lia | rewrite app_length; cbn [length]; lia].
Qed.

Theorem extend_empty_l : forall o, wf_obj o ->
  let e := extend empty_obj o in
  (forall i n, find_field e i n = find_field o i n) /\
  (forall n, has_visible_field e n = has_visible_field o n) /\
  get_fields_order e = get_fields_order o /\
  get_visible_fields_order e = get_visible_fields_order o /\
  obj_length e = obj_length o.
Proof.
  intros o Hwf e. pose proof (chain_extend_empty_l o) as Hc.
  assert (He : wf_obj e) by (apply wf_extend; [apply wf_empty | exact Hwf]).
  split; [|split].
  - apply find_field_extend_empty_l.
  - intros n. apply (chain_shift_lookup o e 0), Hc.
  - apply (chain_shift_order o e 0); assumption.
Qed.

Lemma chain_remove_same : forall o n, chain (remove_key o n) n = [].
Proof.
  intros o n. unfold chain. rewrite layers_remove_key. unfold marker.
  cbn [eff_chain N.eqb layer_get]. rewrite name_eqb_refl.
  rewrite eff_chain_skip, Nat2N.id, skipn_all. reflexivity.
Qed.

Lemma marker_get_other : forall o n m, m <> n -> layer_get (marker o n) m = None.
Proof.
  intros o n m H. cbn [marker layer_get].
  assert (E : name_eqb n m = false) by (apply name_eqb_neq; congruence). rewrite E. reflexivity.
Qed.

Lemma chain_remove_other : forall o n m, m <> n ->
  chain (remove_key o n) m = map (shift 1) (chain o m).
Proof.
  intros o n m H. apply (chain_under_top o _ (marker o n)); [apply layers_remove_key | apply marker_get_other, H].
Qed.

Theorem remove_key_exact : forall o n,
  let e := remove_key o n in
  find_field e 0 n = Ok None /\
  has_visible_field e n = Ok false /\
  (forall m, m <> n -> find_field e 0 m = res_shift 1 (find_field o 0 m)) /\
  (forall m, m <> n -> has_visible_field e m = has_visible_field o m) /\
  (forall i m, find_field e (i + 1) m = res_shift 1 (find_field o i m)).
Proof.
  intros o n e. repeat split.
  - rewrite find_field_chain. unfold e. rewrite chain_remove_same. reflexivity.
  - rewrite visibility_rule. unfold e. rewrite chain_remove_same. reflexivity.
  - intros m H. apply chain_shift_lookup, chain_remove_other, H.
  - intros m H. apply (chain_shift_lookup o e 1), chain_remove_other, H.
  - apply (find_field_under o e [marker o n]). apply layers_remove_key.
Qed.

Theorem remove_key_order : forall o n m v, wf_obj o ->
  (In (m, v) (get_fields_order (remove_key o n)) <-> m <> n /\ In (m, v) (get_fields_order o)).
Proof.
  intros o n m v Hwf. rewrite !fields_order_entry by (auto using wf_remove_key).
  destruct (name_eqb m n) eqn:E.
  - apply name_eqb_eq in E. subst m. rewrite chain_remove_same. cbn. split; [discriminate | intros [H _]; congruence].
  - apply name_eqb_neq in E. rewrite chain_remove_other by exact E. rewrite chain_vis_shift. tauto.
Qed.

(* base + std.objectRemoveKey(o, n): the marker hides exactly the layers of o *)
Lemma chain_extend_remove_same : forall base o n,
  chain (extend base (remove_key o n)) n =
  map (shift (1 + N.of_nat (length (layers o)))) (chain base n).
Proof.
  intros base o n. unfold chain. rewrite layers_extend, layers_remove_key. unfold marker.
  cbn [app eff_chain N.eqb layer_get]. rewrite name_eqb_refl.
  rewrite eff_chain_skip_prefix. rewrite <- eff_chain_shift. f_equal; lia.
Qed.

Lemma chain_extend_remove_other : forall base o n m, m <> n ->
  chain (extend base (remove_key o n)) m = map (shift 1) (chain (extend base o) m).
Proof.
  intros base o n m H. apply (chain_under_top _ _ (marker o n)); [|apply marker_get_other, H].
  rewrite !layers_extend, layers_remove_key. reflexivity.
Qed.

Theorem extend_then_remove_hides_only_inner : forall base o n,
  let e := extend base (remove_key o n) in
  find_field e 0 n = res_shift (1 + N.of_nat (length (layers o))) (find_field base 0 n) /\
  has_visible_field e n = has_visible_field base n /\
  (forall m, m <> n -> find_field e 0 m = res_shift 1 (find_field (extend base o) 0 m)) /\
  (forall m, m <> n -> has_visible_field e m = has_visible_field (extend base o) m).
Proof.
  intros base o n e.
  destruct (chain_shift_lookup base e _ n (chain_extend_remove_same base o n)) as [Hf Hv].
  split; [exact Hf|]. split; [exact Hv|].
  split; intros m H; apply (chain_shift_lookup (extend base o) e 1), chain_extend_remove_other, H.
Qed.

Lemma chain_extend_lit : forall o l n d, layer_get l n = Some (Normal d) ->
  chain (extend o (lit l)) n = (0, d) :: map (shift 1) (chain o n).
Proof.
  intros o l n d H. unfold chain. rewrite layers_extend. change (layers (lit l)) with [l].
  cbn [app eff_chain N.eqb]. rewrite H, <- eff_chain_shift. reflexivity.
Qed.

(* std.objectRemoveKey(o, n) + { n: ... }: the re-added field stands alone; nothing of
   the removed object's field (in particular not its visibility) shows through *)
Theorem remove_then_extend : forall o n l d, wf_obj o -> wf_layer l ->
  layer_get l n = Some (Normal d) ->
  let e := extend (remove_key o n) (lit l) in
  find_field e 0 n = Ok (Some (0, d)) /\
  has_visible_field e n = Ok (negb (vis_eqb (f_vis d) Hidden)) /\
  In (n, f_vis d) (get_fields_order e) /\
  (In n (get_visible_fields_order e) <-> f_vis d <> Hidden).
Proof.
  intros o n l d Ho Hl H e.
  assert (Hc : chain e n = [(0, d)]).
  { unfold e. rewrite (chain_extend_lit _ l n d H), chain_remove_same. reflexivity. }
  assert (He : wf_obj e).
  { apply wf_extend; [apply wf_remove_key; exact Ho | apply wf_lit; exact Hl]. }
  split; [|split; [|split]].
  - rewrite find_field_chain, Hc. reflexivity.
  - rewrite visibility_rule, Hc. cbn. destruct (f_vis d); reflexivity.
  - apply fields_order_entry; [exact He|]. rewrite Hc. cbn. destruct (f_vis d); reflexivity.
  - rewrite (fields_order_agree_visible e n He), visibility_rule, Hc. cbn.
    destruct (f_vis d); split; congruence.
Qed.

(* a + b: lookups that start inside a (super, seen from a's layers) are a's own lookups *)
Theorem extend_super_of_left : forall a b i n,
  find_field (extend a b) (i + N.of_nat (length (layers b))) n =
  res_shift (N.of_nat (length (layers b))) (find_field a i n).
Proof. intros a b. apply find_field_under, layers_extend. Qed.

(* self inside any layer of a + b is the whole object: a field defined by b's top
   layer is what every self.g finds, whatever a defines *)
Theorem self_sees_override : forall a b g d,
  layer_get (self_layer b) g = Some (Normal d) ->
  find_field (extend a b) 0 g = Ok (Some (0, d)).
Proof.
  intros a b g d H. unfold find_field. cbn [N.eqb extend self_layer]. rewrite H. reflexivity.
Qed.

Theorem self_is_final : forall fuel o vs i j g,
  eval_body fuel o vs i (BSelf g) = eval_body fuel o vs j (BSelf g).
Proof. intros [|fuel] o vs i j g; reflexivity. Qed.

Theorem default_override_keeps_inherited : forall o l n d,
  layer_get l n = Some (Normal d) -> f_vis d = Default ->
  has_visible_field (extend o (lit l)) n =
  match find_field o 0 n with
  | Ok (Some _) => has_visible_field o n
  | _ => Ok true
  end.
Proof.
  intros o l n d H Hd. rewrite find_field_chain, !visibility_rule, (chain_extend_lit o l n d H).
  cbn [chain_vis map snd]. fold (chain_vis (map (shift 1) (chain o n))).
  rewrite chain_vis_shift, Hd, resolve_cons.
  destruct (chain o n) as [|p c]; [reflexivity|]. cbn [hd_error].
  destruct (resolve (chain_vis (p :: c))) eqn:R; [reflexivity|]. apply resolve_none in R. discriminate.
Qed.

Theorem no_panic_no_fuel : forall o i n,
  (exists r, find_field o i n = Ok r) /\ (exists b, has_field o i n = Ok b) /\
  (exists b, has_visible_field o n = Ok b).
Proof.
  intros o i n. repeat split.
  - rewrite find_field_spec. eexists. reflexivity.
  - rewrite has_field_spec. eexists. reflexivity.
  - rewrite visibility_rule. eexists. reflexivity.
Qed.

Local Opaque eval_fuel.

Lemma eval_fields_keys : forall o ns l, eval_fields o ns = Ok l -> map fst l = ns.
Proof.
  induction ns as [|n r IH]; intros l H; cbn [eval_fields] in H.
  - injection H as <-. reflexivity.
  - apply obind_ok_inv in H as (v & _ & H). apply obind_ok_inv in H as (rest & E & H).
    injection H as <-. cbn [map fst]. f_equal. apply IH, E.
Qed.

Theorem observers_agree : forall o n, wf_obj o ->
  (In n (map fst (get_fields_order o)) <-> has_field o 0 n = Ok true) /\
  (In n (get_visible_fields_order o) <-> has_visible_field o n = Ok true) /\
  (In n (get_visible_fields_order o) -> In n (map fst (get_fields_order o))) /\
  obj_length o = N.of_nat (length (get_visible_fields_order o)) /\
  (forall l, manifest o = Ok l -> map fst l = get_visible_fields_order o) /\
  (has_field o 0 n = Ok false -> eval_field o n = Err EUnknownField).
Proof.
  intros o n Hwf. repeat split.
  - intros H. apply fields_order_agree in H; [|exact Hwf]. destruct H as (j & d & H).
    unfold has_field. rewrite H. reflexivity.
  - intros H. apply fields_order_agree; [exact Hwf|]. unfold has_field in H.
    destruct (find_field o 0 n) as [[[j d]|]| | |]; cbn [obind] in H; try discriminate. eauto.
  - apply fields_order_agree_visible. exact Hwf.
  - apply fields_order_agree_visible. exact Hwf.
  - unfold get_visible_fields_order. intros H. apply in_visible_iff in H. destruct H as (v & H & _).
    apply (in_map fst) in H. exact H.
  - unfold manifest. apply eval_fields_keys.
  - intros H. unfold has_field in H. unfold eval_field.
    destruct (find_field o 0 n) as [[[j d]|]| | |]; cbn [obind] in *; try discriminate. reflexivity.
Qed.

Lemma find_field_beyond : forall o i n, N.of_nat (length (layers o)) <= i -> find_field o i n = Ok None.
Proof.
  intros o i n H. rewrite find_field_spec. rewrite skipn_all2 by lia. reflexivity.
Qed.

Lemma find_field_index_lt : forall o i n j d,
  find_field o i n = Ok (Some (j, d)) -> j <= N.of_nat (length (super_layers o)).
Proof.
  intros o i n j d H. apply find_field_found in H. destruct H as (_ & l & Hn & _).
  assert (Hl : (N.to_nat j < length (layers o))%nat) by (apply nth_error_Some; congruence).
  rewrite layers_length in Hl. lia.
Qed.

Lemma res_shift_0 : forall r, res_shift 0 r = r.
Proof.
  intros [[[j d]|]| | |]; unfold res_shift, option_map, shift; cbn [fst snd]; rewrite ?N.add_0_r; reflexivity.
Qed.

Section Push.
  (* [e] is [o] with [k] more layers on top and, maybe, empty layers below: layer [i] of [o] is
     layer [i + k] of [e].  The names selected by [hid] are not found from the top of [e];
     every other lookup is the one of [o], renumbered. *)
  Variables (o e : obj) (k : N) (hid : name -> bool).
  Notation len_o := (N.of_nat (length (super_layers o))).
  Notation len_e := (N.of_nat (length (super_layers e))).
  Hypothesis Hin : forall i m, find_field e (i + k + 1) m = res_shift k (find_field o (i + 1) m).
  Hypothesis Htop : forall m, hid m = false -> find_field e 0 m = res_shift k (find_field o 0 m).
  Hypothesis Hhid : forall m, hid m = true -> find_field e 0 m = Ok None.
  Hypothesis Hlen : len_o + k <= len_e.

  (* same outcome, or the evaluation in [e] stopped with "unknown field": at a read of a
     hidden name, or at a `super` in the base layer of [o], which had no super object and
     now finds an empty one *)
  Definition push_rel (re ro : res value) : Prop :=
    re = ro \/
    re = Err EUnknownField /\ ((exists g, hid g = true) \/ (ro = Err ENoSuper /\ len_o + k < len_e)).

  Lemma push_rel_refl : forall r, push_rel r r.
  Proof. intros r. left. reflexivity. Qed.

  Lemma push_rel_bind : forall (a b : res value) (f g : value -> res value),
    push_rel a b -> (forall v, push_rel (f v) (g v)) -> push_rel (obind a f) (obind b g).
  Proof.
    intros a b f g [->|[-> [Hg|[-> Hd]]]] H.
    - destruct b; cbn [obind]; try apply push_rel_refl. apply H.
    - right. split; [reflexivity | left; exact Hg].
    - right. split; [reflexivity | right; split; [reflexivity | exact Hd]].
  Qed.

  Definition sh (t : thunk_id) : thunk_id := (fst t + k, snd t).

  Lemma in_progress_sh : forall vs j m, in_progress (map sh vs) (j + k) m = in_progress vs j m.
  Proof.
    induction vs as [|[i x] r IH]; intros j m; cbn [map in_progress sh fst snd]; [reflexivity|].
    rewrite IH. f_equal. f_equal.
    destruct (N.eqb_spec i j) as [->|Hij]; [apply N.eqb_refl | apply N.eqb_neq; lia].
  Qed.

  (* a lookup result consumed as by [self.g], [super.g] and [o.g] *)
  Lemma push_want : forall fuel vs g r,
    (forall j d, j <= len_o ->
       push_rel (eval_thunk fuel e (map sh vs) (j + k) g d) (eval_thunk fuel o vs j g d)) ->
    (forall j d, r = Ok (Some (j, d)) -> j <= len_o) ->
    push_rel (obind (res_shift k r) (fun x =>
                match x with None => Err EUnknownField | Some (j, d) => eval_thunk fuel e (map sh vs) j g d end))
             (obind r (fun x =>
                match x with None => Err EUnknownField | Some (j, d) => eval_thunk fuel o vs j g d end)).
  Proof.
    intros fuel vs g r IHt Hr.
    destruct r as [[[j d]|]| | |]; cbn [res_shift option_map shift fst snd obind]; try apply push_rel_refl.
    apply IHt. apply (Hr j d). reflexivity.
  Qed.

  Lemma sim_push : forall fuel,
    (forall vs i b, i <= len_o ->
       push_rel (eval_body fuel e (map sh vs) (i + k) b) (eval_body fuel o vs i b)) /\
    (forall vs j m d, j <= len_o ->
       push_rel (eval_thunk fuel e (map sh vs) (j + k) m d) (eval_thunk fuel o vs j m d)).
  Proof.
    induction fuel as [|fuel [IHb IHt]]; [split; intros; apply push_rel_refl|].
    split.
    - intros vs i b Hi. destruct b as [z| |g|g|g|x y|r]; cbn [eval_body]; try apply push_rel_refl.
      + (* self.g *)
        destruct (hid g) eqn:Hg.
        * rewrite (Hhid g Hg). right. split; [reflexivity | left; exists g; exact Hg].
        * rewrite (Htop g Hg).
          apply push_want; [intros j d; apply IHt | intros j d; apply find_field_index_lt].
      + (* super.g *)
        destruct (N.eqb_spec i len_o) as [->|Hne].
        * destruct (N.eqb_spec (len_o + k) len_e) as [_|Hd]; [apply push_rel_refl|].
          rewrite Hin, find_field_beyond by (rewrite layers_length; lia).
          right. split; [reflexivity | right; split; [reflexivity | lia]].
        * assert (Hc : (i + k =? len_e) = false) by (apply N.eqb_neq; lia). rewrite Hc, Hin.
          apply push_want; [intros j d; apply IHt | intros j d; apply find_field_index_lt].
      + (* g in super *)
        unfold has_field. rewrite Hin.
        destruct (find_field o (i + 1) g) as [[[j d]|]| | |]; apply push_rel_refl.
      + (* x + y *)
        apply push_rel_bind; [apply IHb; exact Hi|]. intros vx.
        apply push_rel_bind; [apply IHb; exact Hi|]. intros vy. apply push_rel_refl.
    - intros vs j m d Hj. cbn [eval_thunk]. rewrite in_progress_sh.
      destruct (in_progress vs j m); [apply push_rel_refl|].
      change ((j + k, m) :: map sh vs) with (map sh ((j, m) :: vs)).
      destruct (f_plus d); [|apply IHb; exact Hj].
      rewrite Hin.
      destruct (find_field o (j + 1) m) as [[[j2 d2]|]| | |] eqn:F;
        cbn [res_shift option_map shift fst snd obind]; try apply push_rel_refl.
      * apply push_rel_bind; [apply IHt; eapply find_field_index_lt; exact F|]. intros vx.
        apply push_rel_bind; [apply IHb; exact Hj|]. intros vy. apply push_rel_refl.
      * apply IHb. exact Hj.
  Qed.

  Lemma eval_field_push : forall m, hid m = false -> push_rel (eval_field e m) (eval_field o m).
  Proof.
    intros m Hm. unfold eval_field. rewrite (Htop m Hm).
    apply (push_want eval_fuel []);
      [intros j d; apply (proj2 (sim_push eval_fuel) []) | intros j d; apply find_field_index_lt].
  Qed.
End Push.

(* std.objectRemoveKey(o, n): a field other than n evaluates as before, unless its
   evaluation reads self.n (then it stops with "unknown field") *)
Theorem remove_key_values : forall o n m, m <> n ->
  eval_field (remove_key o n) m = eval_field o m \/
  eval_field (remove_key o n) m = Err EUnknownField.
Proof.
  intros o n m Hm.
  destruct (remove_key_exact o n) as (H0 & _ & Hoth & _ & Hin). cbn zeta in *.
  enough (R : push_rel o (remove_key o n) 1 (fun g => name_eqb g n) (eval_field (remove_key o n) m) (eval_field o m))
    by (destruct R as [R|[R _]]; auto).
  apply eval_field_push.
  - intros i g. apply Hin.
  - intros g Hg. apply Hoth. apply name_eqb_neq. exact Hg.
  - intros g Hg. apply name_eqb_eq in Hg. subst g. exact H0.
  - cbn [remove_key super_layers length]. lia.
  - apply name_eqb_neq. exact Hm.
Qed.

(* o + {}: values and manifestation too *)
Theorem extend_empty_r_values : forall o, wf_obj o ->
  (forall m, eval_field (extend o empty_obj) m = eval_field o m) /\
  manifest (extend o empty_obj) = manifest o.
Proof.
  intros o Hwf. destruct (extend_empty_r o Hwf) as (Htop & Hin & _ & _ & Hvis & _). cbn zeta in *.
  assert (Hv : forall m, eval_field (extend o empty_obj) m = eval_field o m).
  { intros m.
    assert (Hlen : length (super_layers (extend o empty_obj)) = S (length (super_layers o))) by reflexivity.
    enough (R : push_rel o (extend o empty_obj) 1 (fun _ => false) (eval_field (extend o empty_obj) m) (eval_field o m)).
    { destruct R as [R|[_ [[g Hg]|[_ Hd]]]]; [exact R | discriminate Hg | lia]. }
    apply eval_field_push.
    - intros i g. apply Hin.
    - intros g _. apply Htop.
    - discriminate.
    - lia.
    - reflexivity. }
  split; [exact Hv|]. unfold manifest. rewrite Hvis.
  generalize (get_visible_fields_order o). intros ns.
  induction ns as [|k r IH]; cbn [eval_fields]; [reflexivity|].
  rewrite Hv, IH. reflexivity.
Qed.

(* {} + o: values too, up to the one error kind that tells a missing super object from a missing field *)
Theorem extend_empty_l_values : forall o m,
  eval_field (extend empty_obj o) m = eval_field o m \/
  (eval_field (extend empty_obj o) m = Err EUnknownField /\ eval_field o m = Err ENoSuper).
Proof.
  intros o m. pose proof (find_field_extend_empty_l o) as Hf.
  enough (R : push_rel o (extend empty_obj o) 0 (fun _ => false) (eval_field (extend empty_obj o) m) (eval_field o m)).
  { destruct R as [R|[R [[g Hg]|[R' _]]]]; [left; exact R | discriminate Hg | right; split; assumption]. }
  apply eval_field_push.
  - intros i g. rewrite N.add_0_r, res_shift_0. apply Hf.
  - intros g _. rewrite res_shift_0. apply Hf.
  - discriminate.
  - cbn [extend super_layers]. rewrite app_length. lia.
  - reflexivity.
Qed.

(* every literal of the expression has distinct field names (the evaluator rejects others) *)
Fixpoint wf_oexpr (e : oexpr) : Prop :=
  match e with
  | OLit l _ => wf_layer l
  | OPlus a b => wf_oexpr a /\ wf_oexpr b
  | OMergePatch a b => wf_oexpr a /\ wf_oexpr b
  | ORemove a _ => wf_oexpr a
  | OMapKey _ a => wf_oexpr a
  | OPrune a => wf_oexpr a
  end.

Lemma simple_obj_keys : forall fs, map fst (self_layer (simple_obj fs)) = map fst fs.
Proof. intros fs. unfold simple_obj. cbn [self_layer]. rewrite map_map. reflexivity. Qed.

Lemma wf_simple_obj : forall fs, NoDup (map fst fs) -> wf_obj (simple_obj fs).
Proof.
  intros fs H. unfold wf_obj, layers. change (super_layers (simple_obj fs)) with (@nil layer).
  constructor; [|constructor]. unfold wf_layer. rewrite simple_obj_keys. exact H.
Qed.

(* the loops of std.prune and std.mergePatch keep a field unless its value is null: the keys
   of the result are among the names visited, and distinct if those are *)
Definition keys_within (fs : list (name * res value)) (ns : list name) : Prop :=
  (forall k, In k (map fst fs) -> In k ns) /\ (NoDup ns -> NoDup (map fst fs)).

Lemma keys_within_nil : keys_within [] [].
Proof. split; [intros k [] | intros _; constructor]. Qed.

Lemma keys_within_step : forall n v rest r, keys_within rest r ->
  keys_within (match v with VNull => rest | _ => (n, Ok v) :: rest end) (n :: r).
Proof.
  intros n v rest r [Hin Hnd]. split.
  - intros k Hk. destruct v; [destruct Hk as [<-|Hk]; [left; reflexivity|]|]; right; apply Hin; exact Hk.
  - intros Hd. apply NoDup_cons_iff in Hd. destruct Hd as [Hn Hd].
    destruct v; [constructor|]; auto.
Qed.

Lemma prune_fields_keys : forall o ns fs, prune_fields o ns = Ok fs -> keys_within fs ns.
Proof.
  induction ns as [|n r IH]; intros fs H; cbn [prune_fields] in H.
  - injection H as <-. exact keys_within_nil.
  - apply obind_ok_inv in H as (v & _ & H). apply obind_ok_inv in H as (rest & P & H).
    injection H as <-. apply keys_within_step, IH, P.
Qed.

Lemma merge_patch_fields_keys : forall t p tf ns fs, merge_patch_fields t p tf ns = Ok fs -> keys_within fs ns.
Proof.
  induction ns as [|n r IH]; intros fs H; cbn [merge_patch_fields] in H.
  - injection H as <-. exact keys_within_nil.
  - apply obind_ok_inv in H as (_ & _ & H). apply obind_ok_inv in H as (v & _ & H).
    apply obind_ok_inv in H as (rest & P & H). injection H as <-. apply keys_within_step, IH, P.
Qed.

Lemma name_in_spec : forall n l, name_in n l = true <-> In n l.
Proof.
  induction l as [|k r IH]; cbn [name_in In]; [split; [discriminate | intros []]|].
  rewrite Bool.orb_true_iff, IH, name_eqb_eq. tauto.
Qed.

Lemma nodup_app : forall (l1 l2 : list name), NoDup l1 -> NoDup l2 ->
  (forall x, In x l1 -> ~ In x l2) -> NoDup (l1 ++ l2).
Proof.
  induction l1 as [|x r IH]; intros l2 H1 H2 Hd; cbn [app]; auto.
  apply NoDup_cons_iff in H1. destruct H1 as [Hx Hr]. constructor.
  - rewrite in_app_iff. intros [H|H]; [contradiction | exact (Hd x (or_introl eq_refl) H)].
  - apply IH; auto. intros y Hy. apply Hd. right. exact Hy.
Qed.

(* what the builtins return is well formed whatever they are given *)
Lemma wf_map_with_key : forall c x, wf_obj (map_with_key c x).
Proof.
  intros c x. apply wf_simple_obj. rewrite map_map. cbn [fst]. rewrite map_id. apply visible_nodup.
Qed.

Lemma wf_prune : forall x o, prune x = Ok o -> wf_obj o.
Proof.
  unfold prune. intros x o H.
  apply obind_ok_inv in H as (_ & _ & H). apply obind_ok_inv in H as (fs & P & H).
  injection H as <-. apply wf_simple_obj. apply (prune_fields_keys _ _ _ P). apply visible_nodup.
Qed.

Lemma wf_merge_patch : forall x y o, merge_patch x y = Ok o -> wf_obj o.
Proof.
  unfold merge_patch. intros x y o H.
  apply obind_ok_inv in H as (_ & _ & H). apply obind_ok_inv in H as (_ & _ & H).
  apply obind_ok_inv in H as (fs & P & H). injection H as <-.
  apply wf_simple_obj. rewrite map_app, map_map. cbn [fst]. rewrite map_id.
  destruct (merge_patch_fields_keys _ _ _ _ _ P) as [Hin Hnd].
  apply nodup_app.
  - apply NoDup_filter. apply visible_nodup.
  - apply Hnd. apply visible_nodup.
  - intros k Hk Hk2. apply filter_In in Hk. destruct Hk as [_ Hk]. apply Hin in Hk2.
    apply name_in_spec in Hk2. rewrite Hk2 in Hk. discriminate.
Qed.

Theorem build_wf : forall e o, wf_oexpr e -> build e = Ok o -> wf_obj o.
Proof.
  induction e as [l asr|a IHa b IHb|a IHa n|c a IHa|a IHa|a IHa b IHb]; intros o Hwf H; cbn [build wf_oexpr] in *.
  - injection H as <-. unfold wf_obj, layers. cbn. constructor; [exact Hwf | constructor].
  - destruct Hwf as [Ha Hb].
    apply obind_ok_inv in H as (x & Ex & H). apply obind_ok_inv in H as (y & Ey & H).
    injection H as <-. apply wf_extend; auto.
  - apply obind_ok_inv in H as (x & Ex & H). injection H as <-. apply wf_remove_key; auto.
  - apply obind_ok_inv in H as (x & Ex & H). injection H as <-. apply wf_map_with_key.
  - apply obind_ok_inv in H as (x & Ex & H). exact (wf_prune x o H).
  - apply obind_ok_inv in H as (x & Ex & H). apply obind_ok_inv in H as (y & Ey & H).
    exact (wf_merge_patch x y o H).
Qed.

Theorem build_assoc : forall a b c, build (OPlus (OPlus a b) c) = build (OPlus a (OPlus b c)).
Proof.
  intros a b c. cbn [build].
  destruct (build a) as [x| | |]; cbn [obind]; try reflexivity.
  destruct (build b) as [y| | |]; cbn [obind]; try reflexivity.
  destruct (build c) as [z| | |]; cbn [obind]; try reflexivity.
  rewrite extend_assoc. reflexivity.
Qed.

Definition self_entry (m : btmap) (nf : name * field) : btmap := bt_set m (fst nf) (field_to_state (snd nf) 0).

Module Old.
  (* enum FieldState { Normal(Visibility), Removed(usize) } with the Occupied arm
       Normal(Default) => if let ObjectField::Normal(f) = f { *entry = Normal(f.visibility) }
     i.e. a Removed marker met below a default-visibility field was ignored *)
  Definition merge_entry (layer_i : N) (m : btmap) (nf : name * field) : btmap :=
    let '(n, f) := nf in
    match bt_get m n with
    | None => bt_set m n (field_to_state f layer_i)
    | Some (SNormal Default _) =>
        match f with
        | Normal d => bt_set m n (SNormal (f_vis d) 0)
        | Removed _ => m
        end
    | Some (SNormal _ _) => m
    | Some (SRemoved removed_layer_i) =>
        if removed_layer_i <? layer_i then bt_set m n (field_to_state f layer_i) else m
    end.

  Fixpoint merge_layers (m : btmap) (layer_i : N) (ls : list layer) : btmap :=
    match ls with
    | [] => m
    | l :: r => merge_layers (fold_left (merge_entry layer_i) l m) (layer_i + 1) r
    end.

  Definition get_fields_order (o : obj) : list (name * vis) :=
    filter_map state_entry
      (merge_layers (fold_left self_entry (self_layer o) []) 1 (super_layers o)).

  Definition get_visible_fields_order (o : obj) : list name :=
    filter_map (fun nv : name * vis => match snd nv with Hidden => None | _ => Some (fst nv) end)
               (get_fields_order o).
End Old.

(* std.objectRemoveKey({a:: 1}, "a") + {a: 2} *)
Definition nm_a : name := [97].
Definition witness_obj : obj :=
  extend (remove_key (lit [(nm_a, Normal {| f_vis := Hidden; f_plus := false; f_body := BNum 1 |})]) nm_a)
         (lit [(nm_a, Normal {| f_vis := Default; f_plus := false; f_body := BNum 2 |})]).

Lemma witness_wf : wf_obj witness_obj.
Proof. apply wf_extend; [apply wf_remove_key|]; apply wf_lit; repeat constructor; intros []. Qed.

Lemma prefix_defect_witness :
  has_visible_field witness_obj nm_a = Ok true /\
  ~ In nm_a (Old.get_visible_fields_order witness_obj) /\
  In nm_a (get_visible_fields_order witness_obj) /\
  manifest witness_obj = Ok [(nm_a, VNum 2)].
Proof.
  split; [vm_compute; reflexivity|]. split; [vm_compute; intros []|].
  split; [vm_compute; left; reflexivity | vm_compute; reflexivity].
Qed.

(* a worked object: {a:: 1, b: 2} + std.objectRemoveKey({a::: 3, c::: self.a}, "a") + {a+: 4, b:: super.b} *)
Definition na : name := [97].
Definition nb : name := [98].
Definition nc : name := [99].
Definition mkf (v : vis) (p : bool) (b : body) : field := Normal {| f_vis := v; f_plus := p; f_body := b |}.
Definition example_obj : obj :=
  extend (extend (lit [(na, mkf Hidden false (BNum 1)); (nb, mkf Default false (BNum 2))])
                 (remove_key (lit [(na, mkf ForceVisible false (BNum 3)); (nc, mkf ForceVisible false (BSelf na))]) na))
         (lit [(na, mkf Default true (BNum 4)); (nb, mkf Hidden false (BSuper nb))]).

Lemma example_wf : wf_obj example_obj.
Proof.
  apply wf_extend; [apply wf_extend; [|apply wf_remove_key]|]; apply wf_lit;
    repeat constructor; cbn; intuition discriminate.
Qed.

Lemma asserts_extend : forall a b, asserts (extend a b) = asserts b ++ asserts a.
Proof. reflexivity. Qed.

Lemma asserts_remove_key : forall o n, asserts (remove_key o n) = [] :: asserts o.
Proof. reflexivity. Qed.

Lemma index_field_unknown : forall o n, has_field o 0 n = Ok false -> index_field o n = Err EUnknownField.
Proof.
  intros o n H. unfold has_field in H. unfold index_field.
  destruct (find_field o 0 n) as [[[j d]|]| | |]; cbn [obind] in *; try discriminate H. reflexivity.
Qed.

(* {x: 0} + {assert self.x != 0 : "m1"}: a layer without fields that matters *)
Definition nx : name := [120].
Definition assert_only : obj :=
  {| self_layer := []; super_layers := [];
     asserts := [[{| a_cond := BSelf nx; a_msg := Some 1 |}]] |}.
Definition zero_x : obj := lit [(nx, mkf Default false (BNum 0))].

Lemma assert_only_layer_matters :
  layers assert_only = [[]] /\
  index_field zero_x nx = Ok (VNum 0) /\
  index_field (extend zero_x assert_only) nx = Err (EAssert (Some 1)) /\
  manifest_checked (extend zero_x assert_only) = Err (EAssert (Some 1)) /\
  get_fields_order (extend zero_x assert_only) = get_fields_order zero_x.
Proof. vm_compute. repeat split. Qed.
