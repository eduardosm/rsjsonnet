(* Proofs/RefNoPanic_main.v — C01: the reference interpreter never answers Panic, part 3:
   builtins (arity), calls, equality / ordering (partial_cmp), manifestation, the expression
   evaluator, the knot, and the theorem on programs.  After RefScope_main.v (C02). *)
From RJ Require Import Base.Outcome Base.F64 Model.Token Model.Ast Model.RefCore Model.RefValue Model.RefEval.
From RJ Require Import Proofs.RefScope_defs Proofs.RefNoPanic_defs Proofs.RefNoPanic_proofs.
From Coq Require Import Lia.
Local Open Scope N_scope.

Lemma safe_all_m d : forall items, Forall nv_thunk items -> safe nv_value (all_m items d).
Proof. induction 1 as [|it r Hit Hr IH]; simpl; safe_tac. Qed.
Lemma safe_any_m d : forall items, Forall nv_thunk items -> safe nv_value (any_m items d).
Proof. induction 1 as [|it r Hit Hr IH]; simpl; safe_tac. Qed.
Lemma safe_sum_m d : forall items acc, Forall nv_thunk items -> safe nv_value (sum_m items acc d).
Proof. intros items acc H. revert acc. induction H as [|it r Hit Hr IH]; intros acc; simpl; safe_tac. Qed.
Lemma safe_flatten_m d : forall items acc, Forall nv_thunk items -> Forall nv_thunk acc -> safe nv_value (flatten_m items acc d).
Proof. intros items acc H. revert acc. induction H as [|it r Hit Hr IH]; intros acc Ha; simpl; safe_tac. Qed.
Lemma safe_contains_m x d : nv_value x -> forall items, Forall nv_thunk items -> safe nv_value (contains_m x items d).
Proof. intros Hx items H. induction H as [|it r Hit Hr IH]; simpl; safe_tac. Qed.
Lemma safe_count_m x d : nv_value x -> forall items n, Forall nv_thunk items -> safe nv_value (count_m x items n d).
Proof. intros Hx items n H. revert n. induction H as [|it r Hit Hr IH]; intros n; simpl; safe_tac. Qed.
Lemma char_thunks_nv s : Forall nv_thunk (char_thunks s).
Proof. unfold char_thunks. apply Forall_map_intro. intros. repeat constructor. Qed.
#[export] Hint Resolve safe_all_m safe_any_m safe_sum_m safe_flatten_m safe_contains_m safe_count_m char_thunks_nv : safe.
#[export] Hint Resolve char_thunks_nv : nv.

(* the RefEval:call_builtin:arity sites are unreachable when the argument list has the length of
   the builtin's parameter list — which is how do_apply calls it *)
Lemma safe_builtin1 bi a d : length (builtin_params bi) = 1%nat -> nv_thunk a -> safe nv_value (call_builtin bi [a] d).
Proof. intros Hn Ha. destruct bi; try discriminate Hn; unfold call_builtin; safe_tac. Qed.

Lemma safe_builtin2 bi a b d :
  length (builtin_params bi) = 2%nat -> nv_thunk a -> nv_thunk b -> safe nv_value (call_builtin bi [a; b] d).
Proof.
  intros Hn Ha Hb. destruct bi; try discriminate Hn; unfold call_builtin;
    (eapply safe_bind; [apply safe_forceT; eassumption|]; intros x Hx);
    try (eapply safe_bind; [apply safe_forceT; eassumption|]; intros y Hy).
  all: safe_tac.
  (* left, as in RefScope_main.v: the arrays built by mapping over a list; the fresh numbers are
     images of integers *)
  all: constructor.
  - (* makeArray *) apply Forall_map_intro. intros i _. repeat constructor; [exact Hy | apply nn_f_of_N].
  - (* map *) apply Forall_map_intro. intros c _. repeat constructor. exact Hx.
  - apply Forall_map_intro. intros it Hit. repeat constructor; [exact Hx | exact (Forall_in _ _ _ (nv_arr_inv _ Hy) Hit)].
  - (* range *) apply Forall_map_intro. intros i _. repeat constructor. apply nn_f_of_Z.
  - (* repeat *) apply Forall_concat, Forall_map_intro. intros _ _. apply nv_arr_inv, Hx.
  - (* mapWithIndex *) apply Forall_map_intro. intros p Hp. apply combine_in_r in Hp.
    repeat constructor; [exact Hx | apply nn_f_of_N | exact (Forall_in _ _ _ (char_thunks_nv s) Hp)].
  - apply Forall_map_intro. intros p Hp. apply combine_in_r in Hp.
    repeat constructor; [exact Hx | apply nn_f_of_N | exact (Forall_in _ _ _ (nv_arr_inv _ Hy) Hp)].
Qed.

Lemma safe_builtin3 bi a b c d :
  length (builtin_params bi) = 3%nat -> nv_thunk a -> nv_thunk b -> nv_thunk c -> safe nv_value (call_builtin bi [a; b; c] d).
Proof. intros Hn Ha Hb Hc. destruct bi; try discriminate Hn; unfold call_builtin; safe_tac. Qed.

Lemma safe_builtin4 bi a b c e d :
  length (builtin_params bi) = 4%nat -> nv_thunk a -> nv_thunk b -> nv_thunk c -> nv_thunk e ->
  safe nv_value (call_builtin bi [a; b; c; e] d).
Proof. intros Hn Ha Hb Hc He. destruct bi; try discriminate Hn; unfold call_builtin; safe_tac. Qed.

Lemma safe_call_builtin bi args d :
  Forall nv_thunk args -> length args = length (builtin_params bi) -> safe nv_value (call_builtin bi args d).
Proof.
  intros H Hn. symmetry in Hn. destruct H as [|a ? Ha [|b ? Hb [|c ? Hc [|e ? He [|]]]]].
  - destruct bi; discriminate Hn.
  - apply safe_builtin1; assumption.
  - apply safe_builtin2; assumption.
  - apply safe_builtin3; assumption.
  - apply safe_builtin4; assumption.
  - destruct bi; discriminate Hn.
Qed.

Lemma safe_bind_args ps pos named :
  safe (fun r => bind_args ps pos named = Ok r) (lift (bind_args ps pos named)).
Proof.
  intros c r _. unfold okres, lift. cbn [snd]. pose proof (bind_args_fails ps pos named) as H.
  destruct (bind_args ps pos named); [reflexivity | exact I | exact H | exact I].
Qed.

Lemma arg_thunks_nv ps fr : nv_env fr -> Forall nv_thunk (arg_thunks ps fr).
Proof. intros Hf. apply arg_thunks_all. intros x t. apply lookup_var_nv. exact Hf. Qed.

Lemma safe_force_args ts d : Forall nv_thunk ts -> safe any (force_args ts d).
Proof. intros H. unfold force_args. apply safe_iterM. intros t Ht. pose proof (Forall_in _ _ _ H Ht). safe_tac. Qed.
#[export] Hint Resolve safe_force_args : safe.

Lemma safe_do_apply fv pos named force d :
  nv_value fv -> Forall nv_thunk pos -> nv_vars named -> safe nv_value (do_apply fv pos named force d).
Proof.
  intros Hf Hp Hn. unfold do_apply. destruct fv; try solve [safe_tac].
  - inversion Hf as [| | | | | | ? ? ? He |]; subst.
    eapply safe_bind; [apply safe_bind_args|]. intros [b ds] Hb.
    destruct (bind_args_all nv_thunk _ _ _ _ _ Hb Hp Hn) as (Hwb & _).
    assert (Hfr : nv_env (FVars b ds :: env)) by (constructor; assumption).
    eapply safe_bind with (Q := any).
    { destruct force; [apply safe_force_args; apply arg_thunks_nv; exact Hfr | apply safe_ret_any]. }
    intros _ _. eapply safe_bind; [apply safe_enter|]. intros d' _. apply safe_eval. exact Hfr.
  - eapply safe_bind; [apply safe_bind_args|]. intros [bb ds] Hb.
    destruct (bind_args_all nv_thunk _ _ _ _ _ Hb Hp Hn) as (Hwb & Hds).
    assert (Hnil : ds = []).
    { destruct ds as [|[x de] r]; [reflexivity|]. exfalso. eapply builtin_params_no_default. apply Hds. left. reflexivity. }
    subst ds.
    eapply safe_bind; [apply safe_enter|]. intros d' _. apply safe_call_builtin.
    + apply arg_thunks_nv. constructor; [exact Hwb | constructor].
    + apply arg_thunks_length. apply (proj1 (RefSem_params.defaults_see_all_params _ _ _ _ _ [] Hb)).
Qed.
#[export] Hint Resolve safe_do_apply : safe.

Lemma safe_eq_items d : forall a b, Forall nv_thunk a -> Forall nv_thunk b -> safe any (eq_items a b d).
Proof.
  intros a b Ha. revert b. induction Ha as [|x ra Hx Hra IH]; intros b Hb; simpl; [apply safe_ret_any|].
  destruct Hb as [|y rb Hy Hrb]; safe_tac.
Qed.

Lemma safe_eq_fields la lb d : nv_layers la -> nv_layers lb -> forall names, safe any (eq_fields la lb names d).
Proof. intros Ha Hb. induction names as [|n r IH]; simpl; safe_tac. Qed.

Lemma safe_cmp_items d : forall a b, Forall nv_thunk a -> Forall nv_thunk b -> safe any (cmp_items a b d).
Proof.
  intros a b Ha. revert b. induction Ha as [|x ra Hx Hra IH]; intros b Hb; simpl; destruct Hb as [|y rb Hy Hrb]; safe_tac.
Qed.
#[export] Hint Resolve safe_eq_items safe_eq_fields safe_cmp_items : safe.

Lemma safe_do_equals a b d : nv_value a -> nv_value b -> safe any (do_equals a b d).
Proof.
  intros Ha Hb. unfold do_equals. destruct a, b; try apply safe_ret_any; try apply safe_kind.
  - destruct (lenN items =? lenN items0); [apply safe_eq_items; apply nv_arr_inv; assumption | apply safe_ret_any].
  - apply nv_obj_inv in Ha, Hb.
    destruct (list_str_eqb (visible_names layers) (visible_names layers0)); [|apply safe_ret_any].
    destruct (visible_names layers); [apply safe_ret_any|].
    eapply safe_bind; [apply safe_run_asserts; assumption|]. intros _ _.
    eapply safe_bind; [apply safe_run_asserts; assumption|]. intros _ _.
    apply safe_eq_fields; assumption.
Qed.

(* the partial_cmp().unwrap() site is unreachable: no number value is a NaN *)
Lemma safe_do_compare a b d : nv_value a -> nv_value b -> safe any (do_compare a b d).
Proof.
  intros Ha Hb. unfold do_compare. destruct a, b; try apply safe_kind; try apply safe_ret_any.
  - destruct (f_compare f f0) eqn:E; [apply safe_ret_any|]. exfalso.
    apply (nn_compare f f0); [apply nv_num_inv, Ha | apply nv_num_inv, Hb | exact E].
  - apply safe_cmp_items; apply nv_arr_inv; assumption.
Qed.

Lemma safe_do_manifest s v d : nv_value v -> safe any (do_manifest s v d).
Proof.
  intros Hv. unfold do_manifest. destruct v; try apply safe_ret_any; try solve [destruct s; auto with safe].
  - eapply safe_bind with (Q := Forall any); [|intros; apply safe_ret_any].
    apply safe_mapM. intros t Ht. pose proof (Forall_in _ _ _ (nv_arr_inv _ Hv) Ht).
    eapply safe_bind; [apply safe_enter|]. intros d' _.
    eapply safe_bind; [apply safe_forceT; assumption|]. intros x Hx. apply safe_manifest. assumption.
  - apply nv_obj_inv in Hv.
    eapply safe_bind; [apply safe_run_asserts; assumption|]. intros _ _.
    eapply safe_bind with (Q := Forall any); [|intros; apply safe_ret_any].
    apply safe_mapM. intros n Hn.
    eapply safe_bind; [apply safe_enter|]. intros d' _.
    eapply safe_bind; [apply safe_field_at; assumption|]. intros x Hx.
    eapply safe_bind; [apply safe_manifest; assumption|]. intros j _. apply safe_ret_any.
Qed.

Lemma safe_cond_bool v : safe any (cond_bool v).
Proof. unfold cond_bool. destruct v; auto with safe. Qed.
#[export] Hint Resolve safe_do_equals safe_do_compare safe_do_manifest safe_cond_bool : safe.

Lemma safe_do_eval en x d : nv_env en -> safe nv_value (do_eval en x d).
Proof.
  intros He. unfold do_eval. destruct x; try solve [safe_tac].
  - (* CSelf *)
    destruct (lookup_obj en) as [[[ls i] c]|] eqn:E; [|apply safe_fail]. apply safe_ret. constructor.
    eapply lookup_obj_nv; eassumption.
  - (* CVar *)
    destruct (lookup_var x en) as [t|] eqn:E; [|apply safe_fail].
    pose proof (lookup_var_nv _ _ _ He E). safe_tac.
  - (* CObject *)
    eapply safe_bind; [apply safe_build_fields; [exact He|constructor]|]. intros fs Hfs.
    apply safe_ret. constructor. constructor; [|constructor]. constructor; assumption.
  - (* CObjComp *)
    eapply safe_bind; [apply safe_comp_envs; exact He|]. intros envs Henvs.
    eapply safe_bind; [apply safe_build_comp_fields; [exact Henvs|constructor]|]. intros fs Hfs.
    apply safe_ret. constructor. constructor; [|constructor]. constructor; assumption.
  - (* CArray *)
    apply safe_ret. constructor. apply Forall_map_intro. intros e Hin. constructor. exact He.
  - (* CArrComp *)
    eapply safe_bind; [apply safe_comp_envs; exact He|]. intros envs Henvs.
    apply safe_ret. constructor. apply Forall_map_intro. intros e Hin.
    constructor. exact (Forall_in _ _ _ Henvs Hin).
  - (* CInSuper *)
    eapply safe_bind; [apply safe_eval; exact He|]. intros v Hv. destruct v; try solve [safe_tac].
    apply safe_with_super; auto. intros. apply safe_ret. constructor.
  - (* CCall *)
    eapply safe_bind; [apply safe_eval; assumption|]. intros fv Hfv. destruct (is_fun fv); [|safe_tac].
    eapply safe_bind; [apply safe_ask_ts_tail|]. intros ot _. apply safe_apply; [exact Hfv | |].
    + apply Forall_map_intro. intros e Hin. constructor. exact He.
    + unfold nv_vars. apply Forall_map_intro. intros p Hin. simpl. constructor. exact He.
  - (* CAssert *)
    eapply safe_bind; [apply safe_run_assert; assumption|]. intros _ _. apply safe_eval; assumption.
Qed.
#[export] Hint Resolve safe_do_eval : safe.

Lemma safe_do_force t d : nv_thunk t -> safe nv_value (do_force t d).
Proof. intros H. unfold do_force. destruct t; inversion H; subst; safe_tac. Qed.

Lemma safe_step_fn t d : nv_task t -> safe (kind_ok t) (step t d).
Proof.
  intros H. unfold step.
  destruct t; simpl in H; (eapply safe_bind; [|intros r Hr; apply safe_ret; first [exact Hr | exact I]]).
  - apply safe_do_eval; apply H.
  - apply safe_do_force, H.
  - apply safe_do_apply; apply H.
  - apply safe_do_field, H.
  - apply safe_do_equals; apply H.
  - apply safe_do_compare; apply H.
  - apply safe_do_manifest, H.
Qed.

Lemma run_task_ok : forall fuel c, rec_ok (run_task fuel c).
Proof.
  induction fuel as [|n IH]; intros c t d Ht.
  - exact I.
  - simpl. apply safe_step_fn; [exact Ht | apply IH].
Qed.

Lemma std_layer_nv : nv_layer std_layer.
Proof.
  unfold std_layer. constructor; [constructor|]. apply Forall_app_intro.
  - apply Forall_map_intro. intros r _ fe H. discriminate H.
  - apply Forall_map_intro. intros r _ fe H. discriminate H.
Qed.

Lemma init_env_nv : nv_env init_env.
Proof.
  unfold init_env. constructor; [|constructor]. constructor; [|constructor]. simpl.
  constructor. constructor. constructor; [apply std_layer_nv | constructor].
Qed.

Lemma safe_run_top x : safe any (run_top x).
Proof.
  unfold run_top.
  eapply safe_bind; [apply safe_eval; apply init_env_nv|]. intros v Hv.
  eapply safe_bind; [apply safe_manifest; exact Hv|]. intros j _.
  destruct (has_func j); [apply safe_kind | apply safe_ret_any].
Qed.

(* the reference interpreter never panics: on every core program, for every fuel, stack limit and
   setting of the two deviation switches — none of the sites RefEval:answer:value/bool/cmp/json,
   RefEval:do_field:layer, RefEval:call_builtin:arity, eval/mod.rs:CompareValue:partial_cmp().unwrap()
   is reachable *)
Theorem run_core_no_panic : forall x fuel c site, snd (run_core fuel c x) <> Panic site.
Proof.
  intros x fuel c site Hs. unfold run_core in Hs.
  pose proof (safe_run_top x c (run_task fuel c) (run_task_ok fuel c)) as H. unfold okres in H.
  rewrite Hs in H. exact H.
Qed.

Theorem run_no_panic : forall e fuel c site, snd (run fuel c e) <> Panic site.
Proof. intros e fuel c site. apply run_core_no_panic. Qed.
