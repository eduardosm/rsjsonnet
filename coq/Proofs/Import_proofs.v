(* Proofs/Import_proofs.v — Model/Import.v (property C13): an import resolves to the first
   existing candidate in search order (the importer's directory, then the -J paths, a later -J
   first; an absolute path is its own only candidate) and depends on the world only through which
   candidates exist; a canonical path is loaded once and keeps the spelling of its first load;
   importbin gives the bytes, importstr their lossy decoding; a missing or unreadable file is an
   import error at the import site; [force] and [manifest] keep the invariant that every
   canonical path is loaded, and every file evaluated, at most once; the lossy decoder is exact
   on a well-formed prefix. *)
From RJ Require Import Base.Outcome Model.Import.
From Coq Require Import Lia.
Local Open Scope N_scope.

Lemma str_eqb_refl : forall s, str_eqb s s = true.
Proof. induction s as [|c s IH]; cbn; [reflexivity|]. rewrite N.eqb_refl, IH. reflexivity. Qed.

Lemma str_eqb_eq : forall a b, str_eqb a b = true <-> a = b.
Proof.
  induction a as [|x a IH]; destruct b as [|y b]; cbn; split; intros H; try reflexivity; try discriminate.
  - apply andb_true_iff in H. destruct H as [H1 H2]. apply N.eqb_eq in H1. apply IH in H2. subst. reflexivity.
  - inversion H; subst. rewrite N.eqb_refl. cbn. apply IH. reflexivity.
Qed.

Lemma find_map_some {A B} (f : B -> bool) (g : A -> B) (l : list A) (q : B) :
  find f (map g l) = Some q <->
  exists pre b post, l = pre ++ b :: post /\ q = g b /\ f (g b) = true /\
                     Forall (fun b' => f (g b') = false) pre.
Proof.
  split.
  - induction l as [|a l IH]; cbn; [discriminate|]. destruct (f (g a)) eqn:Ha; intros H.
    + inversion H; subst. exists [], a, l. auto.
    + destruct (IH H) as (pre & b & post & -> & Hq & Hb & Hpre). exists (a :: pre), b, post. auto.
  - intros (pre & b & post & -> & -> & Hb & Hpre).
    induction Hpre as [|a pre Ha _ IH]; cbn; [rewrite Hb; reflexivity|]. rewrite Ha. exact IH.
Qed.

Lemma find_map_none {A B} (f : B -> bool) (g : A -> B) (l : list A) :
  find f (map g l) = None <-> Forall (fun b => f (g b) = false) l.
Proof.
  induction l as [|a l IH]; cbn.
  - split; auto.
  - destruct (f (g a)) eqn:Ha.
    + split; [discriminate|]. intros H. inversion H; subst. congruence.
    + rewrite IH. split; intros H; [constructor; auto | inversion H; auto].
Qed.

(* the length test in [nthN] only repeats what [nth_error] does *)
Lemma nthN_nth_error {A} (l : list A) i : nthN l i = nth_error l (N.to_nat i).
Proof.
  unfold nthN. destruct (N.leb_spec (N.of_nat (length l)) i); [|reflexivity].
  symmetry. apply nth_error_None. lia.
Qed.

Lemma nthN_app_some {A} (l l' : list A) i v : nthN l i = Some v -> nthN (l ++ l') i = Some v.
Proof.
  rewrite !nthN_nth_error. intros H. rewrite nth_error_app1; [exact H|].
  apply nth_error_Some. congruence.
Qed.

Lemma nthN_app_last {A} (l : list A) x : nthN (l ++ [x]) (N.of_nat (length l)) = Some x.
Proof.
  rewrite nthN_nth_error, Nnat.Nat2N.id, nth_error_app2, PeanoNat.Nat.sub_diag by lia. reflexivity.
Qed.

Lemma nth_error_set_nth_same {A} (l : list A) i x :
  (i < length l)%nat -> nth_error (set_nth l i x) i = Some x.
Proof. revert i. induction l; destruct i; cbn; intros; try lia; auto. apply IHl. lia. Qed.

Lemma nth_error_set_nth_other {A} (l : list A) i j x :
  i <> j -> nth_error (set_nth l i x) j = nth_error l j.
Proof. revert i j. induction l; destruct i, j; cbn; intros; try congruence; auto. Qed.

Lemma nthN_setN_same {A} (l : list A) i x v : nthN l i = Some v -> nthN (setN l i x) i = Some x.
Proof.
  rewrite nthN_nth_error. intros H.
  assert (Hlt : (N.to_nat i < length l)%nat) by (apply nth_error_Some; congruence).
  unfold setN. destruct (N.leb_spec (N.of_nat (length l)) i); [lia|].
  rewrite nthN_nth_error. apply nth_error_set_nth_same. exact Hlt.
Qed.

Lemma nthN_setN_other {A} (l : list A) i j x : i <> j -> nthN (setN l i x) j = nthN l j.
Proof.
  intros Hne. unfold setN. destruct (N.leb_spec (N.of_nat (length l)) i); [reflexivity|].
  rewrite !nthN_nth_error. apply nth_error_set_nth_other. lia.
Qed.

Section WorldProofs.
  Variable fs : path -> node.
  Variable canon : path -> path.
  Variable prog_of : list N -> option prog.

  Notation exists_ := (exists_ fs).
  Notation find_import := (find_import fs).
  Notation load_real_file := (load_real_file fs canon prog_of).
  Notation cb_import := (cb_import fs canon prog_of).
  Notation cb_import_bin := (cb_import_bin fs).
  Notation cb_import_str := (cb_import_str fs).
  Notation eval_expr := (eval_expr fs canon prog_of).

  Theorem search_order : forall st from p q,
    is_absolute p = false ->
    (find_import st from p = Some q <->
     exists pre b post, bases st from = pre ++ b :: post /\ q = join b p /\
                        exists_ (join b p) = true /\
                        Forall (fun b' => exists_ (join b' p) = false) pre).
  Proof.
    intros st from p q Hrel. unfold Import.find_import. rewrite Hrel.
    unfold candidates. apply find_map_some.
  Qed.

  (* the search paths are the -J options reversed: a later -J is tried earlier *)
  Theorem rightmost_J_wins : forall st from p l1 d l2,
    is_absolute p = false ->
    s_search st = rev (l1 ++ d :: l2) ->
    (forall d0, from_dir st from = Some d0 -> exists_ (join d0 p) = false) ->
    exists_ (join d p) = true ->
    Forall (fun d' => exists_ (join d' p) = false) l2 ->
    find_import st from p = Some (join d p).
  Proof.
    intros st from p l1 d l2 Hrel Hs Hfrom Hd Hl2. apply search_order; [assumption|].
    unfold bases. rewrite Hs, rev_app_distr. cbn [rev]. rewrite <- app_assoc. cbn [app].
    destruct (from_dir st from) as [d0|] eqn:Hfd.
    - exists (d0 :: rev l2), d, (rev l1). repeat split; auto.
      constructor; [apply Hfrom; reflexivity|].
      apply Forall_rev. assumption.
    - exists (rev l2), d, (rev l1). repeat split; auto. apply Forall_rev. assumption.
  Qed.

  Theorem absolute_bypass : forall st from p,
    is_absolute p = true ->
    find_import st from p = if exists_ p then Some p else None.
  Proof. intros st from p H. unfold Import.find_import. rewrite H. reflexivity. Qed.

  Theorem resolution_deterministic : forall st1 st2 from1 from2 p,
    s_search st1 = s_search st2 ->
    from_dir st1 from1 = from_dir st2 from2 ->
    find_import st1 from1 p = find_import st2 from2 p.
  Proof.
    intros st1 st2 from1 from2 p Hs Hf. unfold Import.find_import, candidates, bases.
    rewrite Hs, Hf. reflexivity.
  Qed.

  Lemma canonicalize_ok : forall p, exists_ p = true -> canonicalize fs canon p = inr (canon p).
  Proof.
    intros p H. unfold Import.exists_ in H. unfold canonicalize.
    destruct (fs p); try discriminate; reflexivity.
  Qed.

  Lemma load_ok_exists : forall st p st1 sid,
    load_real_file st p = (st1, inr sid) -> exists_ p = true.
  Proof.
    intros st p st1 sid H. unfold Import.load_real_file, canonicalize in H.
    unfold Import.exists_. destruct (fs p); try reflexivity; inversion H.
  Qed.

  Lemma load_ok_cached : forall st p st1 sid,
    load_real_file st p = (st1, inr sid) -> assoc_path (canon p) (s_cache st1) = Some sid.
  Proof.
    intros st p st1 sid H. pose proof (load_ok_exists _ _ _ _ H) as He.
    unfold Import.load_real_file in H. rewrite (canonicalize_ok _ He) in H.
    destruct (assoc_path (canon p) (s_cache st)) as [s|] eqn:Hc.
    - inversion H; subst. assumption.
    - destruct (read fs p) as [e|data]; [inversion H|].
      destruct (prog_of data); inversion H; subst. cbn. rewrite str_eqb_refl. reflexivity.
  Qed.

  (* two spellings with the same canonical path: the second load is a cache hit —
     no read, no new source, no new thunk, the session is unchanged *)
  Theorem cache_by_canonical : forall st p1 st1 sid p2,
    load_real_file st p1 = (st1, inr sid) ->
    exists_ p2 = true ->
    canon p2 = canon p1 ->
    load_real_file st1 p2 = (st1, inr sid).
  Proof.
    intros st p1 st1 sid p2 H1 He Hc. pose proof (load_ok_cached _ _ _ _ H1) as Hk.
    unfold Import.load_real_file. rewrite (canonicalize_ok _ He), Hc, Hk. reflexivity.
  Qed.

  (* std.thisFile / the importer directory: the spelling of the first load stays *)
  Theorem thisfile_is_as_loaded : forall st p1 st1 sid,
    load_real_file st p1 = (st1, inr sid) ->
    assoc_path (canon p1) (s_cache st) = None ->
    repr_path st1 sid = p1 /\
    forall p2 st2 sid2, exists_ p2 = true -> canon p2 = canon p1 ->
      load_real_file st1 p2 = (st2, inr sid2) -> sid2 = sid /\ repr_path st2 sid2 = p1.
  Proof.
    intros st p1 st1 sid H Hn. pose proof (load_ok_exists _ _ _ _ H) as He.
    assert (Hr : repr_path st1 sid = p1).
    { unfold Import.load_real_file in H. rewrite (canonicalize_ok _ He), Hn in H.
      destruct (read fs p1) as [e|data]; [inversion H|].
      destruct (prog_of data); inversion H; subst.
      unfold repr_path; cbn [s_sources]. rewrite nthN_app_last. reflexivity. }
    split; [assumption|].
    intros p2 st2 sid2 He2 Hc H2. rewrite (cache_by_canonical _ _ _ _ _ H He2 Hc) in H2.
    inversion H2; subst. auto.
  Qed.

  Theorem importbin_exact : forall st from p q b,
    find_import st from p = Some q -> fs q = File b ->
    cb_import_bin st from p = (with_log st (EvRead q), inr b).
  Proof.
    intros st from p q b Hf Hq. unfold Import.cb_import_bin, read. rewrite Hf, Hq. reflexivity.
  Qed.

  Theorem importstr_is_lossy_decode : forall st from p q b,
    find_import st from p = Some q -> fs q = File b ->
    cb_import_str st from p = (with_log st (EvRead q), inr (lossy b)).
  Proof.
    intros st from p q b Hf Hq. unfold Import.cb_import_str.
    rewrite (importbin_exact _ _ _ _ _ Hf Hq). reflexivity.
  Qed.

  Theorem missing_is_import_error_at_site : forall forcef st sid pos p,
    find_import st (Some sid) p = None ->
    let st' := with_log st (EvMsg WNotFound p) in
    let e := Err (ImportFailed WNotFound (repr_path st sid) pos p) in
    eval_expr forcef sid pos (IImport p) st = (st', e) /\
    eval_expr forcef sid pos (IImportStr p) st = (st', e) /\
    eval_expr forcef sid pos (IImportBin p) st = (st', e).
  Proof.
    intros forcef st sid pos p Hf. cbn.
    unfold Import.cb_import, Import.cb_import_str, Import.cb_import_bin. rewrite Hf. auto.
  Qed.

  (* a directory or an unreadable file where the search stops: the search does not
     go on to later candidates, the import fails at its site *)
  Theorem unreadable_is_import_error_at_site : forall forcef st sid pos p q,
    find_import st (Some sid) p = Some q ->
    (fs q = Dir \/ fs q = Unreadable) ->
    exists e,
      read fs q = inl e /\
      eval_expr forcef sid pos (IImportStr p) st =
        (with_log st (EvMsg (WRead e) q), Err (ImportFailed (WRead e) (repr_path st sid) pos p)) /\
      eval_expr forcef sid pos (IImportBin p) st =
        (with_log st (EvMsg (WRead e) q), Err (ImportFailed (WRead e) (repr_path st sid) pos p)) /\
      (assoc_path (canon q) (s_cache st) = None ->
       eval_expr forcef sid pos (IImport p) st =
        (with_log st (EvMsg (WRead e) q), Err (ImportFailed (WRead e) (repr_path st sid) pos p))).
  Proof.
    intros forcef st sid pos p q Hf Hq.
    assert (He : exists e, read fs q = inl e /\ exists_ q = true).
    { unfold read, Import.exists_. destruct Hq as [Hq|Hq]; rewrite Hq; eauto. }
    destruct He as (e & He & Hex). exists e. split; [assumption|].
    cbn. unfold Import.cb_import, Import.cb_import_str, Import.cb_import_bin. rewrite Hf, He.
    repeat split; auto.
    intros Hn. unfold Import.load_real_file. rewrite (canonicalize_ok _ Hex), Hn, He. reflexivity.
  Qed.
End WorldProofs.

(* resolution looks at the world only through the existence of the candidates *)
Theorem resolution_depends_only_on_existence : forall fs1 fs2 st from p,
  (forall q, In q (p :: candidates st from p) -> exists_ fs1 q = exists_ fs2 q) ->
  find_import fs1 st from p = find_import fs2 st from p.
Proof.
  intros fs1 fs2 st from p H. unfold find_import.
  destruct (is_absolute p).
  - rewrite (H p) by (left; reflexivity). reflexivity.
  - assert (Hc : forall q, In q (candidates st from p) -> exists_ fs1 q = exists_ fs2 q)
      by (intros q Hq; apply H; right; assumption).
    clear H. induction (candidates st from p) as [|c l IH]; cbn; [reflexivity|].
    rewrite (Hc c) by (left; reflexivity). destruct (exists_ fs2 c); [reflexivity|].
    apply IH. intros q Hq. apply Hc. right. assumption.
Qed.

(* whole-run invariants: every canonical path is loaded at most once,
   every file is evaluated at most once *)

Definition loaded_cps (st : session) : list path :=
  flat_map (fun e => match e with EvLoaded _ cp _ => [cp] | _ => [] end) (s_log st).
Definition evaled (st : session) : list N :=
  flat_map (fun e => match e with EvEval sid _ => [sid] | _ => [] end) (s_log st).
Definition thunk (st : session) (sid : N) : option tstate := nthN (s_thunks st) sid.
Definition is_done (o : option tstate) : Prop := exists n l, o = Some (TDone n l).
Definition cached (st : session) (cp : path) : Prop := assoc_path cp (s_cache st) <> None.

Definition inv (st : session) : Prop :=
  NoDup (loaded_cps st) /\ NoDup (evaled st) /\
  (forall cp, In cp (loaded_cps st) -> cached st cp) /\
  (forall sid, In sid (evaled st) -> is_done (thunk st sid)).

Definition le (st st' : session) : Prop :=
  (forall cp, cached st cp -> cached st' cp) /\
  (forall x, is_done (thunk st x) -> is_done (thunk st' x)) /\
  (forall x, thunk st x = Some TInProgress ->
             thunk st' x = Some TInProgress /\ (In x (evaled st') -> In x (evaled st))).

Lemma le_refl : forall st, le st st.
Proof. intros st. repeat split; auto. Qed.

Lemma le_trans : forall a b c, le a b -> le b c -> le a c.
Proof.
  intros a b c (A1 & A2 & A3) (B1 & B2 & B3). repeat split; auto.
  - apply A3 in H. destruct H as [H _]. apply B3 in H. tauto.
  - intros Hc. pose proof (A3 _ H) as [Hb Hab]. pose proof (B3 _ Hb) as [_ Hbc]. auto.
Qed.

Definition good {X} (f : session -> session * X) : Prop :=
  forall st, inv st -> inv (fst (f st)) /\ le st (fst (f st)).

Lemma thunk_with_thunk_same : forall st sid t v,
  thunk st sid = Some v -> thunk (with_thunk st sid t) sid = Some t.
Proof. intros. unfold thunk in *. cbn. eapply nthN_setN_same; eauto. Qed.

Lemma thunk_with_thunk_other : forall st sid t x,
  x <> sid -> thunk (with_thunk st sid t) x = thunk st x.
Proof. intros. unfold thunk. cbn. apply nthN_setN_other. congruence. Qed.

(* log entries that are neither a load nor an evaluation *)
Definition quiet (e : event) : Prop :=
  match e with EvRead _ | EvMsg _ _ => True | _ => False end.

Lemma with_log_quiet : forall e, quiet e -> good (fun st => (with_log st e, tt)).
Proof.
  intros e He st Hi. cbn [fst].
  assert (Hl : loaded_cps (with_log st e) = loaded_cps st) by (destruct e; cbn in He; try tauto; reflexivity).
  assert (Hv : evaled (with_log st e) = evaled st) by (destruct e; cbn in He; try tauto; reflexivity).
  split.
  - destruct Hi as (I1 & I2 & I3 & I4). unfold inv. rewrite Hl, Hv. repeat split; auto.
  - unfold le. rewrite Hv. repeat split; auto.
Qed.

Ltac quiet_step :=
  cbn [fst];
  first [ apply (with_log_quiet (EvMsg _ _) I) | apply (with_log_quiet (EvRead _) I) ]; assumption.

Lemma good_fst {X Y} (f : session -> session * X) (g : session -> session * Y) :
  (forall st, fst (f st) = fst (g st)) -> good f -> good g.
Proof. intros H Hf st Hi. rewrite <- H. apply Hf. assumption. Qed.

(* replacing a thunk: the invariant survives if an evaluated file stays computed; the
   order holds if the thunk was not in progress and a computed one stays computed *)
Lemma with_thunk_inv : forall st sid t v,
  inv st -> thunk st sid = Some v -> (In sid (evaled st) -> is_done (Some t)) ->
  inv (with_thunk st sid t).
Proof.
  intros st sid t v (I1 & I2 & I3 & I4) Hv Hd. repeat split; auto.
  intros x Hx. destruct (N.eq_dec x sid) as [->|Hne].
  - rewrite (thunk_with_thunk_same _ _ _ _ Hv). auto.
  - rewrite thunk_with_thunk_other by assumption. auto.
Qed.

Lemma with_thunk_le : forall st sid t v,
  thunk st sid = Some v -> v <> TInProgress -> (is_done (Some v) -> is_done (Some t)) ->
  le st (with_thunk st sid t).
Proof.
  intros st sid t v Hv Hnp Hd. repeat split; auto.
  - intros x Hx. destruct (N.eq_dec x sid) as [->|Hne].
    + rewrite (thunk_with_thunk_same _ _ _ _ Hv). apply Hd. rewrite <- Hv. exact Hx.
    + rewrite thunk_with_thunk_other by assumption. exact Hx.
  - destruct (N.eq_dec x sid) as [->|Hne]; [congruence|].
    rewrite thunk_with_thunk_other by assumption. assumption.
Qed.

(* registering a source: one more thunk at the end, nothing evaluated, and either the
   cache and the loads as they were or one load under a canonical path not cached so far *)
Lemma grow_good : forall st st' t,
  inv st -> s_thunks st' = s_thunks st ++ [t] -> evaled st' = evaled st ->
  (s_cache st' = s_cache st /\ loaded_cps st' = loaded_cps st \/
   exists cp sid, assoc_path cp (s_cache st) = None /\
     s_cache st' = (cp, sid) :: s_cache st /\ loaded_cps st' = cp :: loaded_cps st) ->
  inv st' /\ le st st'.
Proof.
  intros st st' t (I1 & I2 & I3 & I4) Ht Hev Hc.
  assert (Hth : forall x v, thunk st x = Some v -> thunk st' x = Some v)
    by (intros x v; unfold thunk; rewrite Ht; apply nthN_app_some).
  assert (Hdone : forall x, is_done (thunk st x) -> is_done (thunk st' x))
    by (intros x (n & l & Hd); exists n, l; auto).
  assert (Hca : forall cp, cached st cp -> cached st' cp).
  { unfold cached. destruct Hc as [[-> _]|(cp & sid & _ & -> & _)]; [auto|].
    intros cp' H. cbn. destruct (str_eqb cp' cp); [discriminate|exact H]. }
  split.
  - unfold inv. rewrite Hev. repeat split; auto.
    + destruct Hc as [[_ ->]|(cp & sid & Hn & _ & ->)]; [exact I1|].
      constructor; [|exact I1]. intros Hin. exact (I3 _ Hin Hn).
    + destruct Hc as [[_ ->]|(cp & sid & Hn & Hcache & ->)]; [auto|].
      intros cp' [<-|Hin]; [|auto]. unfold cached. rewrite Hcache. cbn. rewrite str_eqb_refl. discriminate.
  - unfold le. rewrite Hev. repeat split; auto.
Qed.

Section InvProofs.
  Variable fs : path -> node.
  Variable canon : path -> path.
  Variable prog_of : list N -> option prog.

  Lemma load_good : forall p, good (fun st => load_real_file fs canon prog_of st p).
  Proof.
    intros p st Hi. unfold Import.load_real_file.
    destruct (canonicalize fs canon p) as [[]|cp].
    1-4: quiet_step.
    destruct (assoc_path cp (s_cache st)) as [sid|] eqn:Hc.
    { cbn. split; [assumption|apply le_refl]. }
    destruct (read fs p) as [e|data].
    { quiet_step. }
    destruct (prog_of data) as [pr|]; cbn [fst];
      (eapply grow_good; [exact Hi|reflexivity|reflexivity|]).
    - right. exists cp, (N.of_nat (length (s_sources st))). auto.
    - left. auto.
  Qed.

  Lemma load_virt_good : forall repr data, good (fun st => load_virt_file prog_of st repr data).
  Proof.
    intros repr data st Hi. unfold load_virt_file.
    destruct (prog_of data) as [pr|]; cbn [fst];
      (eapply grow_good; [exact Hi|reflexivity|reflexivity|left; auto]).
  Qed.

  Lemma cb_import_good : forall from p, good (fun st => cb_import fs canon prog_of st from p).
  Proof.
    intros from p st Hi. unfold Import.cb_import.
    destruct (find_import fs st from p).
    - apply load_good. assumption.
    - quiet_step.
  Qed.

  Lemma cb_import_bin_good : forall from p, good (fun st => cb_import_bin fs st from p).
  Proof.
    intros from p st Hi. unfold Import.cb_import_bin.
    destruct (find_import fs st from p) as [q|].
    - destruct (read fs q); quiet_step.
    - quiet_step.
  Qed.

  Lemma cb_import_str_good : forall from p, good (fun st => cb_import_str fs st from p).
  Proof.
    intros from p st Hi. unfold Import.cb_import_str.
    pose proof (cb_import_bin_good from p st Hi) as H.
    destruct (cb_import_bin fs st from p) as [st' [w|d]]; exact H.
  Qed.

  Lemma eval_expr_good : forall forcef sid pos e,
    (forall s, good (forcef s)) -> good (eval_expr fs canon prog_of forcef sid pos e).
  Proof.
    intros forcef sid pos e Hf st Hi. destruct e; cbn.
    - pose proof (cb_import_good (Some sid) p st Hi) as H.
      destruct (cb_import fs canon prog_of st (Some sid) p) as [st' [w|sid']]; cbn [fst] in *; [exact H|].
      destruct H as [H1 H2]. pose proof (Hf sid' st' H1) as [H3 H4].
      destruct (forcef sid' st') as [st'' []]; cbn [fst] in *; split; eauto using le_trans.
    - pose proof (cb_import_str_good (Some sid) p st Hi) as H.
      destruct (cb_import_str fs st (Some sid) p) as [st' [w|d]]; exact H.
    - pose proof (cb_import_bin_good (Some sid) p st Hi) as H.
      destruct (cb_import_bin fs st (Some sid) p) as [st' [w|d]]; exact H.
    - split; [assumption|apply le_refl].
    - split; [assumption|apply le_refl].
  Qed.

  Lemma eval_strict_good : forall forcef sid es pos,
    (forall s, good (forcef s)) -> good (eval_strict fs canon prog_of forcef sid pos es).
  Proof.
    intros forcef sid es. induction es as [|e es IH]; intros pos Hf st Hi; cbn.
    - split; [assumption|apply le_refl].
    - pose proof (eval_expr_good forcef sid pos e Hf st Hi) as [H1 H2].
      destruct (eval_expr fs canon prog_of forcef sid pos e st) as [st' []]; cbn [fst] in *; auto.
      pose proof (IH (pos + 1) Hf st' H1) as [H3 H4]. split; eauto using le_trans.
  Qed.

  Lemma force_good : forall fuel sid, good (force fs canon prog_of fuel sid).
  Proof.
    induction fuel as [|f IH]; intros sid st Hi; cbn.
    - split; [assumption|apply le_refl].
    - fold (thunk st sid). destruct (thunk st sid) as [[|pr| |n l]|] eqn:Ht; cbn [fst];
        try (split; [assumption|apply le_refl]).
      (* Pending: the thunk is in progress while the strict part runs *)
      set (st0 := with_thunk st sid TInProgress).
      assert (Hsame0 : thunk st0 sid = Some TInProgress) by (eapply thunk_with_thunk_same; eauto).
      assert (Hnotin : ~ In sid (evaled st)).
      { intros Hin. destruct Hi as (_ & _ & _ & I4). destruct (I4 _ Hin) as (n & l & Hd). congruence. }
      assert (Hi0 : inv st0) by (eapply with_thunk_inv; eauto; intros Hin; contradiction).
      assert (Hle0 : le st st0)
        by (eapply with_thunk_le; eauto; [discriminate|intros (n & l & Hd); discriminate]).
      pose proof (eval_strict_good (force fs canon prog_of f) sid (p_strict pr) 0 IH st0 Hi0) as [H1 H2].
      destruct (eval_strict fs canon prog_of (force fs canon prog_of f) sid 0 (p_strict pr) st0) as [st' r].
      cbn [fst] in H1, H2.
      destruct r; cbn [fst]; try (split; [assumption|eapply le_trans; eauto]).
      (* strict part succeeded: the file's value is computed now *)
      destruct (proj2 (proj2 H2) _ Hsame0) as [Hprog Hev].
      pose proof (le_trans _ _ _ Hle0 H2) as (L1 & L2 & L3).
      set (t := TDone (N.of_nat (length (p_strict pr))) (map ELazy (p_items pr))).
      set (st2 := with_thunk (with_log st' (EvEval sid (p_tag pr))) sid t).
      assert (Hsame : thunk st2 sid = Some t) by (eapply thunk_with_thunk_same; exact Hprog).
      assert (Hoth : forall x, x <> sid -> thunk st2 x = thunk st' x)
        by (intros; unfold st2; rewrite thunk_with_thunk_other by assumption; reflexivity).
      assert (Hdone : is_done (Some t)) by (eexists _, _; reflexivity).
      destruct H1 as (J1 & J2 & J3 & J4).
      split.
      + unfold inv. change (loaded_cps st2) with (loaded_cps st'). change (evaled st2) with (sid :: evaled st').
        repeat split; auto.
        * constructor; [|exact J2]. intros Hin. apply Hnotin, Hev, Hin.
        * intros x [<-|Hx]; [rewrite Hsame; exact Hdone|].
          destruct (N.eq_dec x sid) as [->|Hne]; [rewrite Hsame; exact Hdone|]. rewrite Hoth by assumption. auto.
      + unfold le. change (evaled st2) with (sid :: evaled st'). repeat split.
        * exact L1.
        * intros x Hx. destruct (N.eq_dec x sid) as [->|Hne]; [rewrite Hsame; exact Hdone|].
          rewrite Hoth by assumption. auto.
        * destruct (N.eq_dec x sid) as [->|Hne]; [congruence|]. rewrite Hoth by assumption. apply L3. assumption.
        * intros [<-|Hin]; [congruence|]. exact (proj2 (L3 _ H) Hin).
  Qed.

  Lemma manifest_items_good : forall forcef manifestf sid nstrict k j acc,
    (forall s, good (forcef s)) -> (forall s, good (manifestf s)) ->
    good (manifest_items fs canon prog_of forcef manifestf sid nstrict k j acc).
  Proof.
    intros forcef manifestf sid nstrict k. induction k as [|k IH]; intros j acc Hf Hm st Hi; cbn.
    - split; [assumption|apply le_refl].
    - destruct (items_of st sid) as [[n0 items]|] eqn:Hit; [|split; [assumption|apply le_refl]].
      destruct (nthN items j) as [it|]; [|split; [assumption|apply le_refl]].
      (* the element's evaluation, with the memoisation of its value, as one step *)
      match goal with |- context [match ?R with (st1, _) => _ end] => set (step := R) end.
      assert (Hstep : inv (fst step) /\ le st (fst step)).
      { subst step. destruct it as [e|v]; [|split; [assumption|apply le_refl]].
        pose proof (eval_expr_good forcef sid (nstrict + j) e Hf st Hi) as [H1 H2].
        destruct (eval_expr fs canon prog_of forcef sid (nstrict + j) e st) as [st' []]; cbn [fst] in *; auto.
        destruct (items_of st' sid) as [[n1 items']|] eqn:Hit'; auto.
        unfold items_of in Hit'. fold (thunk st' sid) in Hit'.
        destruct (thunk st' sid) as [[| | |n2 l2]|] eqn:Ht'; try discriminate.
        assert (Hd : is_done (Some (TDone nstrict (setN items' j (EDone a))))) by (eexists _, _; reflexivity).
        split; [eapply with_thunk_inv; eauto|].
        eapply le_trans; [exact H2|]. eapply with_thunk_le; eauto. discriminate. }
      destruct step as [st1 r1]. cbn [fst] in Hstep. destruct Hstep as [H1 H2].
      destruct r1 as [[s|b|sid']| | |]; try (split; assumption).
      + pose proof (IH (j + 1) (VStr s :: acc) Hf Hm st1 H1) as [H3 H4]. split; eauto using le_trans.
      + pose proof (IH (j + 1) (VBytes b :: acc) Hf Hm st1 H1) as [H3 H4]. split; eauto using le_trans.
      + pose proof (Hm sid' st1 H1) as [H3 H4].
        destruct (manifestf sid' st1) as [st2 [a| | |]]; cbn [fst] in *;
          [|split; [assumption|eapply le_trans; eassumption] ..].
        pose proof (IH (j + 1) (a :: acc) Hf Hm st2 H3) as [H5 H6].
        split; [assumption|]. eapply le_trans; [eassumption|]. eapply le_trans; eassumption.
  Qed.

  Lemma manifest_good : forall fuel sid, good (manifest fs canon prog_of fuel sid).
  Proof.
    induction fuel as [|f IH]; intros sid st Hi; cbn.
    - split; [assumption|apply le_refl].
    - destruct (items_of st sid) as [[n items]|]; [|split; [assumption|apply le_refl]].
      apply manifest_items_good; auto. intros s. apply force_good.
  Qed.

  Lemma inv_new : forall search, inv (new_session search).
  Proof. intros. repeat split; cbn; try constructor; intros; contradiction. Qed.

  (* every run, whatever the tree, the options and the outcome, ends in a session that
     satisfies the invariant: no canonical path loaded twice, no file evaluated twice *)
  Lemma run_main_inv : forall fuel jpaths main,
    inv (fst (run_main fs canon prog_of fuel jpaths main)).
  Proof.
    intros fuel jpaths main. unfold run_main.
    pose proof (load_good main (cli_session jpaths) (inv_new _)) as [H1 _].
    destruct (load_real_file fs canon prog_of (cli_session jpaths) main) as [st [w|sid]]; cbn [fst] in *; [assumption|].
    pose proof (force_good fuel sid st H1) as [H2 _].
    destruct (force fs canon prog_of fuel sid st) as [st' []]; cbn [fst] in *; try assumption.
    apply manifest_good. assumption.
  Qed.

  Lemma run_virtual_inv : forall fuel jpaths repr data,
    inv (fst (run_virtual fs canon prog_of fuel jpaths repr data)).
  Proof.
    intros fuel jpaths repr data. unfold run_virtual.
    pose proof (load_virt_good repr data (cli_session jpaths) (inv_new _)) as [H1 _].
    destruct (load_virt_file prog_of (cli_session jpaths) repr data) as [st [w|sid]]; cbn [fst] in *; [assumption|].
    pose proof (force_good fuel sid st H1) as [H2 _].
    destruct (force fs canon prog_of fuel sid st) as [st' []]; cbn [fst] in *; try assumption.
    apply manifest_good. assumption.
  Qed.
End InvProofs.

Lemma in_rng_iff lo hi b : in_rng lo hi b = true <-> lo <= b <= hi.
Proof. unfold in_rng. rewrite andb_true_iff, !N.leb_le. reflexivity. Qed.

Lemma in_rng_true lo hi b : lo <= b <= hi -> in_rng lo hi b = true.
Proof. apply in_rng_iff. Qed.

Lemma in_rng_false lo hi b : b < lo \/ hi < b -> in_rng lo hi b = false.
Proof.
  intros H. destruct (in_rng lo hi b) eqn:E; [|reflexivity]. apply in_rng_iff in E. lia.
Qed.

Lemma is_cont_true l : l < 64 -> is_cont (128 + l) = true.
Proof. intros H. apply in_rng_true. lia. Qed.

(* A well-formed sequence, given by its payload digits in base 64, decodes to the
   number they spell.  In the proofs the tails are kept folded ([set]) and opened one
   at a time: [cbn [lossy]] on the whole sequence would also unfold [lossy] on every
   resynchronisation branch, a term exponential in the width. *)
Lemma lossy_2 h l rest : 2 <= h < 32 -> l < 64 ->
  lossy (192 + h :: 128 + l :: rest) = h * 64 + l :: lossy rest.
Proof.
  intros Hh Hl. set (r0 := 128 + l :: rest). cbn [lossy].
  rewrite (proj2 (N.ltb_ge _ _)), (in_rng_true 194 223) by lia.
  unfold r0. cbv iota. rewrite is_cont_true by lia. f_equal. lia.
Qed.

(* h = 0 with m < 32 would be an overlong form, h = 13 with m >= 32 a surrogate *)
Lemma lossy_3 h m l rest : h < 16 -> m < 64 -> l < 64 ->
  (h = 0 -> 32 <= m) -> (h = 13 -> m < 32) ->
  lossy (224 + h :: 128 + m :: 128 + l :: rest) = h * 4096 + m * 64 + l :: lossy rest.
Proof.
  intros Hh Hm Hl H0 H13.
  set (r1 := 128 + l :: rest). set (r0 := 128 + m :: r1). cbn [lossy].
  rewrite (proj2 (N.ltb_ge _ _)), (in_rng_false 194 223), (in_rng_true 224 239) by lia.
  unfold r0. cbv iota. rewrite in_rng_true
    by (destruct (N.eqb_spec (224 + h) 224), (N.eqb_spec (224 + h) 237); lia).
  unfold r1. cbv iota. rewrite is_cont_true by lia. f_equal. lia.
Qed.

(* h = 0 with m1 < 16 would be overlong, h = 4 with m1 >= 16 beyond U+10FFFF *)
Lemma lossy_4 h m1 m2 l rest : h < 5 -> m1 < 64 -> m2 < 64 -> l < 64 ->
  (h = 0 -> 16 <= m1) -> (h = 4 -> m1 < 16) ->
  lossy (240 + h :: 128 + m1 :: 128 + m2 :: 128 + l :: rest)
  = h * 262144 + m1 * 4096 + m2 * 64 + l :: lossy rest.
Proof.
  intros Hh Hm1 Hm2 Hl H0 H4.
  set (r2 := 128 + l :: rest). set (r1 := 128 + m2 :: r2). set (r0 := 128 + m1 :: r1). cbn [lossy].
  rewrite (proj2 (N.ltb_ge _ _)), (in_rng_false 194 223), (in_rng_false 224 239), (in_rng_true 240 244) by lia.
  unfold r0. cbv iota. rewrite in_rng_true
    by (destruct (N.eqb_spec (240 + h) 240), (N.eqb_spec (240 + h) 244); lia).
  unfold r1. cbv iota. rewrite is_cont_true by lia.
  unfold r2. cbv iota. rewrite is_cont_true by lia. f_equal. lia.
Qed.

Lemma div64 a : a = a / 64 * 64 + a mod 64 /\ a mod 64 < 64.
Proof. split; [rewrite N.mul_comm; apply N.div_mod'|apply N.mod_lt; discriminate]. Qed.

Lemma lossy_enc1 : forall c rest, is_scalar c = true ->
  lossy (utf8_enc1 c ++ rest) = c :: lossy rest.
Proof.
  intros c rest Hs.
  assert (Hs' : c < 55296 \/ 57343 < c < 1114112).
  { unfold is_scalar in Hs. rewrite orb_true_iff, andb_true_iff, !N.ltb_lt in Hs. exact Hs. }
  clear Hs.
  (* the base-64 digits of c as unknowns tied by linear equations: far cheaper for [lia]
     than expanding the divisions *)
  destruct (div64 c) as [E0 L0], (div64 (c / 64)) as [E1 L1], (div64 (c / 4096)) as [E2 L2].
  rewrite N.div_div in E1, E2 by discriminate.
  change (64 * 64) with 4096 in E1. change (4096 * 64) with 262144 in E2.
  unfold utf8_enc1.
  remember (c / 64) as q1 eqn:Q1. remember (c / 4096) as q2 eqn:Q2. remember (c / 262144) as q3 eqn:Q3.
  remember (c mod 64) as l0 eqn:R0. remember (q1 mod 64) as l1 eqn:R1. remember (q2 mod 64) as l2 eqn:R2.
  clear Q1 Q2 Q3 R0 R1 R2.
  destruct (N.ltb_spec c 128) as [H1|H1].
  { cbn [app lossy]. rewrite (proj2 (N.ltb_lt _ _) H1). reflexivity. }
  destruct (N.ltb_spec c 2048) as [H2|H2].
  { cbn [app]. rewrite lossy_2 by lia. f_equal. lia. }
  destruct (N.ltb_spec c 65536) as [H3|H3].
  { cbn [app]. rewrite lossy_3 by lia. f_equal. lia. }
  cbn [app]. rewrite lossy_4 by lia. f_equal. lia.
Qed.

(* a well-formed prefix is decoded exactly, whatever follows it *)
Theorem lossy_valid_prefix : forall s rest, forallb is_scalar s = true ->
  lossy (utf8_enc s ++ rest) = s ++ lossy rest.
Proof.
  induction s as [|c s IH]; cbn [forallb utf8_enc flat_map app]; intros rest H; [reflexivity|].
  apply andb_true_iff in H. destruct H as [Hc Hs].
  rewrite <- app_assoc, lossy_enc1 by assumption. f_equal. apply IH. assumption.
Qed.

(* a small concrete world for the non-vacuity examples of Props/C13.v *)

Definition str_of (s : string) : str :=
  map (fun a => N.of_nat (Ascii.nat_of_ascii a)) (list_ascii_of_string s).

(*  /R/main.jsonnet  /R/x.libsonnet  /R/d.txt  /R/a/y.libsonnet  /R/a/d.txt
    /R/b/y.libsonnet  /R/b/lx -> ../x.libsonnet  /R/dirx.libsonnet/ (a directory)
    /R/c1.libsonnet <-> /R/c2.libsonnet (strict import cycle) *)
Definition ex_tree : cfs :=
  let R := str_of "R" in
  [ ([R], CDir true);
    ([R; str_of "main.jsonnet"], CFile (str_of "M") true);
    ([R; str_of "x.libsonnet"], CFile (str_of "X") true);
    ([R; str_of "d.txt"], CFile [104; 255; 105; 195; 169] true);
    ([R; str_of "a"], CDir true);
    ([R; str_of "a"; str_of "y.libsonnet"], CFile (str_of "YA") true);
    ([R; str_of "a"; str_of "d.txt"], CFile [1; 2] true);
    ([R; str_of "b"], CDir true);
    ([R; str_of "b"; str_of "y.libsonnet"], CFile (str_of "YB") true);
    ([R; str_of "b"; str_of "lx"], CLink (str_of "../x.libsonnet"));
    ([R; str_of "dirx.libsonnet"], CDir true);
    ([R; str_of "c1.libsonnet"], CFile (str_of "C1") true);
    ([R; str_of "c2.libsonnet"], CFile (str_of "C2") true);
    ([R; str_of "m2.jsonnet"], CFile (str_of "M2") true);
    ([R; str_of "m3.jsonnet"], CFile (str_of "M3") true) ].

Definition ex_progs : list (list N * prog) :=
  [ (str_of "M", {| p_tag := str_of "main"; p_strict := [];
                    p_items := [ILit (str_of "main"); IThisFile;
                                IImport (str_of "x.libsonnet");
                                IImport (str_of "./x.libsonnet");
                                IImport (str_of "a/../x.libsonnet");
                                IImport (str_of "b/lx");
                                IImport (str_of "y.libsonnet");
                                IImportStr (str_of "d.txt");
                                IImportBin (str_of "d.txt");
                                IImportBin (str_of "/R/a/d.txt")] |});
    (str_of "X", {| p_tag := str_of "x"; p_strict := []; p_items := [ILit (str_of "x"); IThisFile] |});
    (str_of "YA", {| p_tag := str_of "ya"; p_strict := []; p_items := [ILit (str_of "ya"); IThisFile] |});
    (str_of "YB", {| p_tag := str_of "yb"; p_strict := []; p_items := [ILit (str_of "yb"); IThisFile; IImportBin (str_of "d.txt")] |});
    (str_of "C1", {| p_tag := str_of "c1"; p_strict := [IImport (str_of "c2.libsonnet")]; p_items := [] |});
    (str_of "C2", {| p_tag := str_of "c2"; p_strict := [IImport (str_of "c1.libsonnet")]; p_items := [] |});
    (str_of "M2", {| p_tag := str_of "m2"; p_strict := []; p_items := [ILit (str_of "m2"); IImport (str_of "nope.libsonnet")] |});
    (str_of "M3", {| p_tag := str_of "m3"; p_strict := [IImport (str_of "c1.libsonnet")]; p_items := [] |}) ].

Definition ex_cwd : list str := [str_of "R"].
Definition ex_fs : path -> node := cnode ex_tree true ex_cwd.
Definition ex_canon : path -> path := ccanon ex_tree true ex_cwd.
Definition ex_prog_of : list N -> option prog := fun b => assoc_bytes b ex_progs.
Definition ex_run (jpaths : list string) (main : string) : session * outcome value ierr :=
  run_concrete ex_tree true ex_cwd ex_progs 30 (map str_of jpaths) (str_of main).

(* the same world entered through a virtual source: rsjsonnet -e '<V>' *)
Definition ex_vprog : prog :=
  {| p_tag := str_of "v"; p_strict := [];
     p_items := [IThisFile; IImportBin (str_of "/R/a/d.txt"); IImport (str_of "/R/x.libsonnet")] |}.
Definition ex_vprog_rel : prog :=
  {| p_tag := str_of "v"; p_strict := []; p_items := [IThisFile; IImport (str_of "x.libsonnet")] |}.
Definition ex_run_virtual (jpaths : list string) (pr : prog) : session * outcome value ierr :=
  run_concrete_virtual ex_tree true ex_cwd ((str_of "V", pr) :: ex_progs) 30 (map str_of jpaths)
                       (str_of "<cmdline>") (str_of "V").

Definition count_loaded (st : session) : nat :=
  length (filter (fun e => match e with EvLoaded _ _ _ => true | _ => false end) (s_log st)).
Definition eval_tags (st : session) : list str :=
  rev (flat_map (fun e => match e with EvEval _ t => [t] | _ => [] end) (s_log st)).
