(* Proofs/RefDead_builtins.v — C02/C04: the two-run simulation through [call_builtin] (every builtin of
   the model's std), which makes the dead-binding theorem unconditional. *)
From RJ Require Import Base.Outcome Base.F64 Model.Token Model.Ast Model.RefCore Model.RefValue Model.RefEval.
From RJ Require Import Proofs.RefDead_defs Proofs.RefDead_proofs Proofs.RefDead_main.
Local Open Scope N_scope.

Section DeadBuiltins.
Variable x : str.
Variables e1 e2 : list frame.
Notation vr := (vrel x e1 e2).
Notation tr := (trel x e1 e2).
Notation lr := (lrel x e1 e2).
Notation tsr := (tsrel x e1 e2).

Lemma char_thunks_rel s : Forall2 tr (char_thunks s) (char_thunks s).
Proof. apply Forall2_map_same. intros c _. repeat constructor. Qed.

Lemma type_name_rel v v' : vr v v' -> type_name v = type_name v'.
Proof. intros H. destruct H; reflexivity. Qed.

Lemma fun_params_rel v v' : vr v v' -> fun_params v = fun_params v'.
Proof. intros H. destruct H; reflexivity. Qed.

Hint Resolve char_thunks_rel Forall2_rev : rel.
Hint Unfold tsrel : rel.

Lemma rel2_filter_m fv fv' d : vr fv fv' -> forall items items', tsr items items' ->
  rel2 x e1 e2 (Forall2 tr) (filter_m fv items d) (filter_m fv' items' d).
Proof.
  intros Hf items items' Hi. induction Hi as [|t t' r r' Ht _ IH]; simpl; r2_tac.
  destruct b; [constructor|]; assumption.
Qed.

Lemma rel2_foldl_m fv fv' d : vr fv fv' -> forall items items', tsr items items' -> forall acc acc', tr acc acc' ->
  rel2 x e1 e2 vr (foldl_m fv items acc d) (foldl_m fv' items' acc' d).
Proof. intros Hf items items' Hi. induction Hi as [|t t' r r' Ht _ IH]; intros acc acc' Ha; simpl; r2_tac. Qed.

Lemma rel2_foldr_m fv fv' d : vr fv fv' -> forall items items', tsr items items' -> forall acc acc', tr acc acc' ->
  rel2 x e1 e2 vr (foldr_m fv items acc d) (foldr_m fv' items' acc' d).
Proof. intros Hf items items' Hi. induction Hi as [|t t' r r' Ht _ IH]; intros acc acc' Ha; simpl; r2_tac. Qed.

Lemma rel2_join_str_m sep d : forall items items', tsr items items' -> forall first acc,
  rel2 x e1 e2 vr (join_str_m sep items first acc d) (join_str_m sep items' first acc d).
Proof. intros items items' Hi. induction Hi as [|t t' r r' Ht _ IH]; intros first acc; simpl; r2_tac. Qed.

Lemma rel2_join_arr_m sep sep' d : tsr sep sep' -> forall items items', tsr items items' -> forall first acc acc', tsr acc acc' ->
  rel2 x e1 e2 vr (join_arr_m sep items first acc d) (join_arr_m sep' items' first acc' d).
Proof. intros Hs items items' Hi. induction Hi as [|t t' r r' Ht _ IH]; intros [|] acc acc' Ha; simpl; r2_tac. Qed.

Lemma rel2_all_m d : forall items items', tsr items items' -> rel2 x e1 e2 vr (all_m items d) (all_m items' d).
Proof. intros items items' Hi. induction Hi as [|t t' r r' Ht _ IH]; simpl; r2_tac. Qed.
Lemma rel2_any_m d : forall items items', tsr items items' -> rel2 x e1 e2 vr (any_m items d) (any_m items' d).
Proof. intros items items' Hi. induction Hi as [|t t' r r' Ht _ IH]; simpl; r2_tac. Qed.
Lemma rel2_sum_m d : forall items items', tsr items items' -> forall acc, rel2 x e1 e2 vr (sum_m items acc d) (sum_m items' acc d).
Proof. intros items items' Hi. induction Hi as [|t t' r r' Ht _ IH]; intros acc; simpl; r2_tac. Qed.
Lemma rel2_flatten_m d : forall items items', tsr items items' -> forall acc acc', tsr acc acc' ->
  rel2 x e1 e2 vr (flatten_m items acc d) (flatten_m items' acc' d).
Proof. intros items items' Hi. induction Hi as [|t t' r r' Ht _ IH]; intros acc acc' Ha; simpl; r2_tac. Qed.
Lemma rel2_contains_m y y' d : vr y y' -> forall items items', tsr items items' -> rel2 x e1 e2 vr (contains_m y items d) (contains_m y' items' d).
Proof. intros Hy items items' Hi. induction Hi as [|t t' r r' Ht _ IH]; simpl; r2_tac. Qed.
Lemma rel2_count_m y y' d : vr y y' -> forall items items', tsr items items' -> forall n, rel2 x e1 e2 vr (count_m y items n d) (count_m y' items' n d).
Proof. intros Hy items items' Hi. induction Hi as [|t t' r r' Ht _ IH]; intros n; simpl; r2_tac. Qed.

Lemma rel2_object_has o o' f f' h h' : vr o o' -> vr f f' -> vr h h' -> rel2 x e1 e2 vr (object_has o f h) (object_has o' f' h').
Proof.
  intros Ho Hf Hh. destruct Ho as [| | | | | ls ls' c Hls | |]; unfold object_has; try apply rel2_argtype.
  destruct Hf; try apply rel2_argtype. destruct Hh; try apply rel2_argtype.
  rewrite <- (lsrel_has_field x e1 e2 ls ls' 0 s Hls), <- (lsrel_is_visible x e1 e2 ls ls' s Hls). destruct b; r2_tac.
Qed.
Lemma rel2_object_fields o o' h h' : vr o o' -> vr h h' -> rel2 x e1 e2 vr (object_fields o h) (object_fields o' h').
Proof.
  intros Ho Hh. destruct Ho as [| | | | | ls ls' c Hls | |]; unfold object_fields; try apply rel2_argtype.
  destruct Hh; try apply rel2_argtype.
  rewrite <- (lsrel_all_names x e1 e2 ls ls' Hls), <- (lsrel_visible_names x e1 e2 ls ls' Hls).
  apply rel2_ret. constructor. apply Forall2_map_same. intros n _. repeat constructor.
Qed.
Lemma rel2_prim_equals a a' b b' : vr a a' -> vr b b' -> rel2 x e1 e2 vr (prim_equals a b) (prim_equals a' b').
Proof. intros Ha Hb. destruct Ha; destruct Hb; unfold prim_equals; r2_tac. Qed.
Lemma rel2_mod_num a a' b b' : vr a a' -> vr b b' -> rel2 x e1 e2 vr (mod_num a b) (mod_num a' b').
Proof. intros Ha Hb. destruct Ha; unfold mod_num; r2_tac. Qed.
Hint Resolve rel2_filter_m rel2_foldl_m rel2_foldr_m rel2_join_str_m rel2_join_arr_m rel2_all_m rel2_any_m rel2_sum_m
  rel2_flatten_m rel2_contains_m rel2_count_m rel2_object_has rel2_object_fields rel2_prim_equals rel2_mod_num : rel2.

Ltac norm_rel :=
  repeat match goal with
  | H : vr ?a ?b |- context [is_fun ?b] => rewrite <- (is_fun_rel x e1 e2 a b H)
  | H : vr ?a ?b |- context [fun_params ?b] => rewrite <- (fun_params_rel a b H)
  | H : vr ?a ?b |- context [type_name ?b] => rewrite <- (type_name_rel a b H)
  | H : Forall2 tr ?a ?b |- context [lenN ?b] => rewrite <- (Forall2_len _ a b H)
  | H : Forall2 lr ?a ?b |- context [visible_names ?b] => rewrite <- (lsrel_visible_names x e1 e2 a b H)
  end.

(* [r2_step] when the two sides also differ in observations of related values *)
Ltac r2_obs := repeat (norm_rel; r2_step).
Ltac force_arg := eapply rel2_bind; [apply rel2_forceT; eassumption|]; intros ? ? ?.

(* [call_builtin] by number of arguments; a builtin called at another arity panics on both sides *)
Lemma builtin_sim1 bi a a' d : tr a a' -> rel2 x e1 e2 vr (call_builtin bi [a] d) (call_builtin bi [a'] d).
Proof.
  intros Ha. destruct bi; unfold call_builtin; try apply rel2_panic; force_arg; r2_obs.
  (* left: the type tests, whose answer is computed inside the returned value *)
  all: match goal with Hv : vr _ _ |- _ => destruct Hv; constructor end.
Qed.

Lemma builtin_sim2 bi a a' b b' d : tr a a' -> tr b b' -> rel2 x e1 e2 vr (call_builtin bi [a; b] d) (call_builtin bi [a'; b'] d).
Proof.
  intros Ha Hb. destruct bi; unfold call_builtin; try apply rel2_panic; force_arg; try force_arg; r2_obs.
  (* left: the results that are arrays of new thunks, for makeArray, map (over a string, an array),
     range, repeat, mapWithIndex (over a string, an array) *)
  all: constructor.
  - apply Forall2_map_same. intros i _. repeat constructor. assumption.
  - apply Forall2_map_same. intros c _. repeat constructor. assumption.
  - eapply Forall2_map_intro; [eassumption|]. intros it it' Hit. repeat constructor; assumption.
  - apply Forall2_map_same. intros i _. repeat constructor.
  - apply Forall2_concat. apply Forall2_map_same. intros _ _. assumption.
  - eapply Forall2_map_intro; [apply Forall2_combine; apply char_thunks_rel|]. intros p p' [<- Hp]. repeat constructor; assumption.
  - eapply Forall2_map_intro; [apply Forall2_combine; eassumption|]. intros p p' [<- Hp]. repeat constructor; assumption.
Qed.

Lemma builtin_sim3 bi a a' b b' c c' d : tr a a' -> tr b b' -> tr c c' ->
  rel2 x e1 e2 vr (call_builtin bi [a; b; c] d) (call_builtin bi [a'; b'; c'] d).
Proof.
  intros Ha Hb Hc. destruct bi; unfold call_builtin; try apply rel2_panic; force_arg; force_arg; r2_obs.
Qed.

Lemma builtin_sim4 bi a a' b b' c c' f f' d : tr a a' -> tr b b' -> tr c c' -> tr f f' ->
  rel2 x e1 e2 vr (call_builtin bi [a; b; c; f] d) (call_builtin bi [a'; b'; c'; f'] d).
Proof.
  intros Ha Hb Hc Hf. destruct bi; unfold call_builtin; try apply rel2_panic. r2_obs.
Qed.

Theorem builtin_sim : builtin_sim_at x e1 e2.
Proof.
  intros bi args args' d Ha.
  destruct Ha as [|a0 a0' r0 r0' H0 [|a1 a1' r1 r1' H1 [|a2 a2' r2 r2' H2 [|a3 a3' r3 r3' H3 [|a4 a4' r4 r4' H4 Hr]]]]].
  - apply rel2_panic.
  - apply builtin_sim1; assumption.
  - apply builtin_sim2; assumption.
  - apply builtin_sim3; assumption.
  - apply builtin_sim4; assumption.
  - apply rel2_panic.
Qed.
End DeadBuiltins.
