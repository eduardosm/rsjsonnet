(* Proofs/RefCoin_proofs.v — C02/C04: coincidence for an unused extra frame, and
   `local x = e; x`  ==  `e` (bare), one evaluation frame deeper. *)
From RJ Require Import Base.Outcome Base.F64 Model.Token Model.Ast Model.RefCore Model.RefValue Model.RefEval.
From RJ Require Import Proofs.RefSem_proofs Proofs.RefSem_laws Proofs.RefNeed_proofs.
From RJ Require Import Model.Analyze Proofs.RefScope_defs Proofs.RefScope_static Proofs.RefDead_defs Proofs.RefDead_proofs Proofs.RefDead_main Proofs.RefDead_builtins Proofs.RefDead_thm.
From Coq Require Import Lia.
Local Open Scope N_scope.

Lemma dead_pair_extra x e : dead_pair x (dframe x e) [].
Proof. split; [apply dead_ok_local | apply dead_ok_nil]. Qed.

(* an extra frame binding only x is invisible to an expression that cannot mention x:
   same trace, same error, related values (equal up to that frame inside closures and thunks) *)
Theorem extra_frame_invisible : forall x e body fuel c d,
  closed (rm x [s_std]) false body ->
  rrel (ans_rel x (dframe x e) [])
       (run_task fuel c (TEval (FVars [] [(x, e)] :: init_env) body) d)
       (run_task fuel c (TEval init_env body) d).
Proof.
  intros x e body fuel c d Hc.
  apply (run_task_rel x (dframe x e) [] (dead_pair_extra x e) (builtin_sim x (dframe x e) [])).
  simpl. split; [reflexivity|]. exists (rm x [s_std]), false. split; [|exact Hc].
  change (FVars [] [(x, e)] :: init_env) with (dframe x e ++ init_env). change init_env with ([] ++ init_env) at 2.
  apply ER_dead. apply init_env_rel.
Qed.

Definition finish (v : value) : M json :=
  let* j := manifest false v 0 in if has_func j then kind "ManifestFunction" else ret j.
Definition run_top_at (d : N) (x : cexpr) : M json := let* v := eval init_env x d in finish v.

Lemma run_top_at_0 x : run_top x = run_top_at 0 x.
Proof. reflexivity. Qed.

Definition settled {A} (o : outcome A err) : Prop := match o with Ok _ | Err _ => True | _ => False end.

Lemma bind_ok {A B} (m : M A) (k : A -> M B) c r t a : m c r = (t, Ok a) -> bind m k c r = (let (t2, o) := k a c r in (t ++ t2, o)).
Proof. intros H. unfold bind. rewrite H. reflexivity. Qed.
Lemma bind_err {A B} (m : M A) (k : A -> M B) c r t e : m c r = (t, Err e) -> bind m k c r = (t, Err e).
Proof. intros H. unfold bind. rewrite H. reflexivity. Qed.
Lemma eval_ok en x d c (r : recfn) t v : r (TEval en x) d = (t, Ok (AVal v)) -> eval en x d c r = (t, Ok v).
Proof. intros H. unfold eval, bind, call. rewrite H. simpl. rewrite app_nil_r. reflexivity. Qed.
Lemma eval_err en x d c (r : recfn) t e : r (TEval en x) d = (t, Err e) -> eval en x d c r = (t, Err e).
Proof. intros H. unfold eval, bind, call. rewrite H. reflexivity. Qed.

Lemma settled_bind {A B} (m : M A) (k : A -> M B) c r : settled (snd (bind m k c r)) -> settled (snd (m c r)).
Proof. unfold bind. destruct (m c r) as [t [a | e | s |]]; simpl; trivial. Qed.
Lemma settled_eval en x d c (r : recfn) : settled (snd (eval en x d c r)) ->
  exists t, (exists v, r (TEval en x) d = (t, Ok (AVal v))) \/ (exists e, r (TEval en x) d = (t, Err e)).
Proof.
  unfold eval, bind, call. destruct (r (TEval en x) d) as [t [[v | | |] | e | s |]]; simpl; try contradiction; eauto.
Qed.

Lemma mono_finish v : mono (finish v).
Proof. unfold finish. mono_tac. Qed.

Lemma finish_rel x e1 e2 (Hd : dead_pair x e1 e2) v v' fuel c :
  vrel x e1 e2 v v' -> finish v c (run_task fuel c) = finish v' c (run_task fuel c).
Proof.
  intros Hv. apply rrel_eq. apply (rel2_top_manifest x e1 e2 v v' Hv). apply run_task_rel; [exact Hd | apply builtin_sim].
Qed.

(* the whole program `local x = e; x` runs exactly like `e` evaluated one frame deeper — value, error
   and trace — whenever e cannot mention x (three more units of fuel for the three extra nodes) *)
Theorem rw_local_name_bare : forall x e f c,
  closed (rm x [s_std]) false e -> fits c 0 ->
  settled (snd (run_top_at 1 e c (run_task f c))) ->
  run_core (S (S (S f))) c (CLocal [(x, e)] (CVar x)) = run_top_at 1 e c (run_task f c).
Proof.
  intros x e f c Hc Hfit Hs. unfold run_core. rewrite run_top_at_0. unfold run_top_at in *.
  pose proof (extra_frame_invisible x e e f c 1 Hc) as [Ht Ho].
  destruct (run_task f c (TEval (FVars [] [(x, e)] :: init_env) e) 1) as [t o] eqn:E1.
  destruct (settled_eval _ _ _ _ _ (settled_bind _ _ _ _ Hs)) as (t' & [(v' & E2) | (er & E2)]);
    rewrite E2 in Ht, Ho; simpl in Ht, Ho; subst t'.
  - destruct o as [[v | | |] | | |]; try contradiction.
    pose proof (rw_local_name f c init_env x e 0 t _ Hfit E1 (or_introl (ex_intro _ v eq_refl))) as HL.
    rewrite (bind_ok _ _ _ _ _ _ (eval_ok _ _ _ _ _ _ _ HL)).
    rewrite (bind_ok _ _ _ _ _ _ (eval_ok _ _ _ _ _ _ _ E2)) in Hs |- *.
    (* [finish] sees related values, and more fuel does not change a settled result *)
    rewrite (finish_rel x _ _ (dead_pair_extra x e) v v' _ c Ho).
    rewrite (mono_finish v' MFuel c c _ _ (cfg_le_refl _ _) (run_task_fuel_le c f (S (S (S f))) ltac:(lia))); [reflexivity|].
    destruct (finish v' c (run_task f c)) as [t2 [| | |]]; simpl in *; try reflexivity; contradiction.
  - destruct o as [| er0 | |]; simpl in Ho; try contradiction. subst er0.
    pose proof (rw_local_name f c init_env x e 0 t _ Hfit E1 (or_intror (ex_intro _ er eq_refl))) as HL.
    rewrite (bind_err _ _ _ _ _ _ (eval_err _ _ _ _ _ _ _ HL)), (bind_err _ _ _ _ _ _ (eval_err _ _ _ _ _ _ _ E2)). reflexivity.
Qed.

Theorem rw_local_name_source : forall sp sp2 xid e f c,
  id_value xid <> s_std -> StaticOK [s_std] false e -> fits c 0 ->
  settled (snd (run_top_at 1 (desugar e) c (run_task f c))) ->
  run (S (S (S f))) c (ELocal sp [MkBind xid None e] (EIdent sp2 xid)) = run_top_at 1 (desugar e) c (run_task f c).
Proof.
  intros sp sp2 xid e f c Hne Hok Hfit Hs. unfold run.
  change (desugar (ELocal sp [MkBind xid None e] (EIdent sp2 xid))) with (CLocal [(id_value xid, desugar e)] (CVar (id_value xid))).
  apply rw_local_name_bare; [|exact Hfit | exact Hs]. rewrite (rm_other _ _ Hne). apply static_ok_closed. exact Hok.
Qed.
