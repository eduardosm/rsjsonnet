(* Proofs/RefSem_params.v — C02: parameter binding lemmas over [bind_args] (check_call_args_generic). *)
From RJ Require Import Base.Outcome Base.F64 Model.Token Model.Ast Model.RefCore Model.RefValue.
Local Open Scope N_scope.

Lemma str_eqb_refl x : str_eqb x x = true.
Proof. apply str_eqb_eq. reflexivity. Qed.

Lemma assoc_app {A} x (l1 l2 : list (str * A)) :
  assoc x (l1 ++ l2) = match assoc x l1 with Some a => Some a | None => assoc x l2 end.
Proof.
  induction l1 as [|[y a] r IH]; simpl; [reflexivity|].
  destruct (str_eqb x y); [reflexivity | apply IH].
Qed.

Lemma assoc_some_in {A} x (l : list (str * A)) a : assoc x l = Some a -> In x (map fst l).
Proof.
  induction l as [|[y b] r IH]; simpl; [discriminate|].
  destruct (str_eqb x y) eqn:E; intros H.
  - left. apply str_eqb_eq in E. auto.
  - right. auto.
Qed.

Lemma assoc_none_notin {A} x (l : list (str * A)) : ~ In x (map fst l) -> assoc x l = None.
Proof.
  intros H. destruct (assoc x l) eqn:E; [|reflexivity]. exfalso. apply H. eapply assoc_some_in. eassumption.
Qed.

Lemma in_assoc_some {A} x (l : list (str * A)) : In x (map fst l) -> assoc x l <> None.
Proof.
  induction l as [|[y b] r IH]; simpl; [tauto|].
  intros [H | H].
  - subst y. rewrite str_eqb_refl. discriminate.
  - destruct (str_eqb x y); [discriminate | auto].
Qed.

Lemma bind_positional_names : forall ps pos b rest,
  bind_positional ps pos = Some (b, rest) -> map fst ps = map fst b ++ map fst rest.
Proof.
  intros ps pos. revert ps. induction pos as [|t pr IH]; intros ps b rest H.
  - destruct ps; simpl in H; injection H as <- <-; reflexivity.
  - destruct ps as [|[x d] psr]; simpl in H; [discriminate|].
    destruct (bind_positional psr pr) as [[b' rest']|] eqn:E; [|discriminate].
    injection H as <- <-. simpl. f_equal. apply IH. exact E.
Qed.

Lemma fill_rest_covers : forall rest named b ds,
  fill_rest rest named = Ok (b, ds) ->
  forall x, In x (map fst rest) -> assoc x b <> None \/ assoc x ds <> None.
Proof.
  induction rest as [|[x0 d] r IH]; intros named b ds H x Hin; simpl in *; [tauto|].
  destruct (fill_rest r named) as [[b' ds'] | e | s |] eqn:E; try discriminate.
  specialize (IH named b' ds' E).
  destruct (assoc x0 named) as [t|] eqn:En.
  - injection H as <- <-. simpl. destruct (str_eqb x x0) eqn:Ex.
    + left. discriminate.
    + destruct Hin as [Hin | Hin]; [subst x0; rewrite str_eqb_refl in Ex; discriminate|]. apply IH. exact Hin.
  - destruct d as [de|]; [|discriminate]. injection H as <- <-. simpl. destruct (str_eqb x x0) eqn:Ex.
    + right. discriminate.
    + destruct Hin as [Hin | Hin]; [subst x0; rewrite str_eqb_refl in Ex; discriminate|]. apply IH. exact Hin.
Qed.

(* every parameter is visible in the frame in which the default arguments (and the body) are
   evaluated, and a default is closed over that very frame: defaults see all parameters *)
Theorem defaults_see_all_params : forall ps pos named b ds fenv,
  bind_args ps pos named = Ok (b, ds) ->
  (forall x, In x (map fst ps) -> lookup_var x (FVars b ds :: fenv) <> None) /\
  (forall x de, assoc x b = None -> assoc x ds = Some de ->
                lookup_var x (FVars b ds :: fenv) = Some (Th de (FVars b ds :: fenv))).
Proof.
  intros * H. unfold bind_args in H.
  destruct (bind_positional ps pos) as [[bpos rest]|] eqn:Ep; [|discriminate].
  destruct (check_named rest bpos named []) as [e|]; [discriminate|].
  destruct (fill_rest rest named) as [[b' ds'] | e | s |] eqn:Ef; try discriminate.
  injection H as <- <-. split.
  - intros x Hin. rewrite (bind_positional_names _ _ _ _ Ep) in Hin. apply in_app_or in Hin.
    simpl. rewrite assoc_app. destruct Hin as [Hin | Hin].
    + pose proof (in_assoc_some x bpos Hin) as Hs. destruct (assoc x bpos); [discriminate | congruence].
    + destruct (assoc x bpos); [discriminate|].
      destruct (fill_rest_covers _ _ _ _ Ef x Hin) as [Hs | Hs].
      * destruct (assoc x b'); [discriminate | congruence].
      * destruct (assoc x b'); [discriminate|]. destruct (assoc x ds'); [discriminate | congruence].
  - intros x de Hb Hd. simpl. rewrite Hb, Hd. reflexivity.
Qed.

Lemma check_named_hits : forall rest bpos named seen x t',
  assoc x rest = None -> In (x, t') named -> exists e, check_named rest bpos named seen = Some e.
Proof.
  intros rest bpos named. induction named as [|[y ty] r IH]; intros seen x t' Hx Hin; simpl in *; [tauto|].
  destruct (assoc y rest) eqn:Ey.
  - destruct (mem_str y seen); [eauto|].
    destruct Hin as [Hin | Hin]; [injection Hin as -> _; congruence|]. eapply IH; eassumption.
  - destruct (assoc y bpos); eauto.
Qed.

(* an argument passed both positionally and by name is rejected (RepeatedCallParam), never
   silently resolved: positional and named bindings are disjoint *)
Theorem named_positional_disjoint : forall ps pos named bpos rest x t t',
  NoDup (map fst ps) ->
  bind_positional ps pos = Some (bpos, rest) ->
  assoc x bpos = Some t -> In (x, t') named ->
  exists e, bind_args ps pos named = Err e.
Proof.
  intros * Hnd Hp Hb Hin. unfold bind_args. rewrite Hp.
  assert (Hrest : assoc x rest = None).
  { apply assoc_none_notin. rewrite (bind_positional_names _ _ _ _ Hp) in Hnd.
    intros Hr. apply assoc_some_in in Hb.
    revert Hnd Hb Hr. generalize (map fst bpos) (map fst rest). intros l1 l2 Hnd H1 H2.
    induction l1 as [|a l1 IH]; simpl in *; [tauto|].
    inversion Hnd as [|? ? Hna Hnd']; subst. destruct H1 as [-> | H1].
    - apply Hna. apply in_or_app. right. exact H2.
    - apply IH; assumption. }
  destruct (check_named_hits rest bpos named [] x t' Hrest Hin) as [e He]. rewrite He. eauto.
Qed.
