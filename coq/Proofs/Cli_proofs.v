(* Proofs/Cli_proofs.v — lemmas about the command-line glue model (Model/Cli.v).
   Everything is proved for [run_gen flush], both for the code that only calls
   write_all ([flush = false]) and for the code that also flushes and checks
   ([flush = true]); Props/C12.v instantiates them at [run] (= what main.rs does). *)
From RJ Require Import Base.Outcome Model.Cli.
From Coq Require Import Lia Permutation.
Local Open Scope N_scope.

Lemma bytes_eqb_eq : forall a b, bytes_eqb a b = true <-> a = b.
Proof.
  induction a as [|x a IH]; intros [|y b]; cbn; split; intros H; try discriminate; try reflexivity.
  - destruct (N.eqb_spec x y); [|discriminate]. subst. f_equal. apply IH; exact H.
  - inversion H; subst. rewrite N.eqb_refl. apply IH; reflexivity.
Qed.

Lemma bytes_eqb_refl : forall a, bytes_eqb a a = true.
Proof. intros a. apply bytes_eqb_eq. reflexivity. Qed.

Lemma bytes_eqb_neq : forall a b, bytes_eqb a b = false <-> a <> b.
Proof.
  intros a b. split.
  - intros H E. apply bytes_eqb_eq in E. congruence.
  - intros H. destruct (bytes_eqb a b) eqn:E; [|reflexivity]. apply bytes_eqb_eq in E. contradiction.
Qed.

Lemma mem_bytes_In : forall x l, mem_bytes x l = true <-> In x l.
Proof.
  induction l as [|y r IH]; cbn; [split; [discriminate|tauto]|].
  destruct (bytes_eqb x y) eqn:E.
  - apply bytes_eqb_eq in E. subst. split; auto.
  - apply bytes_eqb_neq in E. rewrite IH. split; [auto|]. intros [H|H]; [congruence|exact H].
Qed.

Lemma split_once_eq_first : forall k v, ~ In EQ k -> split_once_eq (k ++ EQ :: v) = Some (k, v).
Proof.
  induction k as [|ch k IH]; intros v Hn; cbn.
  - reflexivity.
  - destruct (N.eqb_spec ch EQ) as [E|E]; [exfalso; apply Hn; left; exact E|].
    rewrite IH; [reflexivity|]. intros H; apply Hn; right; exact H.
Qed.

Lemma split_once_eq_none : forall s, ~ In EQ s -> split_once_eq s = None.
Proof.
  induction s as [|ch s IH]; intros Hn; cbn; [reflexivity|].
  destruct (N.eqb_spec ch EQ) as [E|E]; [exfalso; apply Hn; left; exact E|].
  rewrite IH; [reflexivity|]. intros H; apply Hn; right; exact H.
Qed.

Lemma var_split_at_first_eq : forall k v, ~ In EQ k ->
  parse_var_opt_val (k ++ EQ :: v) = {| vo_var := k; vo_val := Some v |} /\
  parse_var_file (k ++ EQ :: v) = Some {| vf_var := k; vf_file := v |}.
Proof.
  intros k v Hn. unfold parse_var_opt_val, parse_var_file. rewrite split_once_eq_first by exact Hn. split; reflexivity.
Qed.

Lemma var_without_eq : forall s, ~ In EQ s ->
  parse_var_opt_val s = {| vo_var := s; vo_val := None |} /\ parse_var_file s = None.
Proof.
  intros s Hn. unfold parse_var_opt_val, parse_var_file. rewrite split_once_eq_none by exact Hn. split; reflexivity.
Qed.

Fixpoint lookup (n : bytes) (l : list (bytes * thunk)) : option thunk :=
  match l with
  | [] => None
  | (m, t) :: r => if bytes_eqb n m then Some t else lookup n r
  end.

Definition bind_spec (params : list (bytes * bool)) (named : list (bytes * thunk)) : list binding :=
  map (fun pd => match lookup (fst pd) named with Some t => BArg t | None => BDefault end) params.

Lemma lookup_None_iff : forall n l, lookup n l = None <-> ~ In n (map fst l).
Proof.
  induction l as [|[m t] r IH]; cbn; [tauto|].
  destruct (bytes_eqb n m) eqn:E.
  - apply bytes_eqb_eq in E. subst. split; [discriminate|]. intros H; exfalso; apply H; left; reflexivity.
  - apply bytes_eqb_neq in E. rewrite IH. split; intros H; [intros [X|X]; [congruence|auto]|auto].
Qed.

Lemma lookup_Some_In : forall n l t, lookup n l = Some t -> In (n, t) l.
Proof.
  induction l as [|[m u] r IH]; cbn; intros t H; [discriminate|].
  destruct (bytes_eqb n m) eqn:E.
  - apply bytes_eqb_eq in E. inversion H; subst. left; reflexivity.
  - right. apply IH; exact H.
Qed.

Lemma In_lookup_Some : forall n t l, NoDup (map fst l) -> In (n, t) l -> lookup n l = Some t.
Proof.
  induction l as [|[m u] r IH]; cbn; intros Hnd Hin; [contradiction|].
  inversion Hnd as [|? ? Hnotin Hnd']; subst.
  destruct Hin as [E|Hin].
  - inversion E; subst. rewrite bytes_eqb_refl. reflexivity.
  - destruct (bytes_eqb n m) eqn:E.
    + apply bytes_eqb_eq in E; subst. exfalso. apply Hnotin. apply in_map_iff. exists (m, t). split; [reflexivity|exact Hin].
    + apply IH; assumption.
Qed.

Lemma set_slot_length : forall i t s s', set_slot i t s = Some s' -> length s' = length s.
Proof.
  intros i t s; revert i; induction s as [|o r IH]; intros i s' H; destruct i; cbn in H; try discriminate.
  - destruct o; [discriminate|]. inversion H; reflexivity.
  - destruct o; destruct (set_slot i t r) eqn:E; try discriminate; inversion H; cbn; f_equal; eapply IH; eauto.
Qed.

(* slots as a function of the parameter name *)
Lemma set_slot_map : forall (f : bytes -> option thunk) n t params i,
  NoDup (map fst params) -> param_index n params = Some i ->
  set_slot i t (map (fun pd => f (fst pd)) params) =
  match f n with
  | Some _ => None
  | None => Some (map (fun pd => if bytes_eqb (fst pd) n then Some t else f (fst pd)) params)
  end.
Proof.
  intros f n t params; induction params as [|[p d] r IH]; intros i Hnd Hi; cbn in Hi; [discriminate|].
  inversion Hnd as [|? ? Hnotin Hnd']; subst. cbn [map fst].
  destruct (bytes_eqb n p) eqn:E.
  - apply bytes_eqb_eq in E; subst p. inversion Hi; subst i. cbn.
    destruct (f n) eqn:Ef; [reflexivity|]. rewrite bytes_eqb_refl. f_equal. f_equal.
    apply map_ext_in. intros [q dq] Hq. cbn.
    destruct (bytes_eqb q n) eqn:Eq; [|reflexivity].
    apply bytes_eqb_eq in Eq; subst q. exfalso. apply Hnotin. apply in_map_iff. exists (n, dq). split; [reflexivity|exact Hq].
  - destruct (param_index n r) as [j|] eqn:Ej; [|discriminate]. inversion Hi; subst i.
    specialize (IH j Hnd' eq_refl). cbn. rewrite IH.
    assert (Hpn : bytes_eqb p n = false).
    { apply bytes_eqb_neq. apply bytes_eqb_neq in E. congruence. }
    destruct (f p) eqn:Efp; destruct (f n) eqn:Efn; cbn; rewrite ?Hpn, ?Efp; reflexivity.
Qed.

Lemma param_index_Some_iff : forall n params,
  (exists i, param_index n params = Some i) <-> In n (map fst params).
Proof.
  induction params as [|[p d] r IH]; cbn; [split; [intros [i H]; discriminate|contradiction]|].
  destruct (bytes_eqb n p) eqn:E.
  - apply bytes_eqb_eq in E. split; eauto.
  - apply bytes_eqb_neq in E. rewrite <- IH. split.
    + intros [i H]. destruct (param_index n r) as [j|]; [eauto|discriminate].
    + intros [H|[j ->]]; [congruence|eauto].
Qed.

(* Placing succeeds exactly when the names are distinct parameters with free slots; each
   slot then holds what it held, or the argument of its parameter's name.  The slots are
   read through a function of the parameter name, updated as the arguments are placed. *)
Lemma place_named_iff : forall params, NoDup (map fst params) ->
  forall named (f : bytes -> option thunk) slots',
  place_named params named (map (fun pd => f (fst pd)) params) = Ok slots' <->
  slots' = map (fun pd => match f (fst pd) with Some t => Some t | None => lookup (fst pd) named end) params /\
  NoDup (map fst named) /\
  (forall n, In n (map fst named) -> In n (map fst params) /\ f n = None).
Proof.
  intros params Hnd. induction named as [|[n t] r IH]; intros f slots'; cbn [place_named lookup map fst].
  - assert (E : map (fun pd => match f (fst pd) with Some t => Some t | None => None end) params =
                map (fun pd => f (fst pd)) params)
      by (apply map_ext; intros pd; destruct (f (fst pd)); reflexivity).
    split.
    + intros H. inversion H; subst. split; [symmetry; exact E|]. split; [constructor|intros n []].
    + intros (-> & _). rewrite E. reflexivity.
  - destruct (param_index n params) as [i|] eqn:Ei.
    2: { split; [discriminate|]. intros (_ & _ & Hin). destruct (Hin n (or_introl eq_refl)) as [Hp _].
         apply param_index_Some_iff in Hp. destruct Hp as [i Hi]. congruence. }
    rewrite (set_slot_map f n t params i Hnd Ei). destruct (f n) eqn:Efn.
    { split; [discriminate|]. intros (_ & _ & Hin). destruct (Hin n (or_introl eq_refl)) as [_ Hf]. congruence. }
    pose (f' := fun m => if bytes_eqb m n then Some t else f m).
    change (map (fun pd => if bytes_eqb (fst pd) n then Some t else f (fst pd)) params)
      with (map (fun pd => f' (fst pd)) params).
    rewrite (IH f' slots').
    assert (Es : map (fun pd => match f' (fst pd) with Some u => Some u | None => lookup (fst pd) r end) params =
                 map (fun pd => match f (fst pd) with
                                | Some u => Some u
                                | None => if bytes_eqb (fst pd) n then Some t else lookup (fst pd) r
                                end) params).
    { apply map_ext. intros pd. unfold f'. destruct (bytes_eqb (fst pd) n) eqn:E; [|reflexivity].
      apply bytes_eqb_eq in E. rewrite E, Efn. reflexivity. }
    rewrite Es. split; intros (Hs & Hnd' & Hin); (split; [exact Hs|]).
    + split.
      * constructor; [|exact Hnd']. intros Hc. destruct (Hin n Hc) as [_ Hf].
        unfold f' in Hf. rewrite bytes_eqb_refl in Hf. discriminate.
      * intros m [E|Hm].
        -- subst m. split; [apply param_index_Some_iff; eauto|exact Efn].
        -- destruct (Hin m Hm) as [Hp Hf]. split; [exact Hp|].
           unfold f' in Hf. destruct (bytes_eqb m n); [discriminate|exact Hf].
    + inversion Hnd' as [|? ? Hnotin Hndr]; subst. split; [exact Hndr|].
      intros m Hm. destruct (Hin m (or_intror Hm)) as [Hpm Hfm]. split; [exact Hpm|].
      unfold f'. destruct (bytes_eqb m n) eqn:E; [|exact Hfm]. apply bytes_eqb_eq in E; subst m. contradiction.
Qed.

(* on slots computed from the parameters: every parameter without a value has a default,
   or the first that has neither is reported *)
Lemma fill_defaults_map : forall (g : bytes * bool -> option thunk) params,
  fill_defaults params (map g params) =
  if forallb (fun pd => match g pd with Some _ => true | None => snd pd end) params
  then Ok (map (fun pd => match g pd with Some t => BArg t | None => BDefault end) params)
  else Err CallParamNotBound.
Proof.
  intros g. induction params as [|[p d] r IH]; cbn; [reflexivity|]. rewrite IH.
  destruct (g (p, d)); [|destruct d; [|reflexivity]]; cbn;
    destruct (forallb (fun pd => match g pd with Some _ => true | None => snd pd end) r); reflexivity.
Qed.

Lemma fill_defaults_no_panic : forall params slots, length slots = length params ->
  match fill_defaults params slots with Panic _ => False | OutOfFuel => False | _ => True end.
Proof.
  induction params as [|[p d] r IH]; intros slots Hl; cbn; [exact I|].
  destruct slots as [|s sr]; [discriminate|]. specialize (IH sr (eq_add_S _ _ Hl)).
  destruct s; [|destruct d]; destruct (fill_defaults r sr); auto.
Qed.

(* placing ends with all slots or with an error, never with a panic *)
Lemma place_named_total : forall params named slots,
  match place_named params named slots with
  | Ok slots' => length slots' = length slots
  | Err _ => True
  | _ => False
  end.
Proof.
  intros params; induction named as [|[n t] r IH]; intros slots; cbn; [reflexivity|].
  destruct (param_index n params) as [i|]; [|exact I].
  destruct (set_slot i t slots) as [slots1|] eqn:E; [|exact I].
  specialize (IH slots1). rewrite (set_slot_length _ _ _ _ E) in IH. exact IH.
Qed.

Lemma bind_tla_no_panic : forall params named,
  match bind_tla params named with Panic _ => False | OutOfFuel => False | _ => True end.
Proof.
  intros params named. unfold bind_tla.
  pose proof (place_named_total params named (map (fun _ => None) params)) as Hp.
  destruct (place_named params named (map (fun _ => None) params)); try exact I; try contradiction.
  apply fill_defaults_no_panic. rewrite Hp. apply map_length.
Qed.

(* a binding succeeds exactly when the names are distinct, all are parameters, and every
   parameter without default is named; every parameter then gets the argument of its own
   name, the others their default *)
Theorem bind_tla_iff : forall params named bs, NoDup (map fst params) ->
  (bind_tla params named = Ok bs <->
   bs = bind_spec params named /\
   NoDup (map fst named) /\
   incl (map fst named) (map fst params) /\
   (forall p, In (p, false) params -> In p (map fst named))).
Proof.
  intros params named bs Hnd. unfold bind_tla.
  pose proof (place_named_iff params Hnd named (fun _ => None)) as Hp. cbn beta iota in Hp.
  pose proof (fill_defaults_map (fun pd => lookup (fst pd) named) params) as Hf.
  split.
  - intros H. destruct (place_named params named (map (fun _ => None) params)) as [slots| | |]; try discriminate.
    destruct (proj1 (Hp slots) eq_refl) as (-> & Hndn & Hin). rewrite Hf in H.
    destruct (forallb _ params) eqn:Hd; [|discriminate]. rewrite forallb_forall in Hd.
    split; [inversion H; reflexivity|]. split; [exact Hndn|]. split.
    + intros n Hn. apply (Hin n Hn).
    + intros p Hin'. specialize (Hd (p, false) Hin'). cbn in Hd. destruct (lookup p named) eqn:El; [|discriminate].
      apply lookup_Some_In in El. apply in_map_iff. exists (p, t). split; [reflexivity|exact El].
  - intros (-> & Hndn & Hincl & Hreq).
    rewrite (proj2 (Hp _) (conj eq_refl (conj Hndn (fun n Hn => conj (Hincl n Hn) eq_refl)))), Hf.
    replace (forallb _ params) with true; [reflexivity|]. symmetry. apply forallb_forall.
    intros [p d] Hin. cbn. destruct (lookup p named) eqn:Hl; [reflexivity|]. destruct d; [reflexivity|].
    exfalso. apply lookup_None_iff in Hl. apply Hl. apply Hreq. exact Hin.
Qed.

Lemma lookup_perm : forall n l l', NoDup (map fst l) -> Permutation l l' -> lookup n l = lookup n l'.
Proof.
  intros n l l' Hnd Hp.
  assert (Hnd' : NoDup (map fst l')) by (eapply Permutation_NoDup; [apply Permutation_map; exact Hp|exact Hnd]).
  destruct (lookup n l) eqn:E.
  - symmetry. apply In_lookup_Some; [exact Hnd'|]. eapply Permutation_in; [exact Hp|]. apply lookup_Some_In; exact E.
  - symmetry. apply lookup_None_iff. apply lookup_None_iff in E. intros Hc. apply E.
    eapply Permutation_in; [apply Permutation_map; apply Permutation_sym; exact Hp|exact Hc].
Qed.

(* the order in which top-level arguments are given does not matter *)
Theorem bind_tla_permutation : forall params named named' bs,
  NoDup (map fst params) -> Permutation named named' ->
  bind_tla params named = Ok bs -> bind_tla params named' = Ok bs.
Proof.
  intros params named named' bs Hnd Hp H.
  apply (bind_tla_iff params named bs Hnd) in H. destruct H as (Hb & Hndn & Hincl & Hreq).
  assert (Hpm : Permutation (map fst named) (map fst named')) by (apply Permutation_map; exact Hp).
  apply (bind_tla_iff params named' bs Hnd). split; [|split; [|split]].
  - rewrite Hb. unfold bind_spec. apply map_ext. intros pd.
    rewrite (lookup_perm (fst pd) named named' Hndn Hp). reflexivity.
  - eapply Permutation_NoDup; eauto.
  - intros n Hn. apply Hincl. eapply Permutation_in; [apply Permutation_sym; exact Hpm|exact Hn].
  - intros p Hin. eapply Permutation_in; [exact Hpm|]. apply Hreq; exact Hin.
Qed.

Lemma take_prefix : forall n l, exists rest, l = take n l ++ rest.
Proof.
  induction n as [|n IH]; intros l; cbn; [exists l; reflexivity|].
  destruct l as [|x r]; [exists []; reflexivity|].
  destruct (IH r) as [rest Hr]. exists rest. cbn. f_equal. exact Hr.
Qed.

Lemma take_length_lt : forall n l, (n < length l)%nat -> length (take n l) = n.
Proof.
  induction n as [|n IH]; intros l H; cbn; [reflexivity|].
  destruct l as [|x r]; cbn in *; [lia|]. f_equal. apply IH. lia.
Qed.

(* a device write takes a prefix; it reports success exactly when it took everything;
   a device without limit takes everything and stays without limit *)
Lemma dev_write_spec : forall limit data acc ok limit',
  dev_write limit data = (acc, ok, limit') ->
  (limit = None -> ok = true /\ limit' = None) /\
  exists rest, data = acc ++ rest /\ (ok = true -> rest = []) /\ (ok = false -> rest <> []).
Proof.
  intros limit data acc ok limit' H. unfold dev_write in H.
  destruct data as [|x r]; [inversion H; subst; split; [auto|]; exists []; repeat split; auto; discriminate|].
  destruct limit as [n|].
  - split; [discriminate|]. destruct (blen (x :: r) <=? n) eqn:E.
    + inversion H; subst. exists []. rewrite app_nil_r. repeat split; auto; discriminate.
    + inversion H; subst. destruct (take_prefix (N.to_nat n) (x :: r)) as [rest Hr].
      exists rest. split; [exact Hr|]. split; [discriminate|]. intros _ Hc. subst rest.
      rewrite app_nil_r in Hr. apply N.leb_gt in E. unfold blen in E.
      assert (Hl : (N.to_nat n < length (x :: r))%nat) by lia.
      pose proof (take_length_lt _ _ Hl) as Ht. rewrite <- Hr in Ht. lia.
  - inversion H; subst. split; [auto|]. exists []. rewrite app_nil_r. repeat split; auto; discriminate.
Qed.

Lemma fs_ok_inv : forall w path data, fs_ok (fs_write w path data) = true -> fs_write w path data = FsWrote data true.
Proof.
  intros w path data H. unfold fs_write in *. destruct (w_target w path); [discriminate|].
  destruct (dev_write limit data) as [[acc ok] l'] eqn:E. cbn in H. destruct ok; [|discriminate].
  destruct (dev_write_spec _ _ _ _ _ E) as (_ & rest & Hd & Ht & _). rewrite (Ht eq_refl), app_nil_r in Hd. subst. reflexivity.
Qed.

(* what a failed fs::write leaves behind: nothing, or a proper prefix *)
Definition incomplete (data : bytes) (e : fs_effect) : Prop :=
  match e with
  | FsNotCreated => True
  | FsWrote acc ok => ok = false /\ exists rest, data = acc ++ rest /\ rest <> []
  end.

Lemma fs_not_ok_inv : forall w path data, fs_ok (fs_write w path data) = false -> incomplete data (fs_write w path data).
Proof.
  intros w path data H. unfold fs_write in *. destruct (w_target w path); [exact I|].
  destruct (dev_write limit data) as [[acc ok] l'] eqn:E. cbn in *. destruct ok; [discriminate|].
  destruct (dev_write_spec _ _ _ _ _ E) as (_ & rest & Hd & _ & Hf). split; [reflexivity|]. exists rest. auto.
Qed.

Definition so_fresh (dev : stdout_dev) : so_state := {| so_out := []; so_buf := []; so_dev := dev |}.

Definition is_dev (d : stdout_dev) : Prop := match d with SoDev _ => True | SoClosed => False end.

(* In the specifications of the operations on a handle over a real device, the clause
   about [SoDev None] says that an unlimited device never fails and stays unlimited. *)
Lemma so_raw_write_spec : forall st data ok st',
  is_dev (so_dev st) -> so_raw_write st data = (ok, st') ->
  is_dev (so_dev st') /\ so_buf st' = so_buf st /\
  (so_dev st = SoDev None -> ok = true /\ so_dev st' = SoDev None) /\
  exists acc rest, so_out st' = so_out st ++ acc /\ data = acc ++ rest /\ (ok = true -> rest = []) /\ (ok = false -> rest <> []).
Proof.
  intros st data ok st' Hd H. unfold so_raw_write in H. destruct (so_dev st) as [|limit] eqn:Ed; [contradiction|].
  destruct (dev_write limit data) as [[acc ok'] l'] eqn:E. inversion H; subst. cbn.
  destruct (dev_write_spec _ _ _ _ _ E) as (Hn & rest & Hr & Ht & Hf).
  split; [exact I|]. split; [reflexivity|]. split.
  - intros E0. inversion E0; subst. destruct (Hn eq_refl) as [-> ->]. auto.
  - exists acc, rest. auto.
Qed.

Lemma split_last_nl_app : forall s lines tail, split_last_nl s = Some (lines, tail) -> s = lines ++ tail.
Proof.
  induction s as [|ch r IH]; intros lines tail H; cbn in H; [discriminate|].
  destruct (split_last_nl r) as [[l t]|] eqn:E.
  - inversion H; subst. cbn. f_equal. apply IH; reflexivity.
  - destruct (ch =? NL); [|discriminate]. inversion H; subst. reflexivity.
Qed.

Lemma split_last_nl_lines_nonempty : forall s lines tail, split_last_nl s = Some (lines, tail) -> lines <> [].
Proof.
  intros [|ch r] lines tail H; cbn in H; [discriminate|].
  destruct (split_last_nl r) as [[l t]|]; [inversion H; discriminate|].
  destruct (ch =? NL); [inversion H; discriminate|discriminate].
Qed.

Lemma so_buf_write_spec : forall cap st0 d ok st1,
  is_dev (so_dev st0) -> so_buf st0 = [] -> so_buf_write cap st0 d = (ok, st1) ->
  is_dev (so_dev st1) /\ (so_dev st0 = SoDev None -> ok = true /\ so_dev st1 = SoDev None) /\
  exists rest, so_out st0 ++ d = so_out st1 ++ so_buf st1 ++ rest /\
    (ok = true -> rest = []) /\ (ok = false -> rest <> [] /\ so_buf st1 = []).
Proof.
  intros cap st0 d ok st1 Hd0 Hb0 Hw. unfold so_buf_write in Hw. destruct (blen d <? cap).
  - inversion Hw; subst. cbn. rewrite Hb0. split; [exact Hd0|]. split; [auto|]. exists []. cbn. rewrite app_nil_r.
    split; [reflexivity|]. split; [reflexivity|discriminate].
  - destruct (so_raw_write_spec _ _ _ _ Hd0 Hw) as (Hd1 & Hb1 & Hn1 & acc & rest & Ho & Hdata & Ht & Hf).
    split; [exact Hd1|]. split; [exact Hn1|]. exists rest. rewrite Hb1, Hb0, Ho, Hdata. cbn. rewrite app_assoc.
    split; [reflexivity|]. split; [exact Ht|]. intros E. split; [apply Hf; exact E|reflexivity].
Qed.

(* state after write_all on a fresh handle over a real device: what reached the
   device followed by what is buffered is a prefix of the data; on success it
   is all of the data, on failure a proper prefix and nothing is buffered *)
Lemma so_write_all_spec : forall cap dev data ok st,
  is_dev dev -> so_write_all cap (so_fresh dev) data = (ok, st) ->
  is_dev (so_dev st) /\ (dev = SoDev None -> ok = true /\ so_dev st = SoDev None) /\
  exists rest, data = so_out st ++ so_buf st ++ rest /\
               (ok = true -> rest = []) /\ (ok = false -> rest <> [] /\ so_buf st = []).
Proof.
  intros cap dev data ok st Hdev H. unfold so_write_all in H.
  destruct (split_last_nl data) as [[lines tail]|] eqn:Es.
  - destruct (so_raw_write (so_fresh dev) lines) as [ok1 st1] eqn:E1.
    destruct (so_raw_write_spec (so_fresh dev) _ _ _ Hdev E1) as (Hd1 & Hb1 & Hn1 & acc & rest & Ho & Hdata & Ht & Hf).
    cbn in Ho, Hb1, Hn1. apply split_last_nl_app in Es. destruct ok1.
    + rewrite (Ht eq_refl), app_nil_r in Hdata. rewrite <- Hdata in Ho. clear Hdata.
      destruct (so_buf_write_spec cap st1 tail ok st Hd1 Hb1 H) as (Hd2 & Hn2 & rest2 & He & Ht2 & Hf2).
      split; [exact Hd2|]. split; [intros E0; apply Hn2, Hn1, E0|]. exists rest2. rewrite Es, <- He, Ho. auto.
    + inversion H; subst ok st. split; [exact Hd1|]. split; [intros E0; destruct (Hn1 E0); discriminate|].
      exists (rest ++ tail). rewrite Hb1, Ho, Es, Hdata. cbn. rewrite <- app_assoc.
      split; [reflexivity|]. split; [discriminate|]. intros _. split; [|reflexivity].
      specialize (Hf eq_refl). destruct rest; [contradiction|discriminate].
  - destruct (so_buf_write_spec cap (so_fresh dev) data ok st Hdev eq_refl H) as (Hd2 & Hn2 & rest2 & He & Ht2 & Hf2).
    split; [exact Hd2|]. split; [exact Hn2|]. exists rest2. cbn in He. auto.
Qed.

Lemma so_flush_spec : forall st ok st', is_dev (so_dev st) -> so_flush st = (ok, st') ->
  is_dev (so_dev st') /\ so_buf st' = [] /\ (so_dev st = SoDev None -> ok = true /\ so_dev st' = SoDev None) /\
  exists acc rest, so_out st' = so_out st ++ acc /\ so_buf st = acc ++ rest /\ (ok = true -> rest = []) /\ (ok = false -> rest <> []).
Proof.
  intros st ok st' Hd H. unfold so_flush in H. destruct (so_raw_write st (so_buf st)) as [ok1 st1] eqn:E.
  destruct (so_raw_write_spec _ _ _ _ Hd E) as (Hd1 & Hb1 & Hn1 & acc & rest & Ho & Hdata & Ht & Hf).
  inversion H; subst. cbn. split; [exact Hd1|]. split; [reflexivity|]. split; [exact Hn1|]. exists acc, rest. auto.
Qed.

Lemma so_at_exit_nobuf : forall st, so_buf st = [] -> so_at_exit st = so_out st.
Proof.
  intros st Hb. unfold so_at_exit, so_flush, so_raw_write. rewrite Hb.
  destruct (so_dev st); cbn; [reflexivity|]. rewrite app_nil_r. reflexivity.
Qed.

Lemma so_at_exit_prefix : forall st, is_dev (so_dev st) ->
  exists acc rest, so_at_exit st = so_out st ++ acc /\ so_buf st = acc ++ rest.
Proof.
  intros st Hd. unfold so_at_exit. destruct (so_flush st) as [ok st'] eqn:E.
  destruct (so_flush_spec _ _ _ Hd E) as (_ & _ & _ & acc & rest & Ho & Hb & _). cbn. exists acc, rest. auto.
Qed.

(* What the process does with its complete output on stdout: write_all, the checked
   flush where the code has one ([f]), the exit hook.  Answers the verdict the code
   acts on and the bytes that reached the descriptor. *)
Definition so_emit (f : bool) (w : world) (out : bytes) : bool * bytes :=
  let '(ok, st1) := so_write_all (w_bufcap w) (so_fresh (w_stdout w)) out in
  if ok then
    if f then let '(ok2, st2) := so_flush st1 in (ok2, so_at_exit st2)
    else (true, so_at_exit st1)
  else (false, so_at_exit st1).

(* a closed descriptor swallows everything and reports success *)
Lemma so_emit_closed : forall f w out, w_stdout w = SoClosed -> so_emit f w out = (true, []).
Proof.
  (* every raw write is [(true, st)]: nothing is ever added to [so_out] *)
  intros f w out Hc. unfold so_emit, so_write_all, so_buf_write, so_at_exit, so_flush, so_raw_write, so_fresh.
  rewrite Hc. destruct (split_last_nl out) as [[lines tail]|]; cbn;
    [destruct (blen tail <? w_bufcap w)|destruct (blen out <? w_bufcap w)]; destruct f; reflexivity.
Qed.

(* Whatever the device: what reached the descriptor is a prefix of the output, a proper
   one when failure is reported.  Success means the whole output only where the code
   flushes and the descriptor is open: without the flush the exit hook's failure to
   empty the buffer goes unseen, and a closed descriptor swallows everything. *)
Lemma so_emit_spec : forall f w out ok got, so_emit f w out = (ok, got) ->
  exists rest, out = got ++ rest /\ (ok = false -> rest <> []) /\
    (is_dev (w_stdout w) -> f = true -> ok = true -> rest = []) /\
    (w_stdout w = SoDev None -> ok = true /\ rest = []).
Proof.
  intros f w out ok got H. destruct (w_stdout w) as [|limit] eqn:Edev.
  { rewrite so_emit_closed in H by exact Edev. inversion H; subst. exists out.
    split; [reflexivity|]. split; [discriminate|]. split; [contradiction|discriminate]. }
  assert (Hdev : is_dev (w_stdout w)) by (rewrite Edev; exact I).
  rewrite <- Edev. clear Edev limit. unfold so_emit in H.
  destruct (so_write_all (w_bufcap w) (so_fresh (w_stdout w)) out) as [ok1 st1] eqn:Ewr.
  destruct (so_write_all_spec _ _ _ _ _ Hdev Ewr) as (Hd1 & Hn1 & rest & Hdata & Ht & Hf).
  destruct ok1.
  - rewrite (Ht eq_refl), app_nil_r in Hdata. clear Ht Hf.
    (* with or without the code's flush, the same flush decides what gets out *)
    destruct (so_flush st1) as [ok2 st2] eqn:Efl.
    destruct (so_flush_spec _ _ _ Hd1 Efl) as (Hd2 & Hb2 & Hn2 & acc & rest2 & Ho2 & Hbuf & Ht2 & Hf2).
    exists rest2. destruct f; inversion H; subst ok got.
    + rewrite (so_at_exit_nobuf st2 Hb2), Ho2.
      split; [rewrite Hdata, Hbuf, app_assoc; reflexivity|]. split; [exact Hf2|]. split; [auto|].
      intros E0. destruct (Hn1 E0) as [_ E1]. destruct (Hn2 E1) as [-> _]. auto.
    + unfold so_at_exit. rewrite Efl. cbn [snd]. rewrite Ho2.
      split; [rewrite Hdata, Hbuf, app_assoc; reflexivity|]. split; [discriminate|]. split; [discriminate|].
      intros E0. destruct (Hn1 E0) as [_ E1]. destruct (Hn2 E1) as [E2 _]. auto.
  - inversion H; subst ok got. destruct (Hf eq_refl) as [Hne Hb]. rewrite Hb in Hdata. cbn in Hdata.
    rewrite (so_at_exit_nobuf st1 Hb). exists rest. split; [exact Hdata|]. split; [auto|].
    split; [discriminate|]. intros E0. destruct (Hn1 E0); discriminate.
Qed.

(* What [prepare] answers: a usage error exactly under the two usage conditions, never one
   of the binder's internal errors, and a value only by loading the input and the
   variables, evaluating the root and, if that is a function, binding and calling it. *)
Lemma prepare_spec : forall c w,
  match prepare c w with
  | PUsage => negb (w_clap_ok w) || (c_string c && c_yaml c) = true
  | PPanic _ => False
  | PFail => negb (w_clap_ok w) || (c_string c && c_yaml c) = false
  | POk s v warned =>
      negb (w_clap_ok w) || (c_string c && c_yaml c) = false /\
      exists root ext tla v0,
        load_input c w = Some root /\ all_ext c w = Some ext /\ all_tla c w = Some (tla, warned) /\
        s = mk_session c w ext /\ w_eval w s (ThLoaded root) = Some v0 /\
        match w_shape w v0 with
        | ShFunc params => exists bs, bind_tla params tla = Ok bs /\ w_call w s v0 bs = Some v
        | _ => tla = [] /\ v = v0
        end
  end.
Proof.
  intros c w. unfold prepare. destruct (negb (w_clap_ok w)); [reflexivity|]. cbn [orb].
  destruct (c_string c && c_yaml c); [reflexivity|].
  destruct (load_input c w) as [root|]; [|reflexivity]. destruct (all_ext c w) as [ext|]; [|reflexivity].
  destruct (all_tla c w) as [[tla wn]|]; [|reflexivity].
  destruct (w_eval w (mk_session c w ext) (ThLoaded root)) as [v0|] eqn:Ee; [|reflexivity].
  destruct (w_shape w v0) as [params| | | |] eqn:Es.
  1: { pose proof (bind_tla_no_panic params tla) as Hb.
       destruct (bind_tla params tla) as [bs| | |] eqn:Eb; try contradiction; [|reflexivity].
       destruct (w_call w (mk_session c w ext) v0 bs) eqn:Ec; [|reflexivity].
       split; [reflexivity|]. exists root, ext, tla, v0. rewrite Es. repeat split; auto. exists bs. auto. }
  all: destruct tla; [|reflexivity]; split; [reflexivity|];
    exists root, ext, [], v0; rewrite Es; repeat split; auto.
Qed.

(* [compute] hands a usage error through and adds no panic of its own *)
Lemma compute_cases : forall c w,
  match compute c w with
  | CUsage => negb (w_clap_ok w) || (c_string c && c_yaml c) = true
  | CPanic _ => False
  | _ => negb (w_clap_ok w) || (c_string c && c_yaml c) = false
  end.
Proof.
  intros c w. pose proof (prepare_spec c w) as P. unfold compute.
  destruct (prepare c w) as [| | |s v wn]; try exact P. destruct P as [P _].
  destruct (c_multi c) as [dir|].
  - destruct (w_shape w v); try exact P. destruct (multi_loop c w s dir fields [] []) as [[pl|] fl]; exact P.
  - destruct (value_to_repr c w s v); exact P.
Qed.

(* a run, with the stdout path folded into [so_emit] *)
Lemma run_gen_eq : forall f c w, run_gen f c w =
  match compute c w with
  | CUsage => usage_result
  | CPanic _ => panic_result
  | CFail files => fail_result files
  | CReady out files warned =>
      match c_output c with
      | Some path =>
          if fs_ok (fs_write w path out)
          then {| r_exit := 0; r_stdout := []; r_stderr := warned; r_files := files ++ [(path, fs_write w path out)] |}
          else fail_result (files ++ [(path, fs_write w path out)])
      | None =>
          let '(ok, got) := so_emit f w out in
          {| r_exit := if ok then 0 else 1; r_stdout := got;
             r_stderr := if ok then warned else true; r_files := files |}
      end
  end.
Proof.
  intros f c w. unfold run_gen, emit_gen, so_emit, so_fresh.
  destruct (compute c w); try reflexivity. destruct (c_output c); [reflexivity|].
  destruct (so_write_all _ _ out) as [[] st1]; [destruct f; [destruct (so_flush st1) as [[] st2]|]|]; reflexivity.
Qed.

(* case analysis of a run: usage / failed before writing / -o written / -o failed /
   stdout reported good / stdout reported failed; [Eusage] says whether the usage conditions hold *)
Ltac run_cases f c w :=
  rewrite run_gen_eq; pose proof (compute_cases c w) as Eusage;
  destruct (compute c w) as [|site|files|out files warned] eqn:Ecomp;
  [ | contradiction | |
    destruct (c_output c) as [path|] eqn:Eout;
    [ destruct (fs_ok (fs_write w path out)) eqn:Eok
    | destruct (so_emit f w out) as [ok got] eqn:Eso; destruct ok ] ].

Theorem cli_exit_in_012 : forall f c w,
  r_exit (run_gen f c w) = 0 \/ r_exit (run_gen f c w) = 1 \/ r_exit (run_gen f c w) = 2.
Proof. intros f c w. run_cases f c w; cbn; auto. Qed.

Theorem usage_is_2 : forall f c w,
  (r_exit (run_gen f c w) = 2 <-> (w_clap_ok w = false \/ (c_string c && c_yaml c) = true)) /\
  (r_exit (run_gen f c w) = 2 -> run_gen f c w = usage_result).
Proof.
  intros f c w. rewrite <- (negb_true_iff (w_clap_ok w)), <- orb_true_iff.
  run_cases f c w; rewrite Eusage; cbn; (split; [split|]); intros H; try discriminate; reflexivity.
Qed.

Lemma parse_var_files_none : forall l, (exists s, In s l /\ ~ In EQ s) -> parse_var_files l = None.
Proof.
  induction l as [|x r IH]; intros (s & Hin & Hn); [contradiction|]. cbn.
  destruct Hin as [E|Hin].
  - subst x. destruct (var_without_eq s Hn) as [_ Hf]. rewrite Hf. reflexivity.
  - destruct (parse_var_file x); [|reflexivity]. rewrite IH; [reflexivity|]. exists s; auto.
Qed.

Lemma manifest_items_spec : forall w s items texts,
  manifest_items w s items = Some texts -> Forall2 (fun i t => w_manifest w s i = Some t) items texts.
Proof.
  intros w s; induction items as [|v r IH]; intros texts H; cbn in H.
  - inversion H; constructor.
  - destruct (w_manifest w s v) eqn:Em; [|discriminate].
    destruct (manifest_items w s r) eqn:Er; [|discriminate]. inversion H; subst. constructor; auto.
Qed.

Lemma yaml_docs_concat : forall texts, yaml_docs texts = concat (map (fun t => s_dashes ++ t ++ [NL]) texts).
Proof.
  induction texts as [|t r IH]; [reflexivity|]. cbn [yaml_docs map concat]. rewrite IH.
  rewrite <- !app_assoc. reflexivity.
Qed.

Lemma compute_ready_inv : forall c w out files warned,
  compute c w = CReady out files warned ->
  exists s v, prepare c w = POk s v warned /\
    match c_multi c with
    | Some dir => exists fields, w_shape w v = ShObj fields /\ multi_loop c w s dir fields [] [] = (Some out, files)
    | None => value_to_repr c w s v = Some out /\ files = []
    end.
Proof.
  intros c w out files warned H. unfold compute in H.
  destruct (prepare c w) as [| | |s v wn] eqn:Ep; try discriminate.
  exists s, v. destruct (c_multi c) as [dir|].
  - destruct (w_shape w v) eqn:Es; try discriminate.
    destruct (multi_loop c w s dir fields [] []) as [[pl|] fl] eqn:Em; [|discriminate].
    inversion H; subst. split; [reflexivity|]. exists fields. auto.
  - destruct (value_to_repr c w s v) eqn:Ev; [|discriminate]. inversion H; subst. auto.
Qed.

Lemma compute_fail_nonmulti : forall c w files, c_multi c = None -> compute c w = CFail files -> files = [].
Proof.
  intros c w files Hm H. unfold compute in H. rewrite Hm in H.
  destruct (prepare c w); try discriminate; [inversion H; reflexivity|].
  destruct (value_to_repr c w s v); [discriminate|inversion H; reflexivity].
Qed.

Theorem string_mode_is_value : forall c w out files warned,
  c_string c = true -> c_multi c = None -> compute c w = CReady out files warned ->
  exists s v str, prepare c w = POk s v warned /\ w_shape w v = ShStr str /\
                  out = str ++ nl_unless_ntn c /\ files = [].
Proof.
  intros c w out files warned Hs Hm H. destruct (compute_ready_inv _ _ _ _ _ H) as (s & v & Hp & Hr).
  rewrite Hm in Hr. destruct Hr as [Hv Hf]. unfold value_to_repr in Hv. rewrite Hs in Hv.
  destruct (w_shape w v) eqn:Esh; try discriminate. inversion Hv; subst. exists s, v, s0. auto.
Qed.

Theorem yaml_stream_shape : forall c w out files warned,
  c_yaml c = true -> c_string c = false -> c_multi c = None -> compute c w = CReady out files warned ->
  exists s v items texts, prepare c w = POk s v warned /\ w_shape w v = ShArr items /\
    Forall2 (fun i t => w_manifest w s i = Some t) items texts /\
    out = match texts with
          | [] => []
          | _ => concat (map (fun t => s_dashes ++ t ++ [NL]) texts) ++ s_dots ++ nl_unless_ntn c
          end /\ files = [].
Proof.
  intros c w out files warned Hy Hs Hm H. destruct (compute_ready_inv _ _ _ _ _ H) as (s & v & Hp & Hr).
  rewrite Hm in Hr. destruct Hr as [Hv Hf]. unfold value_to_repr in Hv. rewrite Hs, Hy in Hv.
  destruct (w_shape w v) eqn:Esh; try discriminate.
  destruct (manifest_items w s items) as [texts|] eqn:Em; [|discriminate].
  exists s, v, items, texts. split; [exact Hp|]. split; [exact Esh|].
  split; [apply manifest_items_spec; exact Em|]. split; [|exact Hf].
  destruct texts as [|t r]; [congruence|].
  assert (E : out = yaml_docs (t :: r) ++ s_dots ++ nl_unless_ntn c) by congruence.
  rewrite E, yaml_docs_concat. reflexivity.
Qed.

Lemma multi_loop_spec : forall c w s dir fields pl files pl' files',
  multi_loop c w s dir fields pl files = (Some pl', files') ->
  exists reprs, Forall2 (fun fv r => value_to_repr c w s (snd fv) = Some r) fields reprs /\
    files' = files ++ map (fun fr => (path_join dir (fst (fst fr)), FsWrote (snd fr) true)) (combine fields reprs) /\
    pl' = pl ++ concat (map (fun fv => path_join dir (fst fv) ++ [NL]) fields).
Proof.
  intros c w s dir; induction fields as [|[name v] r IH]; intros pl files pl' files' H; cbn in H.
  - inversion H; subst. exists []. split; [constructor|]. cbn. rewrite !app_nil_r. auto.
  - destruct (value_to_repr c w s v) as [repr|] eqn:Ev; [|discriminate].
    destruct (fs_ok (fs_write w (path_join dir name) repr)) eqn:Eok; [|discriminate].
    apply fs_ok_inv in Eok. rewrite Eok in H.
    destruct (IH _ _ _ _ H) as (reprs & Hf2 & Hfiles & Hpl).
    exists (repr :: reprs). split; [constructor; [exact Ev|exact Hf2]|]. split.
    + rewrite Hfiles. cbn. rewrite <- app_assoc. reflexivity.
    + rewrite Hpl. cbn. rewrite <- !app_assoc. reflexivity.
Qed.

Theorem multi_files_are_visible_fields : forall c w dir out files warned,
  c_multi c = Some dir -> compute c w = CReady out files warned ->
  exists s v fields reprs, prepare c w = POk s v warned /\ w_shape w v = ShObj fields /\
    Forall2 (fun fv r => value_to_repr c w s (snd fv) = Some r) fields reprs /\
    files = map (fun fr => (path_join dir (fst (fst fr)), FsWrote (snd fr) true)) (combine fields reprs) /\
    out = concat (map (fun fv => path_join dir (fst fv) ++ [NL]) fields).
Proof.
  intros c w dir out files warned Hm H. destruct (compute_ready_inv _ _ _ _ _ H) as (s & v & Hp & Hr).
  rewrite Hm in Hr. destruct Hr as (fields & Hsh & Hl).
  destruct (multi_loop_spec _ _ _ _ _ _ _ _ _ Hl) as (reprs & Hf2 & Hfiles & Hpl).
  exists s, v, fields, reprs. cbn in Hfiles, Hpl. auto.
Qed.

Lemma compute_ready_files_ok : forall c w out files warned,
  compute c w = CReady out files warned -> Forall (fun pe => fs_ok (snd pe) = true) files.
Proof.
  intros c w out files warned H. destruct (c_multi c) as [dir|] eqn:Em.
  - destruct (multi_files_are_visible_fields _ _ _ _ _ _ Em H) as (s & v & fields & reprs & _ & _ & _ & Hf & _).
    subst files. apply Forall_forall. intros pe Hin. apply in_map_iff in Hin. destruct Hin as (fr & E & _). subst pe. reflexivity.
  - destruct (compute_ready_inv _ _ _ _ _ H) as (s & v & _ & Hr). rewrite Em in Hr. destruct Hr as [_ Hf]. subst. constructor.
Qed.

Definition with_ntn (b : bool) (c : config) : config :=
  {| c_input := c_input c; c_exec := c_exec c; c_jpath := c_jpath c; c_output := c_output c;
     c_multi := c_multi c; c_yaml := c_yaml c; c_string := c_string c; c_ntn := b;
     c_max_stack := c_max_stack c; c_max_trace := c_max_trace c;
     c_ext_str := c_ext_str c; c_ext_str_file := c_ext_str_file c;
     c_ext_code := c_ext_code c; c_ext_code_file := c_ext_code_file c;
     c_tla_str := c_tla_str c; c_tla_str_file := c_tla_str_file c;
     c_tla_code := c_tla_code c; c_tla_code_file := c_tla_code_file c |}.

Lemma prepare_with_ntn : forall b c w, prepare (with_ntn b c) w = prepare c w.
Proof. intros b c w. reflexivity. Qed.

Lemma manifest_items_nil : forall w s items, manifest_items w s items = Some [] -> items = [].
Proof.
  intros w s [|v r] H; [reflexivity|]. cbn in H. destruct (w_manifest w s v); [|discriminate].
  destruct (manifest_items w s r); discriminate.
Qed.

Theorem value_to_repr_ntn : forall c w s v out,
  value_to_repr (with_ntn false c) w s v = Some out ->
  exists out', value_to_repr (with_ntn true c) w s v = Some out' /\
    (out = out' ++ [NL] \/
     (out = [] /\ out' = [] /\ c_string c = false /\ c_yaml c = true /\ w_shape w v = ShArr [])).
Proof.
  intros c w s v out H. unfold value_to_repr, nl_unless_ntn in *. cbn [c_string c_yaml c_ntn with_ntn] in *.
  destruct (c_string c) eqn:Es.
  - destruct (w_shape w v); try discriminate. inversion H; subst. eexists; split; [reflexivity|]. left. rewrite app_nil_r. reflexivity.
  - destruct (c_yaml c) eqn:Ey.
    + destruct (w_shape w v) eqn:Esh; try discriminate.
      destruct (manifest_items w s items) as [[|t r]|] eqn:Em; try discriminate.
      * inversion H; subst. eexists; split; [reflexivity|]. right.
        apply manifest_items_nil in Em. subst. auto.
      * assert (E : out = yaml_docs (t :: r) ++ s_dots ++ [NL]) by congruence. subst out.
        eexists; split; [reflexivity|]. left. rewrite app_nil_r, <- app_assoc. reflexivity.
    + destruct (w_manifest w s v); [|discriminate]. inversion H; subst.
      eexists; split; [reflexivity|]. left. rewrite app_nil_r. reflexivity.
Qed.

Theorem no_trailing_newline_only_last : forall c w out files warned,
  c_multi c = None -> compute (with_ntn false c) w = CReady out files warned ->
  exists out', compute (with_ntn true c) w = CReady out' files warned /\
    (out = out' ++ [NL] \/ (out = [] /\ out' = [] /\ c_string c = false /\ c_yaml c = true)).
Proof.
  intros c w out files warned Hm H. unfold compute in *. rewrite prepare_with_ntn in *.
  cbn [c_multi with_ntn] in *. rewrite Hm in *.
  destruct (prepare c w) as [| | |s v wn]; try discriminate.
  destruct (value_to_repr (with_ntn false c) w s v) as [o|] eqn:Ev; [|discriminate]. inversion H; subst.
  destruct (value_to_repr_ntn _ _ _ _ _ Ev) as (out' & Hv' & Hrel). rewrite Hv'.
  exists out'. split; [reflexivity|]. destruct Hrel as [Hr|(A & B & C & D & _)]; auto.
Qed.

(* failure leaves the sinks without a complete output *)

Definition failure_shape_r (c : config) (w : world) (r : result) : Prop :=
  r_stderr r = true /\
  ( r = usage_result \/
    (exists files, compute c w = CFail files /\ r = fail_result files /\ (c_multi c = None -> files = [])) \/
    (exists out files warned path eff, compute c w = CReady out files warned /\ c_output c = Some path /\
        r_stdout r = [] /\ r_files r = files ++ [(path, eff)] /\ incomplete out eff) \/
    (exists out files warned rest, compute c w = CReady out files warned /\ c_output c = None /\
        r_files r = files /\ out = r_stdout r ++ rest /\ rest <> []) ).
Definition failure_shape (f : bool) (c : config) (w : world) : Prop := failure_shape_r c w (run_gen f c w).

Theorem stdout_only_on_success : forall f c w, r_exit (run_gen f c w) <> 0 -> failure_shape f c w.
Proof.
  intros f c w. unfold failure_shape, failure_shape_r.
  run_cases f c w; cbn; intros H; try contradiction.
  - split; [reflexivity|]. left; reflexivity.
  - split; [reflexivity|]. right; left. exists files. split; [reflexivity|]. split; [reflexivity|].
    intros Hm. eapply compute_fail_nonmulti; eauto.
  - split; [reflexivity|]. right; right; left. exists out, files, warned, path, (fs_write w path out).
    repeat split; auto. apply fs_not_ok_inv; exact Eok.
  - split; [reflexivity|]. right; right; right.
    destruct (so_emit_spec _ _ _ _ _ Eso) as (rest & Hout & Hne & _).
    exists out, files, warned, rest. repeat split; auto.
Qed.

(* exit 0 means the complete output reached its sink (needs the flush) *)

Definition delivered_r (c : config) (w : world) (r : result) : Prop :=
  exists out files warned, compute c w = CReady out files warned /\
    Forall (fun pe => fs_ok (snd pe) = true) (r_files r) /\
    match c_output c with
    | Some path => r_files r = files ++ [(path, FsWrote out true)] /\ r_stdout r = []
    | None => r_stdout r = out /\ r_files r = files
    end.
Definition delivered (f : bool) (c : config) (w : world) : Prop := delivered_r c w (run_gen f c w).

Theorem write_failure_is_exit1 : forall c w,
  is_dev (w_stdout w) -> r_exit (run_gen true c w) = 0 -> delivered true c w.
Proof.
  intros c w Hdev. unfold delivered, delivered_r.
  run_cases true c w; cbn; intros H; try discriminate; exists out, files, warned; (split; [reflexivity|]).
  - apply fs_ok_inv in Eok. rewrite Eok.
    split; [|auto]. apply Forall_app. split; [eapply compute_ready_files_ok; eauto|]. constructor; [reflexivity|constructor].
  - split; [eapply compute_ready_files_ok; eauto|]. split; [|reflexivity].
    destruct (so_emit_spec _ _ _ _ _ Eso) as (rest & Hout & _ & Hfl & _).
    rewrite (Hfl Hdev eq_refl eq_refl), app_nil_r in Hout. symmetry. exact Hout.
Qed.

(* with a healthy sink every completed computation is delivered with exit 0 *)
Theorem healthy_run_succeeds : forall f c w out files warned,
  w_stdout w = SoDev None -> (forall p, c_output c = Some p -> w_target w p = TDev None) ->
  compute c w = CReady out files warned ->
  r_exit (run_gen f c w) = 0 /\ delivered f c w.
Proof.
  intros f c w out files warned Hso Htg Hcomp. unfold delivered, delivered_r. rewrite run_gen_eq, Hcomp.
  pose proof (compute_ready_files_ok _ _ _ _ _ Hcomp) as Hfok.
  destruct (c_output c) as [path|] eqn:Eout.
  - assert (Hw : fs_write w path out = FsWrote out true).
    { unfold fs_write. rewrite (Htg path eq_refl). unfold dev_write. destruct out; reflexivity. }
    rewrite Hw. cbn. split; [reflexivity|]. exists out, files, warned. split; [reflexivity|]. split; [|auto].
    apply Forall_app. split; [exact Hfok|]. constructor; [reflexivity|constructor].
  - destruct (so_emit f w out) as [ok got] eqn:Eso.
    destruct (so_emit_spec _ _ _ _ _ Eso) as (rest & Hout & _ & _ & Hh). destruct (Hh Hso) as [-> ->].
    rewrite app_nil_r in Hout. subst got. cbn. split; [reflexivity|]. exists out, files, warned. auto.
Qed.

(* external code is loaded eagerly, evaluated only when the program asks *)

Definition with_eval (e : session -> thunk -> option vid) (w : world) : world :=
  {| w_clap_ok := w_clap_ok w; w_colored := w_colored w; w_stdin := w_stdin w; w_env := w_env w;
     w_read := w_read w; w_load_virt := w_load_virt w; w_load_real := w_load_real w;
     w_eval := e; w_shape := w_shape w; w_call := w_call w; w_manifest := w_manifest w;
     w_target := w_target w; w_stdout := w_stdout w; w_bufcap := w_bufcap w |}.

Lemma manifest_items_with_eval : forall e w s items,
  manifest_items (with_eval e w) s items = manifest_items w s items.
Proof.
  intros e w s; induction items as [|v r IH]; [reflexivity|]. cbn [manifest_items]. rewrite IH. reflexivity.
Qed.

Lemma value_to_repr_with_eval : forall e c w s v,
  value_to_repr c (with_eval e w) s v = value_to_repr c w s v.
Proof.
  intros e c w s v. unfold value_to_repr. change (w_shape (with_eval e w)) with (w_shape w).
  change (w_manifest (with_eval e w)) with (w_manifest w).
  destruct (c_string c); [reflexivity|]. destruct (c_yaml c); [|reflexivity].
  destruct (w_shape w v); try reflexivity. rewrite manifest_items_with_eval. reflexivity.
Qed.

Lemma multi_loop_with_eval : forall e c w s dir fields pl files,
  multi_loop c (with_eval e w) s dir fields pl files = multi_loop c w s dir fields pl files.
Proof.
  intros e c w s dir; induction fields as [|[name v] r IH]; intros pl files; [reflexivity|].
  cbn [multi_loop]. rewrite value_to_repr_with_eval.
  destruct (value_to_repr c w s v); [|reflexivity].
  change (fs_write (with_eval e w)) with (fs_write w).
  destruct (fs_ok (fs_write w (path_join dir name) b)); [apply IH|reflexivity].
Qed.

(* the only thunk the glue ever evaluates is the root of the input *)
Theorem ext_code_lazy : forall f c w e,
  (forall s id, load_input c w = Some id -> e s (ThLoaded id) = w_eval w s (ThLoaded id)) ->
  run_gen f c (with_eval e w) = run_gen f c w.
Proof.
  intros f c w e H. unfold run_gen.
  assert (Hp : prepare c (with_eval e w) = prepare c w).
  { unfold prepare.
    change (w_clap_ok (with_eval e w)) with (w_clap_ok w).
    change (load_input c (with_eval e w)) with (load_input c w).
    change (all_ext c (with_eval e w)) with (all_ext c w).
    change (all_tla c (with_eval e w)) with (all_tla c w).
    destruct (negb (w_clap_ok w)); [reflexivity|]. destruct (c_string c && c_yaml c); [reflexivity|].
    destruct (load_input c w) as [root|] eqn:El; [|reflexivity].
    destruct (all_ext c w) as [ext|]; [|reflexivity]. destruct (all_tla c w) as [[tla wn]|]; [|reflexivity].
    change (mk_session c (with_eval e w) ext) with (mk_session c w ext).
    change (w_eval (with_eval e w)) with e. rewrite (H _ root eq_refl). reflexivity. }
  assert (Hc : compute c (with_eval e w) = compute c w).
  { unfold compute. rewrite Hp. destruct (prepare c w) as [| | |s v wn]; try reflexivity.
    change (w_shape (with_eval e w)) with (w_shape w).
    destruct (c_multi c); [|rewrite value_to_repr_with_eval; reflexivity].
    destruct (w_shape w v); try reflexivity. rewrite multi_loop_with_eval. reflexivity. }
  rewrite Hc. reflexivity.
Qed.

(* an input or an external variable that does not load: exit 1, nothing written anywhere *)
Lemma load_failure_run : forall f c w,
  w_clap_ok w = true -> (c_string c && c_yaml c) = false ->
  load_input c w = None \/ all_ext c w = None -> run_gen f c w = fail_result [].
Proof.
  intros f c w Hclap Hsy H. assert (Hp : prepare c w = PFail).
  { unfold prepare. rewrite Hclap, Hsy. cbn [negb]. destruct (load_input c w); [|reflexivity].
    destruct H as [H|H]; [discriminate|]. rewrite H. reflexivity. }
  unfold run_gen, compute. rewrite Hp. reflexivity.
Qed.

Lemma exit0_prepared : forall f c w, r_exit (run_gen f c w) = 0 -> exists s v warned, prepare c w = POk s v warned.
Proof.
  intros f c w. run_cases f c w; cbn; intros H; try discriminate;
    destruct (compute_ready_inv _ _ _ _ _ Ecomp) as (s & v & Hp & _); eauto.
Qed.

(* top-level arguments given twice, or given to a program that is not a function, never succeed *)
Theorem tla_misuse_never_succeeds : forall f c w tla warned,
  (forall v params, w_shape w v = ShFunc params -> NoDup (map fst params)) ->
  all_tla c w = Some (tla, warned) ->
  (~ NoDup (map fst tla) \/
   (tla <> [] /\ forall s id v, load_input c w = Some id -> w_eval w s (ThLoaded id) = Some v ->
                                forall params, w_shape w v <> ShFunc params)) ->
  r_exit (run_gen f c w) <> 0.
Proof.
  intros f c w tla warned Hfun Htla Hbad H0.
  destruct (exit0_prepared _ _ _ H0) as (s & v & wn & Hp).
  pose proof (prepare_spec c w) as P. rewrite Hp in P.
  destruct P as (_ & root & ext & tla' & v0 & Hl & _ & Ht & _ & He & Hsh).
  rewrite Htla in Ht. inversion Ht; subst tla' wn.
  (* a function binds its arguments, so their names are distinct; anything else takes none *)
  destruct (w_shape w v0) as [params| | | |] eqn:Es.
  1: { destruct Hsh as (bs & Hb & _), Hbad as [Hdup|[_ Hnf]]; [|exact (Hnf _ _ _ Hl He params Es)].
       apply Hdup. destruct (proj1 (bind_tla_iff params tla bs (Hfun _ _ Es)) Hb) as (_ & Hnd & _). exact Hnd. }
  all: destruct Hsh as [-> _], Hbad as [Hdup|[Hne _]]; [apply Hdup; constructor|apply Hne; reflexivity].
Qed.

Lemma ext_loop_spec : forall (A : Type) (name : A -> bytes) (mk : A -> option thunk) l names ext names' ext',
  ext_loop name mk l names ext = Some (names', ext') ->
  exists ts, Forall2 (fun a t => mk a = Some t) l ts /\
    ext' = ext ++ combine (map name l) ts /\
    rev names' = rev names ++ map name l /\
    (NoDup names -> NoDup names').
Proof.
  intros A name mk; induction l as [|a r IH]; intros names ext names' ext' H; cbn in H.
  - inversion H; subst. exists []. cbn. rewrite !app_nil_r. repeat split; auto; constructor.
  - destruct (mem_bytes (name a) names) eqn:Em; [discriminate|].
    destruct (mk a) as [t|] eqn:Et; [|discriminate].
    destruct (IH _ _ _ _ H) as (ts & Hf2 & Hext & Hnames & Hnd).
    exists (t :: ts). split; [constructor; assumption|]. split; [|split].
    + rewrite Hext. cbn. rewrite <- app_assoc. reflexivity.
    + rewrite Hnames. cbn. rewrite <- app_assoc. reflexivity.
    + intros Hn. apply Hnd. constructor; [|exact Hn]. intros Hc. apply mem_bytes_In in Hc. congruence.
Qed.

(* on success the session has been given, in this order, one binding per --ext-str,
   --ext-str-file, --ext-code, --ext-code-file argument, under the argument's own name,
   all names distinct *)
Theorem ext_bindings_exact : forall c w ext,
  all_ext c w = Some ext ->
  exists t1 t2 t3 t4,
    Forall2 (fun a t => ext_str_to_thunk w a = Some t) (c_ext_str c) t1 /\
    Forall2 (fun a t => ext_str_file_to_thunk w a = Some t) (c_ext_str_file c) t2 /\
    Forall2 (fun a t => ext_code_to_thunk w lit_ext a = Some t) (c_ext_code c) t3 /\
    Forall2 (fun a t => ext_code_file_to_thunk w a = Some t) (c_ext_code_file c) t4 /\
    ext = combine (map vo_var (c_ext_str c)) t1 ++ combine (map vf_var (c_ext_str_file c)) t2 ++
          combine (map vo_var (c_ext_code c)) t3 ++ combine (map vf_var (c_ext_code_file c)) t4 /\
    NoDup (map vo_var (c_ext_str c) ++ map vf_var (c_ext_str_file c) ++
           map vo_var (c_ext_code c) ++ map vf_var (c_ext_code_file c)).
Proof.
  intros c w ext H. unfold all_ext in H.
  destruct (ext_loop vo_var (ext_str_to_thunk w) (c_ext_str c) [] []) as [[n1 e1]|] eqn:E1; [|discriminate].
  destruct (ext_loop vf_var (ext_str_file_to_thunk w) (c_ext_str_file c) n1 e1) as [[n2 e2]|] eqn:E2; [|discriminate].
  destruct (ext_loop vo_var (ext_code_to_thunk w lit_ext) (c_ext_code c) n2 e2) as [[n3 e3]|] eqn:E3; [|discriminate].
  destruct (ext_loop vf_var (ext_code_file_to_thunk w) (c_ext_code_file c) n3 e3) as [[n4 e4]|] eqn:E4; [|discriminate].
  inversion H; subst e4. clear H.
  destruct (ext_loop_spec _ _ _ _ _ _ _ _ E1) as (t1 & F1 & X1 & N1 & D1).
  destruct (ext_loop_spec _ _ _ _ _ _ _ _ E2) as (t2 & F2 & X2 & N2 & D2).
  destruct (ext_loop_spec _ _ _ _ _ _ _ _ E3) as (t3 & F3 & X3 & N3 & D3).
  destruct (ext_loop_spec _ _ _ _ _ _ _ _ E4) as (t4 & F4 & X4 & N4 & D4).
  exists t1, t2, t3, t4. repeat (split; [assumption|]). split.
  - rewrite X4, X3, X2, X1. cbn. rewrite <- !app_assoc. reflexivity.
  - (* the names seen so far are kept in reverse order *)
    pose proof (NoDup_rev (D4 (D3 (D2 (D1 (NoDup_nil _)))))) as Hnd.
    rewrite N4, N3, N2, N1, <- !app_assoc in Hnd. exact Hnd.
Qed.

(* example worlds for the non-vacuity Examples and the refutation witness of Props/C12.v *)

Definition ex_code : bytes := [112].
Definition ex_cfg (S y ntn : bool) (m o : option bytes) : config :=
  {| c_input := ex_code; c_exec := true; c_jpath := []; c_output := o; c_multi := m; c_yaml := y;
     c_string := S; c_ntn := ntn; c_max_stack := None; c_max_trace := None;
     c_ext_str := []; c_ext_str_file := []; c_ext_code := []; c_ext_code_file := [];
     c_tla_str := []; c_tla_str_file := []; c_tla_code := []; c_tla_code_file := [] |}.
Definition ex_world (sh : list (vid * shape)) (man : list (vid * option bytes)) (so : stdout_dev) : world :=
  world_of_tables
    {| t_clap_ok := true; t_colored := false; t_stdin := None; t_env := []; t_read := [];
       t_load_virt := [((s_cmdline, ex_code), Some 1)]; t_load_real := [];
       t_eval := [(ThLoaded 1, Some 1)]; t_shape := sh; t_call := []; t_manifest := man;
       t_target := [([111], TDev None); ([100; 47; 97], TDev None); ([100; 47; 98], TDev None); ([102], TDev (Some 0))];
       t_stdout := so; t_bufcap := 1024 |}.
Definition ex_abc : bytes := [97; 98; 99].
