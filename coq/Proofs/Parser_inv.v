(* Proofs/Parser_inv.v — invariants of the parser model (Model/Parser.v), for every
   precedence table, every fuel and every token list: a reported error is located at a
   token of the input and names that token (parse_error_at_token); on well-formed token
   lists (what the lexer guarantees) no panic site of the parser is reachable
   (parse_no_panic), the span of the parsed expression lies inside the file
   (parse_root_span_in_range), and every node of the parsed tree has an ordered span that
   contains the spans of all its children (span_nesting).

   Each is proved with a small Hoare logic over the state monad [P]: for the first a
   triple [hoare0] whose rules follow the syntax of the productions; for the others
   weakest-precondition symbolic execution ([wp], [hw]), one run of which gives both the
   absence of panics and the nesting of spans. *)
From RJ Require Import Base.Outcome Model.Token Model.Ast Model.Parser.
From Coq Require Import Lia.
Local Open Scope list_scope.
Local Open Scope N_scope.

Lemma make_comp_go_no_err ms : forall l1 l2 fld e, make_comp_go ms l1 l2 fld <> Err e.
Proof.
  induction ms as [|m ms IH]; intros l1 l2 fld e; [discriminate|].
  destruct m as [b|a|[[i|x sp|n sp] plus vis v|name ps psp vis v]]; try discriminate.
  - destruct fld; apply IH.
  - destruct vis; try discriminate. destruct fld; [discriminate|apply IH].
Qed.

Lemma make_comp_no_err ms cs e : make_comp ms cs <> Err e.
Proof.
  unfold make_comp. destruct (make_comp_go ms [] [] None) as [[[l1 l2] [[[n p] b]|]]|e'|site|] eqn:Hgo;
    try discriminate.
  exfalso. exact (make_comp_go_no_err _ _ _ _ _ Hgo).
Qed.

Definition is_tef (k : token_kind) : bool :=
  match k with TEndOfFile | TWhitespace | TComment => true | _ => false end.

Lemma is_simple_not_tef k t : is_simple k t = true -> is_tef (tok_kind t) = false.
Proof. unfold is_simple. destruct (tok_kind t); try discriminate. reflexivity. Qed.

(* The five token eaters are one pattern: on a current token of the kind they want (never end of
   file or trivia) they move on and answer a value made from it, whose span [sp] is the token's;
   otherwise they miss. *)
Definition eater {A} (m : P (option A)) (sp : A -> span) (x : expected) (add : bool) : Prop :=
  forall s, (exists f, is_tef (tok_kind (cur s)) = false /\ (forall t, sp (f t) = tok_span t) /\
                       m s = (t <- next_token ;; ret (Some (f t))) s) \/
            m s = miss x add s.

Lemma eat_simple_eater k add : eater (eat_simple k add) (fun sp => sp) (XSimple k) add.
Proof.
  intros s. unfold eat_simple.
  destruct (is_simple k (cur s)) eqn:Hk; [left; exists tok_span|right; reflexivity].
  split; [exact (is_simple_not_tef _ _ Hk)|split; reflexivity].
Qed.

Lemma eat_ident_eater add : eater (eat_ident add) id_span XIdent add.
Proof.
  intros s. unfold eat_ident. destruct (tok_kind (cur s)) as [| | | | |v| | |]; try (right; reflexivity).
  left. exists (fun t => {| id_value := v; id_span := tok_span t |}). repeat split.
Qed.

Lemma eat_number_eater add : eater (eat_number add) snd XNumber add.
Proof.
  intros s. unfold eat_number. destruct (tok_kind (cur s)) as [| | | | | |n| |]; try (right; reflexivity).
  left. exists (fun t => (n, tok_span t)). repeat split.
Qed.

Lemma eat_string_eater add : eater (eat_string add) snd XString add.
Proof.
  intros s. unfold eat_string. destruct (tok_kind (cur s)) as [| | | | | | |x|]; try (right; reflexivity).
  left. exists (fun t => (x, tok_span t)). repeat split.
Qed.

Lemma eat_text_block_eater add : eater (eat_text_block add) snd XTextBlock add.
Proof.
  intros s. unfold eat_text_block. destruct (tok_kind (cur s)) as [| | | | | | | |x]; try (right; reflexivity).
  left. exists (fun t => (x, tok_span t)). repeat split.
Qed.

Section ErrorLocation.
  Variable toks : list token.

  (* the parser's window is a suffix of the input *)
  Definition I0 (s : pst) : Prop := exists pre, toks = pre ++ cur s :: rest s.

  Definition E0 (e : parse_error) : Prop :=
    exists t, In t toks /\ pe_span e = tok_span t /\ actual_of (tok_kind t) = Some (pe_instead e).

  Definition hoare0 {A} (m : P A) : Prop :=
    forall s, I0 s ->
      match m s with Ok (_, s') => I0 s' | Err e => E0 e | Panic _ => True | OutOfFuel => True end.

  Lemma h0_ret A (a : A) : hoare0 (ret a).
  Proof. intros s Hs. exact Hs. Qed.

  Lemma h0_bind A B (m : P A) (f : A -> P B) :
    hoare0 m -> (forall a, hoare0 (f a)) -> hoare0 (bindP m f).
  Proof.
    intros Hm Hf s Hs. unfold bindP. specialize (Hm s Hs).
    destruct (m s) as [[a s']|e|site|]; auto. exact (Hf a s' Hm).
  Qed.

  Lemma h0_orelse A B (m : P (option A)) (f : A -> P B) (k : unit -> P B) :
    hoare0 m -> (forall a, hoare0 (f a)) -> hoare0 (k tt) -> hoare0 (orelse m f k).
  Proof.
    intros Hm Hf Hk s Hs. unfold orelse. specialize (Hm s Hs).
    destruct (m s) as [[[a|] s']|e|site|]; auto. exact (Hf a s' Hm). exact (Hk s' Hm).
  Qed.

  Lemma h0_call A (m : P A) : hoare0 m -> hoare0 (call m).
  Proof.
    intros Hm s Hs. unfold call. cbv zeta.
    pose proof (Hm {| cur := cur s; rest := rest s; exps := exps s; dcur := N.succ (dcur s);
                      dmax := N.max (dmax s) (N.succ (dcur s)) |} Hs) as H.
    destruct (m _) as [[a s']|e|site|]; auto.
  Qed.

  Lemma h0_lift A (o : outcome A parse_error) : (forall e, o <> Err e) -> hoare0 (lift o).
  Proof. intros Ho s Hs. unfold lift. destruct o as [a|e|site|]; auto. exfalso. exact (Ho e eq_refl). Qed.

  Lemma h0_panic A site : hoare0 (@panic A site).
  Proof. intros s Hs. exact I. Qed.

  Lemma h0_oof A : hoare0 (@out_of_fuel A).
  Proof. intros s Hs. exact I. Qed.

  Lemma h0_ifs A (b : pst -> bool) (m1 m2 : P A) :
    hoare0 m1 -> hoare0 m2 -> hoare0 (fun s => if b s then m1 s else m2 s).
  Proof. intros H1 H2 s Hs. cbv beta. destruct (b s); [exact (H1 s Hs)|exact (H2 s Hs)]. Qed.

  Lemma h0_next_token : hoare0 next_token.
  Proof.
    intros s [pre Hs]. unfold next_token. destruct (rest s) as [|t r]; [exact I|].
    exists (pre ++ [cur s]). cbn [cur rest]. rewrite <- app_assoc. exact Hs.
  Qed.

  Lemma h0_push_expected x : hoare0 (push_expected x).
  Proof. intros s Hs. exact Hs. Qed.

  Lemma h0_report A : hoare0 (@report_expected A).
  Proof.
    intros s [pre Hs]. unfold report_expected. destruct (actual_of (tok_kind (cur s))) as [a|] eqn:Ha; [|exact I].
    exists (cur s). cbn [pe_span pe_instead]. repeat split; [|exact Ha].
    rewrite Hs. apply in_or_app. right. left. reflexivity.
  Qed.

  Lemma h0_miss A x add : hoare0 (@miss A x add).
  Proof. intros s Hs. unfold miss. destruct add; exact Hs. Qed.

  Lemma h0_eat_eof add : hoare0 (eat_eof add).
  Proof.
    intros s Hs. unfold eat_eof. destruct (tok_kind (cur s)); try (destruct add; exact Hs).
    destruct (rest s); [exact Hs|exact I].
  Qed.

  Lemma h0_nt_ret A (f : token -> A) : hoare0 (t <- next_token ;; ret (f t)).
  Proof. apply h0_bind; [apply h0_next_token|intros a; apply h0_ret]. Qed.

  Lemma h0_eater {A} {m : P (option A)} {sp x add} : eater m sp x add -> hoare0 m.
  Proof.
    intros Hm s Hs. destruct (Hm s) as [(f & _ & _ & ->)| ->].
    - exact (h0_nt_ret (option A) (fun t => Some (f t)) s Hs).
    - exact (h0_miss A x add s Hs).
  Qed.

  Lemma h0_eat_simple k add : hoare0 (eat_simple k add).
  Proof. exact (h0_eater (eat_simple_eater k add)). Qed.

  Lemma h0_expect_simple k add : hoare0 (expect_simple k add).
  Proof.
    unfold expect_simple. apply h0_orelse; [apply h0_eat_simple|intros a; apply h0_ret|apply h0_report].
  Qed.

  Lemma h0_eat_ident add : hoare0 (eat_ident add).
  Proof. exact (h0_eater (eat_ident_eater add)). Qed.

  Lemma h0_expect_ident add : hoare0 (expect_ident add).
  Proof.
    unfold expect_ident. apply h0_orelse; [apply h0_eat_ident|intros a; apply h0_ret|apply h0_report].
  Qed.

  Lemma h0_eat_number add : hoare0 (eat_number add).
  Proof. exact (h0_eater (eat_number_eater add)). Qed.

  Lemma h0_eat_string add : hoare0 (eat_string add).
  Proof. exact (h0_eater (eat_string_eater add)). Qed.

  Lemma h0_eat_text_block add : hoare0 (eat_text_block add).
  Proof. exact (h0_eater (eat_text_block_eater add)). Qed.

  Lemma h0_mk_span a b : hoare0 (mk_span a b).
  Proof. intros s Hs. unfold mk_span. destruct (fst a <=? snd b); [exact Hs|exact I]. Qed.

  Lemma h0_make_comp ms cs : hoare0 (lift (make_comp ms cs)).
  Proof. apply h0_lift. intros e. apply make_comp_no_err. Qed.

  Create HintDb h0db discriminated.
  #[local] Hint Resolve h0_next_token h0_push_expected h0_report h0_miss h0_eat_eof h0_eat_simple
    h0_expect_simple h0_eat_ident h0_expect_ident h0_eat_number h0_eat_string h0_eat_text_block
    h0_mk_span h0_make_comp h0_ret h0_panic h0_oof : h0db.

  (* the rule for the head of the program; primitives and productions already done are in [h0db] *)
  Ltac h0step :=
    match goal with
    | |- hoare0 (bindP _ _) => apply h0_bind; [|intro; cbv beta]
    | |- hoare0 (orelse _ _ _) => apply h0_orelse; [|intro; cbv beta|cbv beta]
    | |- hoare0 (call _) => apply h0_call
    | |- hoare0 (fun s => if _ then _ else _) => apply h0_ifs
    | |- hoare0 (match ?x with _ => _ end) => destruct x
    | |- hoare0 (let _ := _ in _) => cbv zeta
    | |- hoare0 _ => solve [auto with h0db nocore]
    end.
  Ltac h0 := repeat h0step.

  Lemma h0_eat_visibility add : hoare0 (eat_visibility add).
  Proof. unfold eat_visibility. h0. Qed.

  Lemma h0_eat_plus_visibility add : hoare0 (eat_plus_visibility add).
  Proof. unfold eat_plus_visibility. h0. Qed.

  Lemma h0_eat_first O (l : list (stoken * O)) : hoare0 (eat_first l).
  Proof. induction l as [|[tk op] r IH]; cbn [eat_first]; h0. Qed.

  #[local] Hint Resolve h0_eat_visibility h0_eat_plus_visibility h0_eat_first : h0db.

  Section Productions0.
    Variables (T : prec_table) (pexpr : P expr) (lf : nat).
    Hypothesis Hpexpr : hoare0 pexpr.

    Lemma h0_opt_expr c : hoare0 (opt_expr pexpr c).
    Proof. unfold opt_expr. h0. Qed.
    #[local] Hint Resolve h0_opt_expr : h0db.

    Lemma h0_parse_maybe_simple_expr : hoare0 parse_maybe_simple_expr.
    Proof. unfold parse_maybe_simple_expr. h0. Qed.
    #[local] Hint Resolve h0_parse_maybe_simple_expr : h0db.

    Lemma h0_maybe_parse_assert add : hoare0 (maybe_parse_assert pexpr add).
    Proof. unfold maybe_parse_assert. h0. Qed.
    #[local] Hint Resolve h0_maybe_parse_assert : h0db.

    Lemma h0_params_loop fuel : forall acc, hoare0 (params_loop pexpr fuel acc).
    Proof. induction fuel as [|f IH]; intros acc; cbn [params_loop]; h0. Qed.
    #[local] Hint Resolve h0_params_loop : h0db.

    Lemma h0_parse_params : hoare0 (parse_params pexpr lf).
    Proof. unfold parse_params. h0. Qed.
    #[local] Hint Resolve h0_parse_params : h0db.

    Lemma h0_parse_arg : hoare0 (parse_arg pexpr).
    Proof. unfold parse_arg. h0. Qed.
    #[local] Hint Resolve h0_parse_arg : h0db.

    Lemma h0_args_loop fuel : forall acc, hoare0 (args_loop pexpr fuel acc).
    Proof. induction fuel as [|f IH]; intros acc; cbn [args_loop]; h0. Qed.
    #[local] Hint Resolve h0_args_loop : h0db.

    Lemma h0_parse_args : hoare0 (parse_args pexpr lf).
    Proof. unfold parse_args. h0. Qed.
    #[local] Hint Resolve h0_parse_args : h0db.

    Lemma h0_parse_bind : hoare0 (parse_bind pexpr lf).
    Proof. unfold parse_bind. h0. Qed.
    #[local] Hint Resolve h0_parse_bind : h0db.

    Lemma h0_maybe_parse_obj_local : hoare0 (maybe_parse_obj_local pexpr lf).
    Proof. unfold maybe_parse_obj_local. h0. Qed.
    #[local] Hint Resolve h0_maybe_parse_obj_local : h0db.

    Lemma h0_maybe_parse_for_spec : hoare0 (maybe_parse_for_spec pexpr).
    Proof. unfold maybe_parse_for_spec. h0. Qed.
    #[local] Hint Resolve h0_maybe_parse_for_spec : h0db.

    Lemma h0_maybe_parse_if_spec : hoare0 (maybe_parse_if_spec pexpr).
    Proof. unfold maybe_parse_if_spec. h0. Qed.
    #[local] Hint Resolve h0_maybe_parse_if_spec : h0db.

    Lemma h0_comp_spec_loop fuel : forall acc, hoare0 (comp_spec_loop pexpr fuel acc).
    Proof. induction fuel as [|f IH]; intros acc; cbn [comp_spec_loop]; h0. Qed.
    #[local] Hint Resolve h0_comp_spec_loop : h0db.

    Lemma h0_maybe_parse_comp_spec : hoare0 (maybe_parse_comp_spec pexpr lf).
    Proof. unfold maybe_parse_comp_spec. h0. Qed.
    #[local] Hint Resolve h0_maybe_parse_comp_spec : h0db.

    Lemma h0_maybe_parse_field_name : hoare0 (maybe_parse_field_name pexpr).
    Proof. unfold maybe_parse_field_name. h0. Qed.
    #[local] Hint Resolve h0_maybe_parse_field_name : h0db.

    Lemma h0_maybe_parse_field : hoare0 (maybe_parse_field pexpr lf).
    Proof. unfold maybe_parse_field. h0. Qed.
    #[local] Hint Resolve h0_maybe_parse_field : h0db.

    Lemma h0_comp_tail ms : hoare0 (comp_tail pexpr lf ms).
    Proof. unfold comp_tail. h0. Qed.
    #[local] Hint Resolve h0_comp_tail : h0db.

    Lemma h0_obj_loop fuel : forall ms c d, hoare0 (obj_loop pexpr lf fuel ms c d).
    Proof. induction fuel as [|f IH]; intros ms c d; cbn [obj_loop]; h0. Qed.
    #[local] Hint Resolve h0_obj_loop : h0db.

    Lemma h0_parse_obj_inside : hoare0 (parse_obj_inside pexpr lf).
    Proof. unfold parse_obj_inside. h0. Qed.
    #[local] Hint Resolve h0_parse_obj_inside : h0db.

    Lemma h0_idx3 : hoare0 (idx3 pexpr).
    Proof. unfold idx3. h0. Qed.
    #[local] Hint Resolve h0_idx3 : h0db.

    Lemma h0_after2 : hoare0 (after2 pexpr).
    Proof. unfold after2. h0. Qed.
    #[local] Hint Resolve h0_after2 : h0db.

    Lemma h0_fin_slice lhs a b c e : hoare0 (fin_slice lhs a b c e).
    Proof. unfold fin_slice. h0. Qed.
    #[local] Hint Resolve h0_fin_slice : h0db.

    Lemma h0_parse_index_expr lhs : hoare0 (parse_index_expr pexpr lhs).
    Proof. unfold parse_index_expr. h0. Qed.
    #[local] Hint Resolve h0_parse_index_expr : h0db.

    Lemma h0_suffix_loop fuel : forall lhs, hoare0 (suffix_loop pexpr lf fuel lhs).
    Proof. induction fuel as [|f IH]; intros lhs; cbn [suffix_loop]; h0. Qed.
    #[local] Hint Resolve h0_suffix_loop : h0db.

    Lemma h0_parse_suffix_expr e : hoare0 (parse_suffix_expr pexpr lf e).
    Proof. unfold parse_suffix_expr. h0. Qed.
    #[local] Hint Resolve h0_parse_suffix_expr : h0db.

    Lemma h0_binds_loop fuel : forall acc, hoare0 (binds_loop pexpr lf fuel acc).
    Proof. induction fuel as [|f IH]; intros acc; cbn [binds_loop]; h0. Qed.
    #[local] Hint Resolve h0_binds_loop : h0db.

    Lemma h0_prefix_form start mk : hoare0 (prefix_form pexpr start mk).
    Proof. unfold prefix_form. h0. Qed.
    #[local] Hint Resolve h0_prefix_form : h0db.

    Lemma h0_pe_loop fuel : forall st stk, hoare0 (pe_loop T pexpr lf fuel st stk).
    Proof.
      induction fuel as [|f IH]; intros st stk; cbn [pe_loop]; [apply h0_oof|].
      destruct st as [e|k|k lhs| |]; [destruct stk as [|[k|k lhs op|op osp| |start|start items|start] stk']|..].
      all: h0.
    Qed.
  End Productions0.

  Lemma h0_parse_expr T fuel : hoare0 (parse_expr T fuel).
  Proof.
    induction fuel as [|f IH]; [intros s Hs; exact I|].
    change (parse_expr T (S f)) with (call (pe_loop T (parse_expr T f) f f (init_state T) [])).
    apply h0_call. apply h0_pe_loop. exact IH.
  Qed.

  Lemma h0_parse_root_expr T fuel : hoare0 (parse_root_expr T fuel).
  Proof.
    unfold parse_root_expr.
    apply h0_bind; [apply h0_parse_expr|intros e].
    apply h0_bind; [apply h0_eat_eof|intros b].
    destruct b; [apply h0_ret|apply h0_report].
  Qed.
End ErrorLocation.

Theorem parse_error_at_token : forall T fuel toks e,
  parse_fuel T fuel toks = Err e ->
  exists t, In t toks /\ pe_span e = tok_span t /\ actual_of (tok_kind t) = Some (pe_instead e).
Proof.
  intros T fuel toks e H. unfold parse_fuel in H. destruct toks as [|t r]; [discriminate|].
  assert (Hi : I0 (t :: r) (init_pst t r)) by (exists []; reflexivity).
  pose proof (h0_parse_root_expr (t :: r) T fuel _ Hi) as Hh.
  destruct (parse_root_expr T fuel (init_pst t r)) as [[e0 s0]|e0|site|]; try discriminate.
  injection H as ->. exact Hh.
Qed.

Definition span_ok (t : token) : Prop := fst (tok_span t) <= snd (tok_span t).

(* What the lexer guarantees: the list is [body ++ [eof]], [eof] is the only
   EndOfFile, there is no Whitespace/Comment, every span is ordered and
   consecutive tokens do not overlap. *)
Definition wf_tokens (toks : list token) : Prop :=
  exists body eof,
    toks = body ++ [eof] /\
    tok_kind eof = TEndOfFile /\
    Forall (fun t => is_tef (tok_kind t) = false) body /\
    Forall span_ok toks /\
    (forall i a b, nth_error toks i = Some a -> nth_error toks (S i) = Some b ->
                   snd (tok_span a) <= fst (tok_span b)).

(* recursive form used by the proofs *)
Fixpoint wfs (l : list token) : Prop :=
  match l with
  | [] => False
  | t :: r =>
      span_ok t /\
      match r with
      | [] => tok_kind t = TEndOfFile
      | u :: _ => is_tef (tok_kind t) = false /\ snd (tok_span t) <= fst (tok_span u) /\ wfs r
      end
  end.

Lemma wfs_cons2 t u r :
  wfs (t :: u :: r) <->
  span_ok t /\ is_tef (tok_kind t) = false /\ snd (tok_span t) <= fst (tok_span u) /\ wfs (u :: r).
Proof. reflexivity. Qed.

Lemma wf_tokens_wfs l : wf_tokens l <-> wfs l.
Proof.
  split.
  - intros (body & eof & -> & Heof & Hb & Hsp & Hord). revert Hb Hsp Hord.
    induction body as [|t b IH]; intros Hb Hsp Hord.
    + cbn. split; [inversion Hsp; assumption|exact Heof].
    + cbn [app] in *. inversion Hb as [|? ? Ht Hb']; subst. inversion Hsp as [|? ? Hst Hsp']; subst.
      assert (Hw : wfs (b ++ [eof])).
      { apply IH; [assumption|assumption|]. intros i a c Ha Hc. apply (Hord (S i) a c); assumption. }
      assert (Hne : exists u r, b ++ [eof] = u :: r) by (destruct b; cbn; eauto).
      destruct Hne as (u & r & Hbe). rewrite Hbe in *. apply wfs_cons2.
      split; [assumption|]. split; [assumption|]. split; [|exact Hw].
      apply (Hord 0%nat t u); reflexivity.
  - induction l as [|t r IH]; [intros []|]. destruct r as [|u r'].
    + intros [Hst Hk]. exists [], t. split; [reflexivity|]. split; [exact Hk|].
      split; [constructor|]. split; [constructor; [exact Hst|constructor]|].
      intros i a b Ha Hb. destruct i as [|i]; cbn in Hb; [discriminate|destruct i; discriminate].
    + intros Hw. apply wfs_cons2 in Hw. destruct Hw as (Hst & Htef & Hord1 & Hw).
      destruct (IH Hw) as (body & eof & Heq & Heof & Hb & Hsp & Hord).
      exists (t :: body), eof. split; [cbn [app]; rewrite <- Heq; reflexivity|].
      split; [exact Heof|]. split; [constructor; assumption|]. split; [constructor; assumption|].
      intros i a b Ha Hb'. destruct i as [|i].
      * cbn in Ha, Hb'. injection Ha as <-. injection Hb' as <-. exact Hord1.
      * cbn [nth_error] in Ha, Hb'. apply (Hord i a b); assumption.
Qed.

Definition pos (s : pst) : N := fst (tok_span (cur s)).
Definition W (s : pst) : Prop := wfs (cur s :: rest s).

(* partial-correctness weakest precondition that also excludes panics *)
Definition wp {A} (o : outcome (A * pst) parse_error) (Post : A -> pst -> Prop) : Prop :=
  match o with Ok (a, s') => Post a s' | Err _ => True | Panic _ => False | OutOfFuel => True end.

(* a span lying between two positions *)
Definition sin (p : N) (sp : span) (p' : N) : Prop := p <= fst sp /\ fst sp <= snd sp /\ snd sp <= p'.

(* the general triple, specialised to: W is an invariant, positions only grow,
   pre/postconditions speak about positions *)
Definition hw {A} (R : N -> Prop) (m : P A) (Q : N -> A -> N -> Prop) : Prop :=
  forall s, W s -> R (pos s) ->
    wp (m s) (fun a s' => W s' /\ pos s <= pos s' /\ Q (pos s) a (pos s')).

Notation TT := (fun _ : N => True).

Lemma wp_conseq A (o : outcome (A * pst) parse_error) (Q1 Q2 : A -> pst -> Prop) :
  wp o Q1 -> (forall a s', Q1 a s' -> Q2 a s') -> wp o Q2.
Proof. unfold wp. destruct o as [[a s']|e|site|]; auto. Qed.

Lemma wp_ret A (a : A) s (Post : A -> pst -> Prop) : Post a s -> wp (ret a s) Post.
Proof. intros H. exact H. Qed.

Lemma wp_bind A B (m : P A) (f : A -> P B) s (Post : B -> pst -> Prop) :
  wp (m s) (fun a s' => wp (f a s') Post) -> wp (bindP m f s) Post.
Proof. unfold bindP, wp. destruct (m s) as [[a s']|e|site|]; auto. Qed.

Lemma wp_orelse A B (m : P (option A)) (f : A -> P B) (k : unit -> P B) s (Post : B -> pst -> Prop) :
  wp (m s) (fun o s' => match o with Some a => wp (f a s') Post | None => wp (k tt s') Post end) ->
  wp (orelse m f k s) Post.
Proof. unfold orelse, wp. destruct (m s) as [[[a|] s']|e|site|]; auto. Qed.

Lemma wp_mk_span a b s (Post : span -> pst -> Prop) :
  fst a <= snd b -> (fst a <= snd b -> Post (fst a, snd b) s) -> wp (mk_span a b s) Post.
Proof. intros Hle HP. unfold mk_span. rewrite (proj2 (N.leb_le _ _) Hle). exact (HP Hle). Qed.

Lemma wp_oof A s (Post : A -> pst -> Prop) : wp (@out_of_fuel A s) Post.
Proof. exact I. Qed.

Lemma W_not_trivia s : W s -> actual_of (tok_kind (cur s)) <> None.
Proof.
  unfold W. intros HW. destruct (rest s) as [|u r]; cbn [wfs] in HW.
  - destruct HW as [_ Hk]. rewrite Hk. discriminate.
  - destruct HW as (_ & Hk & _). destruct (tok_kind (cur s)); cbn in Hk |- *; discriminate.
Qed.

Lemma wp_report A s (Post : A -> pst -> Prop) : W s -> wp (@report_expected A s) Post.
Proof.
  intros HW. unfold report_expected. pose proof (W_not_trivia s HW) as Hn.
  destruct (actual_of (tok_kind (cur s))); [exact I|congruence].
Qed.

Lemma wp_use A (R : N -> Prop) (m : P A) (Q : N -> A -> N -> Prop) s (Post : A -> pst -> Prop) :
  hw R m Q -> W s -> R (pos s) ->
  (forall a s', W s' -> pos s <= pos s' -> Q (pos s) a (pos s') -> Post a s') ->
  wp (m s) Post.
Proof.
  intros Hm HW HR HP. eapply wp_conseq; [exact (Hm s HW HR)|].
  intros a s' (HW' & Hle & HQ). exact (HP a s' HW' Hle HQ).
Qed.

Lemma hw_call A (R : N -> Prop) (m : P A) Q : hw R m Q -> hw R (call m) Q.
Proof.
  intros Hm s HW HR. unfold call. cbv zeta.
  pose proof (Hm {| cur := cur s; rest := rest s; exps := exps s; dcur := N.succ (dcur s);
                    dmax := N.max (dmax s) (N.succ (dcur s)) |} HW HR) as H.
  destruct (m _) as [[a s']|e|site|]; [exact H|exact I|exact H|exact I].
Qed.

Lemma hw_weaken A (R R' : N -> Prop) (m : P A) (Q Q' : N -> A -> N -> Prop) :
  hw R m Q -> (forall p, R' p -> R p) -> (forall p a p', p <= p' -> R' p -> Q p a p' -> Q' p a p') ->
  hw R' m Q'.
Proof.
  intros Hm HR HQ s HW HR'. eapply wp_conseq; [exact (Hm s HW (HR _ HR'))|].
  intros a s' (HW' & Hle & HQ1). split; [exact HW'|]. split; [exact Hle|]. apply HQ; assumption.
Qed.

Lemma W_span_ok s : W s -> pos s <= snd (tok_span (cur s)).
Proof. unfold W. cbn [wfs]. intros [H _]. exact H. Qed.

Lemma wp_next_token s (Post : token -> pst -> Prop) :
  W s -> is_tef (tok_kind (cur s)) = false ->
  (forall s', W s' -> rest s = cur s' :: rest s' -> snd (tok_span (cur s)) <= pos s' -> Post (cur s) s') ->
  wp (next_token s) Post.
Proof.
  intros HW Hk HP. unfold next_token. unfold W in HW.
  destruct (rest s) as [|t r] eqn:Hr.
  - cbn [wfs] in HW. destruct HW as [_ Hk']. rewrite Hk' in Hk. discriminate.
  - apply wfs_cons2 in HW. destruct HW as (_ & _ & Hord & Hw'). cbn [wp].
    apply HP; [exact Hw'|reflexivity|exact Hord].
Qed.

Lemma wp_nt_ret B (f : token -> B) s (Post : B -> pst -> Prop) :
  W s -> is_tef (tok_kind (cur s)) = false ->
  (forall s', W s' -> rest s = cur s' :: rest s' -> snd (tok_span (cur s)) <= pos s' -> Post (f (cur s)) s') ->
  wp ((t <- next_token ;; ret (f t)) s) Post.
Proof.
  intros HW Hk HP. apply wp_bind. apply wp_next_token; [exact HW|exact Hk|].
  intros s' HW' Hr Hp. apply wp_ret. apply HP; assumption.
Qed.

Lemma wp_miss B x add s (Post : option B -> pst -> Prop) :
  W s -> (forall s', W s' -> pos s' = pos s -> Post None s') -> wp (@miss B x add s) Post.
Proof. intros HW HP. unfold miss. cbn [wp]. apply HP; destruct add; first [exact HW|reflexivity]. Qed.

Lemma wp_eat_simple k add s (Post : option span -> pst -> Prop) :
  W s ->
  (forall s', W s' -> is_simple k (cur s) = true -> rest s = cur s' :: rest s' ->
              snd (tok_span (cur s)) <= pos s' -> Post (Some (tok_span (cur s))) s') ->
  (forall s', W s' -> is_simple k (cur s) = false -> pos s' = pos s -> Post None s') ->
  wp (eat_simple k add s) Post.
Proof.
  intros HW Hs Hn. unfold eat_simple. destruct (is_simple k (cur s)) eqn:Hk.
  - apply (wp_nt_ret _ (fun t => Some (tok_span t))); [exact HW|exact (is_simple_not_tef _ _ Hk)|].
    intros s' HW' Hr Hp. apply Hs; auto.
  - apply wp_miss; [exact HW|]. intros s' HW' Hp. apply Hn; auto.
Qed.

(* [a <= b] or [a = b] between positions: follow the hypotheses [a <= c] and [a = c]
   depth-first from [a], using each at most once; steps into a parser position [pos _]
   are tried first, since the positions form the one chain that runs through the whole
   context.  The contexts of the symbolic execution hold dozens of such facts; a chain
   of [N.le_trans] is a far smaller proof than a linear-arithmetic certificate over all
   of them. *)
Ltac le_chain :=
  lazymatch goal with
  | |- ?a <= ?a => apply N.le_refl
  | H : ?a <= ?b |- ?a <= ?b => exact H
  | |- ?a <= ?b =>
      match goal with
      | H : a <= pos ?t |- _ => refine (N.le_trans a (pos t) b H _); clear H; le_chain
      | H : a <= ?c |- _ =>
          lazymatch c with pos _ => fail | _ => refine (N.le_trans a c b H _); clear H; le_chain end
      | H : a = ?c |- _ => refine (N.le_trans a c b (N.eq_le_incl a c H) _); clear H; le_chain
      | H : ?c = a |- _ => refine (N.le_trans a c b (N.eq_le_incl a c (eq_sym H)) _); clear H; le_chain
      end
  | |- ?a = ?a => reflexivity
  | |- _ = _ => apply N.le_antisymm; le_chain
  end.

Ltac ord := cbn [fst snd expr_span id_span]; le_chain.


Lemma hw_eater {A} {m : P (option A)} {sp x add} : eater m sp x add ->
  hw TT m (fun p o p' => match o with Some a => sin p (sp a) p' | None => True end).
Proof.
  intros Hm s HW _. pose proof (W_span_ok s HW) as Hsp.
  destruct (Hm s) as [(f & Hk & Hf & ->)| ->].
  - apply wp_nt_ret; [exact HW|exact Hk|]. intros s' HW' _ Hp. cbv beta iota. rewrite Hf.
    split; [exact HW'|]. unfold sin, pos in *. repeat split; le_chain.
  - apply wp_miss; [exact HW|]. intros s' HW' Hp.
    split; [exact HW'|]. unfold pos in *. split; [le_chain|exact I].
Qed.

Lemma hw_eat_simple k add :
  hw TT (eat_simple k add) (fun p o p' => match o with Some sp => sin p sp p' | None => True end).
Proof. exact (hw_eater (eat_simple_eater k add)). Qed.

Lemma wp_eat_ident add s (Post : option ident -> pst -> Prop) :
  W s ->
  (forall i s', W s' -> peek_ident 0 s = true -> rest s = cur s' :: rest s' ->
              id_span i = tok_span (cur s) -> snd (tok_span (cur s)) <= pos s' -> Post (Some i) s') ->
  (forall s', W s' -> peek_ident 0 s = false -> pos s' = pos s -> Post None s') ->
  wp (eat_ident add s) Post.
Proof.
  intros HW Hs Hn. unfold eat_ident. unfold peek_ident, peek_tok in *.
  destruct (tok_kind (cur s)) as [| | | | |v| | |] eqn:Hk;
    try (apply wp_miss; [exact HW|]; intros s' HW' Hp; apply Hn; auto).
  apply (wp_nt_ret _ (fun t => Some {| id_value := v; id_span := tok_span t |})); [exact HW|rewrite Hk; reflexivity|].
  intros s' HW' Hr Hp. apply Hs; auto.
Qed.

Lemma hw_eat_ident add :
  hw TT (eat_ident add) (fun p o p' => match o with Some i => sin p (id_span i) p' | None => True end).
Proof. exact (hw_eater (eat_ident_eater add)). Qed.

Lemma hw_eat_number add :
  hw TT (eat_number add) (fun p o p' => match o with Some x => sin p (snd x) p' | None => True end).
Proof. exact (hw_eater (eat_number_eater add)). Qed.

Lemma hw_eat_string add :
  hw TT (eat_string add) (fun p o p' => match o with Some x => sin p (snd x) p' | None => True end).
Proof. exact (hw_eater (eat_string_eater add)). Qed.

Lemma hw_eat_text_block add :
  hw TT (eat_text_block add) (fun p o p' => match o with Some x => sin p (snd x) p' | None => True end).
Proof. exact (hw_eater (eat_text_block_eater add)). Qed.

Lemma hw_push_expected x : hw TT (push_expected x) (fun _ _ _ => True).
Proof. intros s HW _. unfold push_expected. cbn [wp]. split; [exact HW|]. split; [apply N.le_refl|exact I]. Qed.

Lemma wp_eat_eof add s (Post : bool -> pst -> Prop) :
  W s ->
  (forall s', W s' -> pos s' = pos s -> rest s' = [] -> Post true s') ->
  (forall s', W s' -> Post false s') ->
  wp (eat_eof add s) Post.
Proof.
  intros HW Ht Hf. unfold eat_eof. unfold W in HW.
  destruct (tok_kind (cur s)) eqn:Hk; try (cbn [wp]; apply Hf; destruct add; exact HW).
  destruct (rest s) as [|u r] eqn:Hr.
  - cbn [wp]. apply Ht; [unfold W; cbn [cur rest with_exps]; rewrite Hr; exact HW|reflexivity|cbn; exact Hr].
  - apply wfs_cons2 in HW. destruct HW as (_ & Hc & _). rewrite Hk in Hc. discriminate.
Qed.

Definition all {A} (P : A -> Prop) : list A -> Prop :=
  fix go (l : list A) : Prop := match l with [] => True | x :: r => P x /\ go r end.

Definition oall {A} (P : A -> Prop) (o : option A) : Prop :=
  match o with Some x => P x | None => True end.

Lemma all_Forall A (P : A -> Prop) l : all P l <-> Forall P l.
Proof.
  induction l as [|x r IH]; cbn [all].
  - split; intros _; constructor.
  - rewrite IH. split.
    + intros [H1 H2]. constructor; assumption.
    + intros H. inversion H; subst. split; assumption.
Qed.

Lemma all_mono A (P Q : A -> Prop) l : all P l -> (forall x, P x -> Q x) -> all Q l.
Proof. intros H HPQ. induction l as [|x r IH]; cbn [all] in *; [exact I|]. destruct H as [H1 H2]. split; auto. Qed.

Lemma all_app A (P : A -> Prop) l1 l2 : all P l1 -> all P l2 -> all P (l1 ++ l2).
Proof. intros H1 H2. induction l1 as [|x r IH]; cbn [all app] in *; [exact H2|]. destruct H1 as [Hx Hr]. split; auto. Qed.

(* [within p q e]: the span of [e] is ordered and inside [p,q], and every child of [e]
   (sub-expressions, identifiers, the extra spans stored in the node) is within the span of [e] *)
Fixpoint within (p q : N) (e : expr) {struct e} : Prop :=
  sin p (expr_span e) q /\
  let a := fst (expr_span e) in
  let b := snd (expr_span e) in
  match e with
  | ENull _ | EBool _ _ | ESelf _ | EDollar _ | EString _ _ | ETextBlock _ _ | ENumber _ _ => True
  | EParen _ x => within a b x
  | EObject _ o => in_obj a b o
  | EArray _ items => all (within a b) items
  | EArrayComp _ x specs => within a b x /\ all (in_spec a b) specs
  | EField _ x name => within a b x /\ sin a (id_span name) b
  | EIndex _ x i => within a b x /\ within a b i
  | ESlice _ x i j k => within a b x /\ oall (within a b) i /\ oall (within a b) j /\ oall (within a b) k
  | ESuperField _ ssp name => sin a ssp b /\ sin a (id_span name) b
  | ESuperIndex _ ssp i => sin a ssp b /\ within a b i
  | ECall _ f args _ => within a b f /\ all (in_arg a b) args
  | EIdent _ name => sin a (id_span name) b
  | ELocal _ binds body => all (in_bind a b) binds /\ within a b body
  | EIf _ c t e' => within a b c /\ within a b t /\ oall (within a b) e'
  | EBinary _ l _ r => within a b l /\ within a b r
  | EUnary _ _ x => within a b x
  | EObjExt _ x o osp => within a b x /\ sin a osp b /\ in_obj (fst osp) (snd osp) o
  | EFunc _ params body => all (in_param a b) params /\ within a b body
  | EAssert _ x body => in_assert a b x /\ within a b body
  | EImport _ x | EImportStr _ x | EImportBin _ x | EError _ x => within a b x
  | EInSuper _ x ssp => within a b x /\ sin a ssp b
  end

with in_obj (a b : N) (o : obj_inside) {struct o} : Prop :=
  match o with
  | OMembers ms => all (in_member a b) ms
  | OComp l1 name _ body l2 specs =>
      all (in_bind a b) l1 /\ within a b name /\ within a b body /\ all (in_bind a b) l2 /\
      all (in_spec a b) specs
  end

with in_member (a b : N) (m : member) {struct m} : Prop :=
  match m with
  | MLocal bd => in_bind a b bd
  | MAssert x => in_assert a b x
  | MField f => in_field a b f
  end

with in_field (a b : N) (f : field) {struct f} : Prop :=
  match f with
  | FValue name _ _ v => in_fname a b name /\ within a b v
  | FFunc name ps psp _ v =>
      in_fname a b name /\ sin a psp b /\ all (in_param (fst psp) (snd psp)) ps /\ within a b v
  end

with in_fname (a b : N) (n : field_name) {struct n} : Prop :=
  match n with
  | FnIdent i => sin a (id_span i) b
  | FnString _ sp => sin a sp b
  | FnExpr e sp => sin a sp b /\ within (fst sp) (snd sp) e
  end

with in_spec (a b : N) (c : comp_spec) {struct c} : Prop :=
  match c with
  | CFor v inner => sin a (id_span v) b /\ within a b inner
  | CIf c => within a b c
  end

with in_assert (a b : N) (x : assert_) {struct x} : Prop :=
  match x with
  | MkAssert sp cond msg =>
      sin a sp b /\ within (fst sp) (snd sp) cond /\ oall (within (fst sp) (snd sp)) msg
  end

with in_bind (a b : N) (bd : bind) {struct bd} : Prop :=
  match bd with
  | MkBind name ps v =>
      sin a (id_span name) b /\
      match ps with
      | Some (l, sp) => sin a sp b /\ all (in_param (fst sp) (snd sp)) l
      | None => True
      end /\
      within a b v
  end

with in_arg (a b : N) (x : arg) {struct x} : Prop :=
  match x with
  | APositional e => within a b e
  | ANamed n e => sin a (id_span n) b /\ within a b e
  end

with in_param (a b : N) (x : param) {struct x} : Prop :=
  match x with
  | MkParam n d => sin a (id_span n) b /\ oall (within a b) d
  end.

(* only the top-level containment depends on [p,q] *)
Lemma within_top p q e :
  within p q e -> sin p (expr_span e) q /\ forall p' q', sin p' (expr_span e) q' -> within p' q' e.
Proof. destruct e; intros [H K]; (split; [exact H|intros p' q' H'; exact (conj H' K)]). Qed.

Lemma within_sin p q e : within p q e -> sin p (expr_span e) q.
Proof. intros H. exact (proj1 (within_top p q e H)). Qed.

Lemma within_rebound p q e p' q' :
  within p q e -> p' <= fst (expr_span e) -> snd (expr_span e) <= q' -> within p' q' e.
Proof.
  intros H Hp Hq. destruct (within_top p q e H) as [(_ & Hs & _) K].
  apply K. split; [exact Hp|]. split; [exact Hs|exact Hq].
Qed.

Theorem within_mono p q e p' q' : within p q e -> p' <= p -> q <= q' -> within p' q' e.
Proof.
  intros H Hp Hq. pose proof (within_sin _ _ _ H) as (H1 & H2 & H3).
  eapply within_rebound; [exact H|lia|lia].
Qed.

Lemma sin_mono a b sp a' b' : sin a sp b -> a' <= a -> b <= b' -> sin a' sp b'.
Proof. unfold sin. lia. Qed.

Lemma oall_mono A (P Q : A -> Prop) o : oall P o -> (forall x, P x -> Q x) -> oall Q o.
Proof. destruct o; cbn; auto. Qed.

(* Every predicate of the family is monotone in its bounds.  Each is a conjunction of
   members of the family at the same bounds (or at bounds of its own, which stay), so
   the lemmas proved so far, kept in the hint database [mono], prove the next one. *)
Create HintDb mono discriminated.
#[local] Hint Resolve sin_mono within_mono all_mono oall_mono : mono.
Ltac mono := let H := fresh in intros H ? ?; cbn in H |- *; intuition eauto with mono nocore.

Lemma in_param_mono a b x a' b' : in_param a b x -> a' <= a -> b <= b' -> in_param a' b' x.
Proof. destruct x; mono. Qed.
#[local] Hint Resolve in_param_mono : mono.

Lemma in_arg_mono a b x a' b' : in_arg a b x -> a' <= a -> b <= b' -> in_arg a' b' x.
Proof. destruct x; mono. Qed.
#[local] Hint Resolve in_arg_mono : mono.

Lemma in_bind_mono a b x a' b' : in_bind a b x -> a' <= a -> b <= b' -> in_bind a' b' x.
Proof. destruct x as [n [[l sp]|] v]; mono. Qed.
#[local] Hint Resolve in_bind_mono : mono.

Lemma in_spec_mono a b x a' b' : in_spec a b x -> a' <= a -> b <= b' -> in_spec a' b' x.
Proof. destruct x; mono. Qed.
#[local] Hint Resolve in_spec_mono : mono.

Lemma in_assert_mono a b x a' b' : in_assert a b x -> a' <= a -> b <= b' -> in_assert a' b' x.
Proof. destruct x; mono. Qed.
#[local] Hint Resolve in_assert_mono : mono.

Lemma in_fname_mono a b x a' b' : in_fname a b x -> a' <= a -> b <= b' -> in_fname a' b' x.
Proof. destruct x; mono. Qed.
#[local] Hint Resolve in_fname_mono : mono.

Lemma in_field_mono a b x a' b' : in_field a b x -> a' <= a -> b <= b' -> in_field a' b' x.
Proof. destruct x; mono. Qed.
#[local] Hint Resolve in_field_mono : mono.

Lemma in_member_mono a b x a' b' : in_member a b x -> a' <= a -> b <= b' -> in_member a' b' x.
Proof. destruct x; mono. Qed.
#[local] Hint Resolve in_member_mono : mono.

Lemma in_obj_mono a b x a' b' : in_obj a b x -> a' <= a -> b <= b' -> in_obj a' b' x.
Proof. destruct x; mono. Qed.

Definition dyn_field (m : member) : bool :=
  match m with MField (FValue (FnExpr _ _) _ VisDefault _) => true | _ => false end.
Definition compm (m : member) : bool :=
  match m with MLocal _ => true | MAssert _ => false | MField _ => dyn_field m end.

(* obj_loop's invariant, under which make_comp cannot panic: while [can_be_comp] holds the
   members are locals and dynamic-name default-visibility value fields, and there is such a
   field iff [has_dyn] *)
Definition minv (ms : list member) (cbc hd : bool) : Prop :=
  cbc = true ->
  forallb compm ms = true /\ List.length (filter dyn_field ms) = (if hd then 1 else 0)%nat.

Lemma make_comp_go_ok ms : forall l1 l2 fld,
  forallb compm ms = true ->
  (List.length (filter dyn_field ms) + (match fld with Some _ => 1 | None => 0 end) = 1)%nat ->
  exists l1' l2' x, make_comp_go ms l1 l2 fld = Ok (l1', l2', Some x).
Proof.
  induction ms as [|m ms IH]; intros l1 l2 fld Ha Hn.
  - cbn in Hn. destruct fld as [x|]; [|discriminate]. cbn. eauto.
  - cbn [forallb] in Ha. apply andb_true_iff in Ha as [Hm Ha].
    destruct m as [b|a|f].
    + cbn [make_comp_go]. cbn in Hn. destruct fld; apply IH; assumption.
    + discriminate.
    + destruct f as [name plus vis v|name ps psp vis v]; [|discriminate].
      destruct name as [i|x sp|e sp]; try discriminate. destruct vis; try discriminate.
      cbn [make_comp_go]. cbn in Hn. destruct fld; [lia|]. apply IH; [assumption|]. cbn. lia.
Qed.

Lemma wp_make_comp ms cs s (Post : obj_inside -> pst -> Prop) :
  minv ms true true -> (forall oi, make_comp ms cs = Ok oi -> Post oi s) -> wp (lift (make_comp ms cs) s) Post.
Proof.
  intros Hinv HP. destruct (Hinv eq_refl) as [Ha Hn].
  destruct (make_comp_go_ok ms [] [] None Ha) as (l1 & l2 & [[n p] b] & Hgo); [rewrite Hn; reflexivity|].
  assert (Hmk : make_comp ms cs = Ok (OComp l1 n p b l2 cs)) by (unfold make_comp; rewrite Hgo; reflexivity).
  unfold lift. rewrite Hmk. cbn [wp]. apply HP. exact Hmk.
Qed.

Lemma make_comp_go_in a b ms : forall l1 l2 fld l1' l2' fld',
  make_comp_go ms l1 l2 fld = Ok (l1', l2', fld') ->
  all (in_member a b) ms -> all (in_bind a b) l1 -> all (in_bind a b) l2 ->
  oall (fun x => within a b (fst (fst x)) /\ within a b (snd x)) fld ->
  all (in_bind a b) l1' /\ all (in_bind a b) l2' /\
  oall (fun x => within a b (fst (fst x)) /\ within a b (snd x)) fld'.
Proof.
  induction ms as [|m ms IH]; intros l1 l2 fld l1' l2' fld' Hgo Hms H1 H2 Hf.
  - injection Hgo as <- <- <-. auto.
  - destruct Hms as [Hm Hms].
    destruct m as [bd|x|[[i|x sp|n sp] plus vis v|name ps psp vis v]]; try discriminate.
    + assert (Hb : all (in_bind a b) [bd]) by (split; [exact Hm|exact I]).
      destruct fld.
      * exact (IH _ _ _ _ _ _ Hgo Hms H1 (all_app _ _ _ _ H2 Hb) Hf).
      * exact (IH _ _ _ _ _ _ Hgo Hms (all_app _ _ _ _ H1 Hb) H2 Hf).
    + destruct vis; try discriminate. destruct fld; [discriminate|].
      destruct Hm as [[Hsp He] Hv]. apply (IH _ _ _ _ _ _ Hgo Hms H1 H2).
      split; [|exact Hv]. unfold sin in Hsp. eapply within_mono; [exact He|lia|lia].
Qed.

Lemma make_comp_in a b ms cs oi :
  make_comp ms cs = Ok oi -> all (in_member a b) ms -> all (in_spec a b) cs -> in_obj a b oi.
Proof.
  unfold make_comp.
  destruct (make_comp_go ms [] [] None) as [[[l1 l2] [[[n p] bd]|]]|e|site|] eqn:Hgo; try discriminate.
  intros [= <-] Hms Hcs.
  destruct (make_comp_go_in a b ms _ _ _ _ _ _ Hgo Hms I I I) as (H1 & H2 & H3 & H4).
  cbn [in_obj]. auto.
Qed.

Lemma minv_nil : minv [] true false.
Proof. intros _. split; reflexivity. Qed.

Lemma minv_false ms d : minv ms false d.
Proof. intros H. discriminate. Qed.

Lemma minv_local ms c d b : minv ms c d -> minv (ms ++ [MLocal b]) c d.
Proof.
  intros H Hc. destruct (H Hc) as [Ha Hn]. rewrite forallb_app, filter_app, app_length, Ha, Hn.
  cbn. split; [reflexivity|]. destruct d; reflexivity.
Qed.

Lemma minv_dyn ms c e sp plus v :
  minv ms c false -> minv (ms ++ [MField (FValue (FnExpr e sp) plus VisDefault v)]) c true.
Proof.
  intros H Hc. destruct (H Hc) as [Ha Hn]. rewrite forallb_app, filter_app, app_length, Ha, Hn.
  cbn. split; reflexivity.
Qed.

Definition wi (a b : N) (e : expr) : Prop := sin a (expr_span e) b /\ within a b e.

Definition item_span (it : stack_item) : option span :=
  match it with
  | SiBinaryRhs _ lhs _ => Some (expr_span lhs)
  | SiUnary _ sp | SiArrayItem0 sp | SiArrayItemN sp _ | SiParen sp => Some sp
  | SiBinaryLhs _ | SiSuffix => None
  end.

(* expressions already stored in a pending item *)
Definition item_ok (it : stack_item) (lo : N) : Prop :=
  match it with
  | SiBinaryRhs _ lhs _ => within (fst (expr_span lhs)) (snd (expr_span lhs)) lhs
  | SiArrayItemN start items => all (wi (fst start) lo) items
  | _ => True
  end.

(* [lo] is a lower bound of the start of the expression being built; every
   pending item that carries a span lies before it, and so on down to [base] *)
Fixpoint stack_ok (stk : list stack_item) (lo base : N) : Prop :=
  match stk with
  | [] => base <= lo
  | it :: r =>
      item_ok it lo /\
      match item_span it with
      | Some sp => fst sp <= snd sp /\ snd sp <= lo /\ stack_ok r (fst sp) base
      | None => stack_ok r lo base
      end
  end.

Definition pre_ok (st : pstate) (stk : list stack_item) (base p : N) : Prop :=
  match st with
  | StParsed e | StBinaryRhs _ e =>
      fst (expr_span e) <= snd (expr_span e) /\ snd (expr_span e) <= p /\
      within (fst (expr_span e)) (snd (expr_span e)) e /\
      stack_ok stk (fst (expr_span e)) base
  | _ => stack_ok stk p base
  end.

Lemma wi_mono a b e a' b' : wi a b e -> a' <= a -> b <= b' -> wi a' b' e.
Proof. unfold wi. intros [H1 H2] Ha Hb. split; [eapply sin_mono; eauto|eapply within_mono; eauto]. Qed.

Lemma stack_ok_mono stk : forall lo lo' base, lo <= lo' -> stack_ok stk lo base -> stack_ok stk lo' base.
Proof.
  induction stk as [|it r IH]; intros lo lo' base Hle; cbn [stack_ok].
  - lia.
  - intros [Hi H]. split.
    + destruct it; cbn [item_ok] in *; auto. eapply all_mono; [exact Hi|].
      intros x Hx. eapply wi_mono; [exact Hx|lia|lia].
    + destruct (item_span it) as [sp|]; [|eapply IH; eauto]. destruct H as (H1 & H2 & H3).
      repeat split; try lia. exact H3.
Qed.

(* pre- and postcondition of the suffix productions, which extend a parsed [lhs]: it is nested and
   ends before the position; the result is nested and starts where [lhs] does *)
Definition Rl (lhs : expr) (p : N) : Prop :=
  fst (expr_span lhs) <= snd (expr_span lhs) /\ snd (expr_span lhs) <= p /\
  within (fst (expr_span lhs)) (snd (expr_span lhs)) lhs.
Definition Ql (lhs : expr) (p : N) (e : expr) (p' : N) : Prop :=
  fst (expr_span e) = fst (expr_span lhs) /\ fst (expr_span e) <= snd (expr_span e) /\
  snd (expr_span e) <= p' /\ within (fst (expr_span e)) (snd (expr_span e)) e.

(* Symbolic execution of a production [m] for a goal [hw R m Q].  [start] introduces the state
   with [W] and the precondition.  [step] then applies the [wp] rule for the head of the program.
   Where that is a primitive or a production done before, its triple (a hint in [hwdb] or a
   hypothesis) is used through [wp_use]: its precondition is shown by [fin], and execution goes on
   under its postcondition, which [wp_intros] takes apart into order facts between positions and
   [within]-facts about the values.  A [panic] site stands under a look-ahead test that contradicts
   how control got there ([peek_contra]).  At a [ret] what is left is the postcondition for the value
   built, which [fin] unfolds and [ws] proves part by part: order goals by [ord], a part of the value
   from the hypothesis about it, moved to the wider bounds by the monotonicity lemma of its type. *)
Create HintDb hwdb discriminated.
#[local] Hint Resolve hw_eat_simple hw_eat_ident hw_eat_number hw_eat_string hw_eat_text_block hw_push_expected : hwdb.

Ltac dval a :=
  lazymatch type of a with
  | option _ => let x := fresh "v" in destruct a as [x|]; [dval x|]
  | prod _ _ => let x := fresh "v" in let y := fresh "v" in destruct a as [x y]; dval x; dval y
  | unit => destruct a
  | _ => idtac
  end.

Ltac clean_hyps :=
  repeat match goal with
         | H : _ /\ _ |- _ => destruct H
         | H : True |- _ => clear H
         end.

Ltac wp_intros :=
  let a := fresh "a" in let s' := fresh "s" in
  let HW := fresh "HW" in let Hle := fresh "Hle" in let HQ := fresh "HQ" in
  intros a s' HW Hle HQ; dval a;
  cbv beta iota zeta in HQ |- *; unfold Ql, wi, sin in HQ; cbn [fst snd expr_span id_span oall] in HQ;
  clean_hyps.

Ltac peek_contra :=
  repeat match goal with
         | H : (_ && _)%bool = true |- _ => apply andb_true_iff in H; destruct H
         end;
  unfold peek_simple, peek_ident, peek_tok in *;
  repeat match goal with
         | H : rest ?s = _ :: _, H' : context [rest ?s] |- _ => rewrite H in H'
         end;
  cbn [nth_error] in *; congruence.

Lemma pre_ok_next T k stk base p : stack_ok stk p base -> pre_ok (next_state T k) stk base p.
Proof. unfold next_state. destruct (pt_next T k); intros H; exact H. Qed.

Lemma pre_ok_init T stk base p : stack_ok stk p base -> pre_ok (init_state T) stk base p.
Proof. intros H; exact H. Qed.

(* a hypothesis [P a b x] about the [x] of the goal [P a' b' x]: used as it is (which also
   fixes a bound the goal leaves open), or moved to the goal's bounds by
   [lem : P a b x -> _ <= _ -> _ <= _ -> P a' b' x].  The hypothesis is found by
   matching: unifying [P ?a ?b x] with every hypothesis would unfold [within]. *)
Ltac by_mono lem :=
  match goal with H : ?P _ _ ?x |- ?P _ _ ?x => first [exact H | apply (lem _ _ _ _ _ H); ord] end.

Ltac ws :=
  lazymatch goal with
  | |- _ /\ _ => split; ws
  | |- True => exact I
  | |- W _ => assumption
  | |- minv _ _ _ => first [apply minv_false | apply minv_local; assumption | apply minv_dyn; assumption]
  | |- stack_ok ?stk _ ?base =>
      match goal with H : stack_ok stk ?lo base |- _ => apply (stack_ok_mono stk lo _ base); [ord|exact H] end
  | |- sin _ _ _ => unfold sin; ws
  | |- wi _ _ _ => unfold wi; ws
  | |- within _ _ _ => first [by_mono within_rebound | progress cbn [within expr_span fst snd]; ws]
  | |- oall _ _ => progress cbn [oall]; ws
  | |- all _ (_ ++ _) => apply all_app; ws
  | |- all _ (_ :: _) => cbn [all]; ws
  | |- all _ [] => exact I
  | |- all _ _ =>
      match goal with H : all _ ?l |- all _ ?l => apply (all_mono _ _ _ _ H) end;
      cbv beta; let x := fresh "x" in let Hx := fresh "Hx" in
      intros x Hx; unfold wi, sin in Hx; clean_hyps; ws
  | |- in_param _ _ _ => first [by_mono in_param_mono | progress cbn [in_param]; ws]
  | |- in_arg _ _ _ => first [by_mono in_arg_mono | progress cbn [in_arg]; ws]
  | |- in_bind _ _ _ => first [by_mono in_bind_mono | progress cbn [in_bind]; ws]
  | |- in_spec _ _ _ => first [by_mono in_spec_mono | progress cbn [in_spec]; ws]
  | |- in_assert _ _ _ => first [by_mono in_assert_mono | progress cbn [in_assert]; ws]
  | |- in_fname _ _ _ => first [by_mono in_fname_mono | progress cbn [in_fname]; ws]
  | |- in_field _ _ _ => first [by_mono in_field_mono | progress cbn [in_field]; ws]
  | |- in_member _ _ _ => first [by_mono in_member_mono | progress cbn [in_member]; ws]
  | |- in_obj _ _ _ =>
      first [ by_mono in_obj_mono
            | eapply make_comp_in; [eassumption|ws|ws]
            | progress cbn [in_obj]; ws ]
  | |- _ => ord
  end.

Ltac fin :=
  cbv beta iota zeta; unfold Rl, Ql;
  lazymatch goal with
  | |- pre_ok (next_state _ _) _ _ _ => apply pre_ok_next
  | |- pre_ok (init_state _) _ _ _ => apply pre_ok_init
  | |- _ => idtac
  end;
  cbn [pre_ok stack_ok item_span item_ok fst snd expr_span id_span];
  ws.

Ltac step :=
  lazymatch goal with
  | |- wp (bindP _ _ _) _ => apply wp_bind
  | |- wp (orelse _ _ _ _) _ => apply wp_orelse
  | |- wp (ret _ _) _ => apply wp_ret; cbv beta iota zeta
  | |- wp (mk_span _ _ _) _ =>
      (* the order just shown stays in the context: the node built next needs it again *)
      let H := fresh in
      apply wp_mk_span; [cbv beta iota; ord|intros H; cbn [fst snd expr_span id_span] in H; cbv beta iota zeta]
  | |- wp (report_expected _) _ => apply wp_report; assumption
  | |- wp (out_of_fuel _) _ => exact I
  | |- wp (panic _ _) _ => exfalso; peek_contra
  | |- wp (fin_slice _ _ _ _ _ _) _ => unfold fin_slice
  | |- wp (prefix_form _ _ _ _) _ => unfold prefix_form
  | |- wp (lift (make_comp _ _) _) _ =>
      let oi := fresh "oi" in let Hmk := fresh "Hmk" in
      apply wp_make_comp; [assumption|intros oi Hmk; cbv beta iota zeta]
  | |- wp (eat_simple KSuper true ?s) _ =>
      let HWs := fresh "HW" in
      apply wp_eat_simple; [assumption| |];
      [ intros ? HWs ? ? ?;
        lazymatch goal with HW0 : W s |- _ => pose proof (W_span_ok _ HW0) end;
        assert (pos s = fst (tok_span (cur s))) by reflexivity
      | intros ? HWs ? ? ];
      cbv beta iota zeta
  | |- wp ((match ?x with _ => _ end) _) _ =>
      first [is_var x; destruct x | destruct x eqn:?]; cbv beta iota zeta;
      try match goal with
          | H : (?a && ?b)%bool = true |- _ =>
              is_var a; is_var b; apply andb_true_iff in H; destruct H; subst a b
          end
  | |- wp (match ?x with _ => _ end) _ =>
      first [is_var x; destruct x | destruct x eqn:?]; cbv beta iota zeta
  | |- wp ((let _ := _ in _) _) _ => cbv zeta
  | |- wp ((fun _ => _) _) _ => cbv beta
  | |- wp (?m ?s) _ =>
      (* the triple for [m] is a hint or a hypothesis; [eauto] is for the hints that leave a
         lower bound open, which the precondition then fixes *)
      eapply wp_use; [solve [auto with hwdb nocore | eauto with hwdb nocore] | assumption | cbv beta; fin | wp_intros]
  | |- W _ /\ _ => fin
  end.

Ltac start := let s := fresh "s" in let HW := fresh "HW" in let HR := fresh "HR" in
  intros s HW HR; cbv beta in HR; unfold Rl in HR; clean_hyps.
Ltac run := repeat step.

Lemma hw_expect_simple k add : hw TT (expect_simple k add) (fun p sp p' => sin p sp p').
Proof. unfold expect_simple. start. run. Qed.

Lemma hw_expect_ident add : hw TT (expect_ident add) (fun p i p' => sin p (id_span i) p').
Proof. unfold expect_ident. start. run. Qed.

Lemma hw_eat_visibility add : hw TT (eat_visibility add) (fun _ _ _ => True).
Proof. unfold eat_visibility. start. run. Qed.

Lemma hw_eat_plus_visibility add : hw TT (eat_plus_visibility add) (fun _ _ _ => True).
Proof. unfold eat_plus_visibility. start. run. Qed.

Lemma hw_eat_first O (l : list (stoken * O)) :
  hw TT (eat_first l) (fun p o p' => match o with Some x => sin p (snd x) p' | None => True end).
Proof. induction l as [|[tk op] r IH]; cbn [eat_first]; start; run. Qed.

#[local] Hint Resolve hw_expect_simple hw_expect_ident hw_eat_visibility hw_eat_plus_visibility hw_eat_first : hwdb.

Section Productions.
  Variables (T : prec_table) (pexpr : P expr) (lf : nat).
  Hypothesis Hpexpr : hw TT pexpr (fun p e p' => wi p p' e).

  Lemma hw_opt_expr c :
    hw TT (opt_expr pexpr c) (fun p o p' => oall (wi p p') o).
  Proof. unfold opt_expr. start. run. Qed.
  #[local] Hint Resolve hw_opt_expr : hwdb.

  Lemma hw_parse_maybe_simple_expr :
    hw TT parse_maybe_simple_expr (fun p o p' => oall (wi p p') o).
  Proof. unfold parse_maybe_simple_expr. apply hw_call. start. run. Qed.
  #[local] Hint Resolve hw_parse_maybe_simple_expr : hwdb.

  Lemma hw_maybe_parse_assert add :
    hw TT (maybe_parse_assert pexpr add)
       (fun p o p' => match o with
                      | Some x => sin p (fst x) p' /\ in_assert (fst (fst x)) p' (snd x)
                      | None => True end).
  Proof. unfold maybe_parse_assert. apply hw_call. start. run. Qed.
  #[local] Hint Resolve hw_maybe_parse_assert : hwdb.

  Lemma hw_params_loop lo fuel : forall acc,
    hw (fun p => lo <= p /\ all (in_param lo p) acc) (params_loop pexpr fuel acc)
       (fun p x p' => sin p (snd x) p' /\ all (in_param lo (fst (snd x))) (fst x)).
  Proof. induction fuel as [|f IH]; intros acc; cbn [params_loop]; start; run. Qed.

  Lemma hw_parse_params :
    hw TT (parse_params pexpr lf) (fun p x p' => sin p (snd x) p' /\ all (in_param p (fst (snd x))) (fst x)).
  Proof.
    unfold parse_params. apply hw_call. intros s HW _. pose proof (hw_params_loop (pos s) lf) as Hl. run.
  Qed.
  #[local] Hint Resolve hw_parse_params : hwdb.

  Lemma hw_parse_arg : hw TT (parse_arg pexpr) (fun p a p' => in_arg p p' a).
  Proof.
    unfold parse_arg. apply hw_call. intros s HW _. cbv beta.
    destruct (peek_ident 0 s && peek_simple SEq 1 s)%bool eqn:Hpk; [|run].
    apply andb_true_iff in Hpk as [Hp0 Hp1]. apply wp_orelse.
    apply wp_eat_ident; [exact HW| |].
    - intros i s1 HW1 _ Hrest Hi Hsp. cbv beta iota. apply wp_orelse.
      apply wp_eat_simple; [exact HW1| |].
      + intros s2 HW2 _ _ Hsp2. cbv beta iota.
        pose proof (W_span_ok _ HW) as Hs0. pose proof (W_span_ok _ HW1) as Hs1.
        assert (Hp : pos s = fst (id_span i)) by (rewrite Hi; reflexivity).
        assert (Hq : snd (id_span i) <= pos s1) by (rewrite Hi; exact Hsp).
        assert (Hr : fst (id_span i) <= snd (id_span i)) by (rewrite Hi; exact Hs0).
        assert (Ht : pos s1 <= pos s2) by (unfold pos in *; lia).
        run.
      + intros s2 HW2 Hno _. exfalso. unfold peek_simple, peek_tok in Hp1. rewrite Hrest in Hp1.
        cbn [nth_error] in Hp1. congruence.
    - intros s1 HW1 Hno _. congruence.
  Qed.
  #[local] Hint Resolve hw_parse_arg : hwdb.

  Lemma hw_args_loop lo fuel : forall acc,
    hw (fun p => lo <= p /\ all (in_arg lo p) acc) (args_loop pexpr fuel acc)
       (fun p x p' => sin p (snd x) p' /\ all (in_arg lo (fst (snd x))) (fst x)).
  Proof. induction fuel as [|f IH]; intros acc; cbn [args_loop]; start; run. Qed.

  Lemma hw_parse_args :
    hw TT (parse_args pexpr lf) (fun p x p' => sin p (snd x) p' /\ all (in_arg p (fst (snd x))) (fst x)).
  Proof.
    unfold parse_args. apply hw_call. intros s HW _. pose proof (hw_args_loop (pos s) lf) as Hl. run.
  Qed.
  #[local] Hint Resolve hw_parse_args : hwdb.

  Lemma hw_parse_bind : hw TT (parse_bind pexpr lf) (fun p b p' => in_bind p p' b).
  Proof. unfold parse_bind. apply hw_call. start. run. Qed.
  #[local] Hint Resolve hw_parse_bind : hwdb.

  Lemma hw_maybe_parse_obj_local :
    hw TT (maybe_parse_obj_local pexpr lf) (fun p o p' => oall (in_bind p p') o).
  Proof. unfold maybe_parse_obj_local. apply hw_call. start. run. Qed.
  #[local] Hint Resolve hw_maybe_parse_obj_local : hwdb.

  Lemma hw_maybe_parse_for_spec : hw TT (maybe_parse_for_spec pexpr) (fun p o p' => oall (in_spec p p') o).
  Proof. unfold maybe_parse_for_spec. apply hw_call. start. run. Qed.
  #[local] Hint Resolve hw_maybe_parse_for_spec : hwdb.

  Lemma hw_maybe_parse_if_spec : hw TT (maybe_parse_if_spec pexpr) (fun p o p' => oall (in_spec p p') o).
  Proof. unfold maybe_parse_if_spec. apply hw_call. start. run. Qed.
  #[local] Hint Resolve hw_maybe_parse_if_spec : hwdb.

  Lemma hw_comp_spec_loop lo fuel : forall acc,
    hw (fun p => lo <= p /\ all (in_spec lo p) acc) (comp_spec_loop pexpr fuel acc)
       (fun _ l p' => all (in_spec lo p') l).
  Proof. induction fuel as [|f IH]; intros acc; cbn [comp_spec_loop]; start; run. Qed.

  Lemma hw_maybe_parse_comp_spec :
    hw TT (maybe_parse_comp_spec pexpr lf) (fun p o p' => oall (all (in_spec p p')) o).
  Proof.
    unfold maybe_parse_comp_spec. apply hw_call. intros s HW _.
    pose proof (hw_comp_spec_loop (pos s) lf) as Hl. run.
  Qed.
  #[local] Hint Resolve hw_maybe_parse_comp_spec : hwdb.

  Lemma hw_maybe_parse_field_name :
    hw TT (maybe_parse_field_name pexpr) (fun p o p' => oall (in_fname p p') o).
  Proof. unfold maybe_parse_field_name. apply hw_call. start. run. Qed.
  #[local] Hint Resolve hw_maybe_parse_field_name : hwdb.

  Lemma hw_maybe_parse_field : hw TT (maybe_parse_field pexpr lf) (fun p o p' => oall (in_field p p') o).
  Proof. unfold maybe_parse_field. apply hw_call. start. run. Qed.
  #[local] Hint Resolve hw_maybe_parse_field : hwdb.

  Lemma hw_comp_tail lo ms :
    minv ms true true ->
    hw (fun p => lo <= p /\ all (in_member lo p) ms) (comp_tail pexpr lf ms)
       (fun p o p' => match o with
                      | Some x => sin p (snd x) p' /\ in_obj lo (fst (snd x)) (fst x)
                      | None => True end).
  Proof. intros Hinv. unfold comp_tail. start. run. Qed.

  Lemma hw_obj_loop lo fuel : forall ms c d,
    minv ms c d ->
    hw (fun p => lo <= p /\ all (in_member lo p) ms) (obj_loop pexpr lf fuel ms c d)
       (fun p x p' => sin p (snd x) p' /\ in_obj lo (fst (snd x)) (fst x)).
  Proof.
    induction fuel as [|f IH]; intros ms c d Hinv; cbn [obj_loop]; [start; run|].
    pose proof (hw_comp_tail lo) as Hct.
    intros s HW HR. cbv beta in HR. destruct HR as [Hlo Hms]. apply wp_bind.
    eapply wp_conseq with
      (Q1 := fun x s' => W s' /\ pos s <= pos s' /\ minv (fst (fst x)) (snd (fst x)) (snd x) /\
                         all (in_member lo (pos s')) (fst (fst x))).
    - run.
    - intros [[ms' c'] d'] s1 (HW1 & Hle1 & Hinv1 & Hms1). cbn [fst snd] in Hinv1, Hms1. cbv beta iota. run.
  Qed.

  Lemma hw_parse_obj_inside :
    hw TT (parse_obj_inside pexpr lf) (fun p x p' => sin p (snd x) p' /\ in_obj p (fst (snd x)) (fst x)).
  Proof.
    unfold parse_obj_inside. apply hw_call. intros s HW _.
    pose proof (hw_obj_loop (pos s) lf [] true false minv_nil) as Hl. run.
  Qed.
  #[local] Hint Resolve hw_parse_obj_inside : hwdb.

  Lemma hw_idx3 : hw TT (idx3 pexpr) (fun p x p' => sin p (snd x) p' /\ oall (wi p (fst (snd x))) (fst x)).
  Proof. unfold idx3. start. run. Qed.
  #[local] Hint Resolve hw_idx3 : hwdb.

  Lemma hw_after2 : hw TT (after2 pexpr) (fun p x p' => sin p (snd x) p' /\ oall (wi p (fst (snd x))) (fst x)).
  Proof. unfold after2. start. run. Qed.
  #[local] Hint Resolve hw_after2 : hwdb.

  Lemma hw_parse_index_expr lhs : hw (Rl lhs) (parse_index_expr pexpr lhs) (Ql lhs).
  Proof. unfold parse_index_expr. apply hw_call. start. run. Qed.
  #[local] Hint Resolve hw_parse_index_expr : hwdb.

  Lemma hw_suffix_loop fuel : forall lhs, hw (Rl lhs) (suffix_loop pexpr lf fuel lhs) (Ql lhs).
  Proof. induction fuel as [|f IH]; intros lhs; cbn [suffix_loop]; start; run. Qed.
  #[local] Hint Resolve hw_suffix_loop : hwdb.

  Lemma hw_parse_suffix_expr e : hw (Rl e) (parse_suffix_expr pexpr lf e) (Ql e).
  Proof. unfold parse_suffix_expr. apply hw_call. start. run. Qed.
  #[local] Hint Resolve hw_parse_suffix_expr : hwdb.

  Lemma hw_binds_loop lo fuel : forall acc,
    hw (fun p => all (in_bind lo p) acc /\ lo <= p) (binds_loop pexpr lf fuel acc)
       (fun _ l p' => all (in_bind lo p') l).
  Proof. induction fuel as [|f IH]; intros acc; cbn [binds_loop]; start; run. Qed.
  #[local] Hint Resolve hw_binds_loop : hwdb.

  Lemma hw_pe_loop base fuel : forall st stk,
    hw (pre_ok st stk base) (pe_loop T pexpr lf fuel st stk) (fun _ e p' => wi base p' e).
  Proof.
    induction fuel as [|f IH]; intros st stk; cbn [pe_loop]; [start; run|].
    destruct st as [e|k|k lhs| |];
      [destruct stk as [|[k|k lhs op|op osp| |start|start items|start] stk']|..];
      intros s HW HR; cbn [pre_ok stack_ok item_span item_ok] in HR; clean_hyps;
      run.
  Qed.
End Productions.

Lemma hw_parse_expr T fuel : hw TT (parse_expr T fuel) (fun p e p' => wi p p' e).
Proof.
  induction fuel as [|f IH]; [intros s HW HR; exact I|].
  change (parse_expr T (S f)) with (call (pe_loop T (parse_expr T f) f f (init_state T) [])).
  apply hw_call. intros s HW _.
  eapply wp_use; [exact (hw_pe_loop T (parse_expr T f) f IH (pos s) f (init_state T) [])|exact HW| |].
  - apply pre_ok_init. apply N.le_refl.
  - intros e s' HW' Hle HQ. cbv beta in HQ |- *. split; [exact HW'|]. split; [exact Hle|exact HQ].
Qed.

Lemma wp_parse_root_expr T fuel s :
  W s ->
  wp (parse_root_expr T fuel s) (fun e s' => wi (pos s) (pos s') e /\ rest s' = []).
Proof.
  intros HW. unfold parse_root_expr. apply wp_bind.
  eapply wp_use; [apply hw_parse_expr|exact HW|exact I|].
  intros e s1 HW1 Hle1 HQ1. cbv beta in HQ1. apply wp_bind.
  apply wp_eat_eof; [exact HW1| |].
  - intros s2 HW2 Hp Hr. apply wp_ret. rewrite Hp. split; [exact HQ1|exact Hr].
  - intros s2 HW2. apply wp_report. exact HW2.
Qed.

Theorem parse_no_panic : forall T fuel toks,
  wf_tokens toks -> forall site, parse_fuel T fuel toks <> Panic site.
Proof.
  intros T fuel toks Hwf site. apply wf_tokens_wfs in Hwf. unfold parse_fuel.
  destruct toks as [|t r]; [destruct Hwf|].
  pose proof (wp_parse_root_expr T fuel (init_pst t r) Hwf) as H.
  destruct (parse_root_expr T fuel (init_pst t r)) as [[e s']|e|site'|]; try discriminate.
  destruct H.
Qed.

Definition tok0 : token := {| tok_span := (0, 0); tok_kind := TEndOfFile |}.

Lemma parse_root_wi T fuel toks e d :
  wf_tokens toks -> parse_fuel T fuel toks = Ok (e, d) ->
  wi (fst (tok_span (hd tok0 toks))) (fst (tok_span (last toks tok0))) e.
Proof.
  intros Hwf Hp. apply wf_tokens_wfs in Hwf. unfold parse_fuel in Hp.
  destruct toks as [|t r]; [destruct Hwf|].
  pose proof (wp_parse_root_expr T fuel (init_pst t r) Hwf) as H.
  assert (Hi : I0 (t :: r) (init_pst t r)) by (exists []; reflexivity).
  pose proof (h0_parse_root_expr (t :: r) T fuel _ Hi) as Hh.
  destruct (parse_root_expr T fuel (init_pst t r)) as [[e0 s']|e0|site'|]; try discriminate.
  injection Hp as -> _. cbn [wp] in H. destruct H as [Hs Hr]. destruct Hh as [pre Hpre].
  rewrite Hr in Hpre. rewrite Hpre at 2. rewrite last_last. exact Hs.
Qed.

Theorem parse_root_span_in_range : forall T fuel toks e d,
  wf_tokens toks -> parse_fuel T fuel toks = Ok (e, d) ->
  fst (tok_span (hd tok0 toks)) <= fst (expr_span e) /\
  fst (expr_span e) <= snd (expr_span e) /\
  snd (expr_span e) <= fst (tok_span (last toks tok0)).
Proof. intros T fuel toks e d Hwf Hp. exact (proj1 (parse_root_wi T fuel toks e d Hwf Hp)). Qed.

Theorem span_nesting : forall T fuel toks e d,
  wf_tokens toks -> parse_fuel T fuel toks = Ok (e, d) ->
  within (fst (tok_span (hd tok0 toks))) (fst (tok_span (last toks tok0))) e.
Proof. intros T fuel toks e d Hwf Hp. exact (proj2 (parse_root_wi T fuel toks e d Hwf Hp)). Qed.

(* tokens of `a + b * [c]` *)
Definition ex_tok (a b : N) (k : token_kind) : token := {| tok_span := (a, b); tok_kind := k |}.
Definition ex_toks : list token :=
  [ ex_tok 0 1 (TIdent [97]); ex_tok 2 3 (TSimple SPlus); ex_tok 4 5 (TIdent [98]);
    ex_tok 6 7 (TSimple SAsterisk); ex_tok 8 9 (TSimple SLeftBracket); ex_tok 9 10 (TIdent [99]);
    ex_tok 10 11 (TSimple SRightBracket); ex_tok 11 11 TEndOfFile ].
(* tokens of `a + ]` *)
Definition ex_bad : list token :=
  [ ex_tok 0 1 (TIdent [97]); ex_tok 2 3 (TSimple SPlus); ex_tok 4 5 (TSimple SRightBracket);
    ex_tok 5 5 TEndOfFile ].

(* span_nesting has the same hypotheses as parse_root_span_in_range: met by ex_toks_wf / ex_toks_ok *)
Example ex_toks_wf : wf_tokens ex_toks /\ wf_tokens ex_bad.
Proof. split; apply wf_tokens_wfs; vm_compute; repeat split; discriminate. Qed.

Example ex_toks_ok : exists e d, parse spec_prec ex_toks = Ok (e, d) /\ expr_span e = (0, 11).
Proof. eexists. eexists. vm_compute. split; reflexivity. Qed.

Example ex_bad_err : exists e, parse spec_prec ex_bad = Err e /\ pe_span e = (4, 5).
Proof. eexists. vm_compute. split; reflexivity. Qed.
