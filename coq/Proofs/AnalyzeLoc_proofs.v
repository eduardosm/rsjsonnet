(* Proofs/AnalyzeLoc_proofs.v — every span carried by a diagnostic of the analyzer
   is a span carried by a node of the analysed tree (continues Analyze_proofs.v). *)
From RJ Require Import Base.Outcome Model.Token Model.Ast Model.Ir Model.Analyze Proofs.Analyze_proofs.
Local Open Scope outcome_scope.

Definition LocIn (S : list span) (N : list expr) (x : analyze_error) : Prop :=
  forall sp, In sp (error_spans x) -> In sp S \/ exists n, In n N /\ In sp (node_spans n).

Lemma LocIn_mono S S' N N' x : incl S S' -> incl N N' -> LocIn S N x -> LocIn S' N' x.
Proof.
  intros HS HN H sp Hsp. destruct (H sp Hsp) as [H1|(n & H1 & H2)]; [left; auto | right; exists n; auto].
Qed.

Definition LocE (e : expr) : Prop :=
  forall en ts x, analyze_expr e en ts = Err x -> LocIn [] (nodes e) x.

Lemma obind_err {A B} (x : res A) (f : A -> res B) e :
  obind x f = Err e -> x = Err e \/ exists a, x = Ok a /\ f a = Err e.
Proof. destruct x; simpl; intros H; try discriminate; [right; exists a; auto | left; injection H as ->; reflexivity]. Qed.

Lemma mapM_err {A B} (f : A -> res B) l x : mapM f l = Err x -> exists a, In a l /\ f a = Err x.
Proof.
  induction l as [|y t IH]; simpl; intros H; [discriminate|].
  apply obind_err in H. destruct H as [H|(b & Hb & H)]; [exists y; auto|].
  apply obind_err in H. destruct H as [H|(c & Hc & H)]; [| discriminate].
  destruct (IH H) as (a & Ha & Hf). exists a; auto.
Qed.

Lemma optM_err {A B} (f : A -> res B) o x : optM f o = Err x -> exists a, o = Some a /\ f a = Err x.
Proof.
  destruct o; simpl; intros H; [| discriminate].
  apply obind_err in H. destruct H as [H|(b & Hb & H)]; [eauto | discriminate].
Qed.

Lemma in_flat {A B} (g : A -> list B) l y a : In a l -> In y (g a) -> In y (flat g l).
Proof.
  induction l as [|z t IH]; simpl; intros Ha Hy; [contradiction|].
  apply in_app_iff. destruct Ha as [->|Ha]; auto.
Qed.

Lemma incl_flat {A B} (g : A -> list B) l a : In a l -> incl (g a) (flat g l).
Proof. intros Ha y Hy. eapply in_flat; eauto. Qed.

Lemma node_self e : In e (nodes e).
Proof. destruct e; simpl; auto. Qed.

Lemma span_self e : In (expr_span e) (node_spans e).
Proof. unfold node_spans. simpl. auto. Qed.

Lemma declare_names_err mk ids : forall seen e x,
  (forall o r n, error_spans (mk o r n) = [r; o]) ->
  declare_names mk ids seen e = Err x ->
  forall sp, In sp (error_spans x) -> In sp (map id_span ids) \/ In sp (map snd seen).
Proof.
  intros seen e x Hmk. revert seen e. induction ids as [|i rest IH]; intros seen e; simpl; [discriminate|].
  destruct (assoc (id_value i) seen) as [orig|] eqn:E.
  - intros H sp Hsp. injection H as <-. rewrite Hmk in Hsp. destruct Hsp as [<-|[<-|[]]]; auto.
    right. apply assoc_Some_In in E. apply in_map_iff. exists (id_value i, orig); auto.
  - intros H sp Hsp. destruct (IH _ _ H sp Hsp) as [H1|H1]; auto.
    simpl in H1. destruct H1 as [<-|H1]; auto.
Qed.

Lemma declare_top_err mk ids e x :
  (forall o r n, error_spans (mk o r n) = [r; o]) ->
  declare_names mk ids [] e = Err x -> LocIn (map id_span ids) [] x.
Proof.
  intros Hmk H sp Hsp. destruct (declare_names_err mk ids [] e x Hmk H sp Hsp) as [H1|[]]; auto.
Qed.

(* [loc_of H]: the goal follows from [H : LocIn S N x] because [S] and [N] sit inside the
   goal's span and node lists (which are appends mirroring the syntax) *)
Local Hint Resolve incl_nil_l incl_flat : datatypes.
Ltac loc_of H := eapply LocIn_mono; [ | | exact H]; simpl; auto 8 with datatypes.
(* the failing step of [do a <- x; f a]: [x] itself, or [f a] *)
Ltac split_err H := apply obind_err in H; destruct H as [H|(? & ? & H)].

Lemma optM_loc o en ts x : opt_all LocE o ->
  optM (fun y => analyze_expr y en ts) o = Err x -> LocIn [] (opt_list nodes o) x.
Proof.
  intros Hq H. apply optM_err in H. destruct H as (a & -> & H). simpl in *. eapply Hq; eauto.
Qed.

Lemma param_loc p en x : param_all LocE p ->
  analyze_param_with analyze_expr en p = Err x -> LocIn [] (param_nodes nodes p) x.
Proof.
  destruct p as [n d]; simpl; intros Hq H. split_err H; [| discriminate]. eapply optM_loc; eauto.
Qed.

Lemma param_ident_spans ps : map id_span (map param_ident ps) = params_spans ps.
Proof. unfold params_spans. rewrite map_map. reflexivity. Qed.

Lemma function_loc ps body en x : Forall (param_all LocE) ps -> LocE body ->
  analyze_function_with analyze_expr ps body en = Err x ->
  LocIn (params_spans ps) (flat (param_nodes nodes) ps ++ nodes body) x.
Proof.
  intros Hps Hb H. unfold analyze_function_with in H. split_err H; [| split_err H].
  - apply declare_top_err in H; [| reflexivity]. rewrite param_ident_spans in H. loc_of H.
  - apply mapM_err in H. destruct H as (p & Hin & H). rewrite Forall_forall in Hps.
    apply param_loc in H; auto. loc_of H.
  - split_err H; [| discriminate]. apply Hb in H. loc_of H.
Qed.

Lemma bind_loc b en x : bind_all LocE b ->
  analyze_bind_with analyze_expr en b = Err x -> LocIn (bind_spans b) (bind_nodes nodes b) x.
Proof.
  destruct b as [n [[l sp]|] v]; simpl; intros [Hps Hv] H; (split_err H; [| discriminate]).
  - apply function_loc in H; auto. loc_of H.
  - apply Hv in H. loc_of H.
Qed.

Lemma binds_loc bs en x : Forall (bind_all LocE) bs ->
  mapM (analyze_bind_with analyze_expr en) bs = Err x ->
  LocIn (flat bind_spans bs) (flat (bind_nodes nodes) bs) x.
Proof.
  intros Hq H. apply mapM_err in H. destruct H as (b & Hin & H). rewrite Forall_forall in Hq.
  apply bind_loc in H; auto. loc_of H.
Qed.

Lemma assert_loc a en x : assert_all LocE a ->
  analyze_assert_with analyze_expr a en = Err x -> LocIn [] (assert_nodes nodes a) x.
Proof.
  destruct a as [sp c m]; simpl; intros [Hc Hm] H. split_err H.
  - apply Hc in H. loc_of H.
  - split_err H; [| discriminate]. apply optM_loc in H; auto. loc_of H.
Qed.

Lemma specs_loc cs : Forall (spec_all LocE) cs -> forall en x,
  analyze_comp_spec_with analyze_expr cs en = Err x -> LocIn [] (flat (spec_nodes nodes) cs) x.
Proof.
  induction 1 as [|c rest Hc Hrest IH]; intros en x H; simpl in H; [discriminate|].
  destruct c as [v e|e]; simpl in Hc; (split_err H; [apply Hc in H; loc_of H|]);
    (split_err H; [| discriminate]); apply IH in H; loc_of H.
Qed.

Lemma args_loc args en : Forall (arg_all LocE) args -> forall pos named x,
  analyze_args_with analyze_expr en args pos named = Err x -> LocIn [] (flat (arg_nodes nodes) args) x.
Proof.
  induction 1 as [|a rest Ha Hrest IH]; intros pos named x H; simpl in H; [discriminate|].
  destruct a as [e|n e]; simpl in Ha.
  - destruct named.
    + split_err H; [apply Ha in H | apply IH in H]; loc_of H.
    + injection H as <-. intros sp [<-|[]]. right. exists e. split; [| apply span_self].
      simpl. apply in_app_iff. left. apply node_self.
  - split_err H; [apply Ha in H | apply IH in H]; loc_of H.
Qed.

Lemma flat_app {A B} (g : A -> list B) a b : flat g (a ++ b) = flat g a ++ flat g b.
Proof. induction a as [|x t IH]; simpl; auto. rewrite IH, app_assoc. reflexivity. Qed.

Lemma fix_field_name_err fields fixf name sp x :
  fix_field_name fields fixf name sp = Err x ->
  exists f, In f fields /\ error_spans x = [sp; irf_name_span f].
Proof.
  unfold fix_field_name. destruct (assoc name fixf) as [idx|]; [| discriminate].
  destruct (nth_error fields idx) as [f|] eqn:En; [| discriminate].
  intros H; injection H as <-. exists f. split; [eapply nth_error_In; eauto | reflexivity].
Qed.

Lemma field_name_ok_span n en fields fixf r :
  analyze_field_name_with analyze_expr en fields fixf n = Ok r -> In (snd (fst r)) (fname_spans n).
Proof.
  destruct n as [i|s sp|e sp]; simpl; intros H.
  1,2: apply fix_field_name_res in H; subst r; simpl; auto.
  apply obind_ok_inv in H. destruct H as (y & _ & [= <-]). simpl. auto.
Qed.

(* [Sacc]: the name spans of the fields collected so far, where the original of a repeat points *)
Lemma field_name_loc n en fields fixf Sacc x : fname_all LocE n ->
  analyze_field_name_with analyze_expr en fields fixf n = Err x ->
  Forall (fun f => In (irf_name_span f) Sacc) fields ->
  LocIn (fname_spans n ++ Sacc) (fname_nodes nodes n) x.
Proof.
  intros Hq H Hacc. rewrite Forall_forall in Hacc. destruct n as [i|s sp|e sp]; simpl in *.
  1,2: apply fix_field_name_err in H; destruct H as (f & Hf & Heq); intros sp' Hsp; rewrite Heq in Hsp;
    destruct Hsp as [<-|[<-|[]]]; left; simpl; auto.
  split_err H; [| discriminate]. apply Hq in H. loc_of H.
Qed.

Lemma members_loc ms outer inner : Forall (member_all LocE) ms ->
  forall locals asserts fields fixf Sacc x,
  analyze_members_with analyze_expr outer inner ms locals asserts fields fixf = Err x ->
  Forall (fun f => In (irf_name_span f) Sacc) fields ->
  LocIn (Sacc ++ flat member_spans ms) (flat (member_nodes nodes) ms) x.
Proof.
  induction 1 as [|m rest Hm Hrest IH]; intros locals asserts fields fixf Sacc x H Hacc; simpl in H; [discriminate|].
  destruct m as [b|a|f]; simpl in Hm.
  - split_err H; [apply bind_loc in H; auto | apply IH with (Sacc := Sacc) in H; auto]; loc_of H.
  - split_err H; [apply assert_loc in H; auto | apply IH with (Sacc := Sacc) in H; auto]; loc_of H.
  - assert (Hfn : fname_all LocE (field_fname f)) by (destruct f; simpl in *; tauto).
    split_err H; [| split_err H].
    + (* the value *)
      destruct f as [n plus vis v | n ps psp vis v]; simpl in *.
      * apply (proj2 Hm) in H. loc_of H.
      * apply function_loc in H; try tauto. loc_of H.
    + (* the name *)
      apply field_name_loc with (Sacc := Sacc) in H; auto. destruct f; loc_of H.
    + (* the rest, with this field's name recorded *)
      match goal with Hnm : _ = Ok _ |- _ => apply field_name_ok_span in Hnm; rename Hnm into Hsp end.
      apply IH with (Sacc := Sacc ++ member_spans (MField f)) in H.
      * eapply LocIn_mono; [| | exact H]; simpl; [rewrite <- app_assoc|]; auto with datatypes.
      * apply Forall_app. split.
        -- revert Hacc. apply Forall_impl. intros g Hg. apply in_app_iff; auto.
        -- constructor; [| constructor]. simpl. apply in_app_iff. right.
           destruct f; simpl in *; [auto | apply in_app_iff; auto].
Qed.

Lemma binds_ident_spans bs : incl (map id_span (map bind_ident bs)) (flat bind_spans bs).
Proof.
  induction bs as [|[n ps v] rest IH]; simpl; auto with datatypes.
Qed.

Lemma member_locals_spans ms :
  incl (map id_span (map bind_ident (member_locals ms))) (flat member_spans ms).
Proof.
  induction ms as [|m rest IH]; simpl; [| destruct m as [[n ps v]|a|f]; simpl]; auto with datatypes.
Qed.

Lemma objinside_loc o en x : obj_all LocE o ->
  analyze_objinside_with analyze_expr o en = Err x -> LocIn (obj_spans o) (obj_nodes nodes o) x.
Proof.
  destruct o as [ms | l1 name plus body l2 cs]; simpl; intros Hq H.
  - split_err H.
    + apply declare_top_err in H; [| reflexivity].
      eapply LocIn_mono; [apply member_locals_spans | | exact H]. auto with datatypes.
    + apply obind_err in H. destruct H as [H|([[ls as_] fs] & _ & H)]; [| discriminate].
      apply members_loc with (Sacc := []) in H; auto.
  - destruct Hq as (Hl1 & Hn & Hb & Hl2 & Hcs). rewrite flat_app.
    apply obind_err in H. destruct H as [H|([parts e'] & _ & H)]; [apply specs_loc in H; auto; loc_of H|].
    split_err H.
    { apply declare_top_err in H; [| reflexivity].
      eapply LocIn_mono; [rewrite <- flat_app; apply binds_ident_spans | | exact H]. auto with datatypes. }
    split_err H; [apply binds_loc in H; auto; loc_of H|].
    split_err H; [apply binds_loc in H; auto; loc_of H|].
    split_err H; [apply Hn in H; loc_of H|].
    split_err H; [apply Hb in H; loc_of H | discriminate].
Qed.

Lemma import_loc mk sp path x : analyze_import mk sp path = Err x -> LocIn [] (nodes path) x.
Proof.
  intros H sp' Hsp. right. exists path. split; [apply node_self|].
  assert (sp' = expr_span path); [| subst; apply span_self].
  destruct path; simpl in H; try discriminate; injection H as <-; simpl in Hsp; destruct Hsp as [<-|[]]; reflexivity.
Qed.

Lemma LocIn_node e S N x :
  incl S (node_spans e) -> incl N (nodes e) -> LocIn S N x -> LocIn [] (nodes e) x.
Proof.
  intros HS HN H sp Hsp. right. destruct (H sp Hsp) as [H1|(n & H1 & H2)];
    [exists e; split; [apply node_self | auto] | exists n; auto].
Qed.

(* [at_node H]: as [loc_of], when the lists of [H] are parts of what the node itself carries *)
Ltac at_node H := eapply LocIn_node; [ | | exact H]; unfold node_spans; simpl; auto 8 with datatypes.
(* the failing part is a sub-expression (induction hypothesis) or one of the auxiliary forms *)
Ltac child H :=
  first [ match type of H with analyze_expr ?c _ _ = Err _ =>
            match goal with Hq : LocE c |- _ => apply Hq in H end end
        | apply optM_loc in H; [| assumption]
        | apply objinside_loc in H; [| assumption]
        | apply specs_loc in H; [| assumption]
        | apply args_loc in H; [| assumption]
        | apply assert_loc in H; [| assumption]
        | apply binds_loc in H; [| assumption]
        | apply function_loc in H; [| assumption | assumption]
        | apply import_loc in H ];
  at_node H.
(* the node's own span (or that of its super token or identifier) *)
Ltac own_span H := injection H as <-; intros ? [<-|[]]; right; eexists; split; [apply node_self | simpl; auto].

Theorem analyze_LocE : forall e, LocE e.
Proof.
  induction e using expr_ind'. rename H into Hc. intros en ts x H.
  destruct e; simpl in Hc; simpl in H;
    repeat match goal with Hx : _ /\ _ |- _ => destruct Hx end;
    try discriminate;
    (* self, $, super outside an object point at the node itself; otherwise the parts are
       analysed in sequence and the error is that of the one that failed *)
    try (destruct (is_obj en); [| own_span H]);
    try solve [discriminate | child H | repeat (split_err H; [child H|]); discriminate].
  - (* ENumber *) destruct (number_parses n); discriminate.
  - (* EArray *) split_err H; [| discriminate]. apply mapM_err in H. destruct H as (a & Hin & H).
    rewrite Forall_forall in Hc. apply (Hc a Hin) in H. at_node H.
  - (* EIdent *) destruct (env_contains en (id_value name)); [discriminate | own_span H].
  - (* ELocal *) split_err H; [| split_err H; [child H | split_err H; [child H | discriminate]]].
    apply declare_top_err in H; [| reflexivity].
    eapply LocIn_node; [apply incl_tl, binds_ident_spans | | exact H]. auto with datatypes.
Qed.

(* headline: a diagnostic only carries spans that some node of the program carries *)
Theorem analyze_error_located : forall e en ts x,
  analyze_expr e en ts = Err x ->
  forall sp, In sp (error_spans x) -> exists n, In n (nodes e) /\ In sp (node_spans n).
Proof.
  intros e en ts x H sp Hsp. destruct (analyze_LocE e en ts x H sp Hsp) as [[]|H1]; exact H1.
Qed.
