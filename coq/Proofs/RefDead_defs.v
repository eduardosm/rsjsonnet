(* Proofs/RefDead_defs.v — C02/C04: dead-binding irrelevance over the reference interpreter, part 1.

   A structural simulation relation between two runs that differ only in the value expression of
   one `local x = _` frame which is never looked up: two environments are related when they are
   equal frame by frame, except for dead frames  FVars [] [(x, e1)]  /  FVars [] [(x, e2)];
   the live scope of a related pair removes x below a dead frame, and every stored expression is
   closed in the live scope — so no lookup can reach the dead binding. *)
From RJ Require Import Base.Outcome Base.F64 Model.Token Model.Ast Model.RefCore Model.RefValue Model.RefEval.
From RJ Require Import Proofs.RefSem_params Proofs.RefScope_defs.
From Coq Require Import Lia.
Local Open Scope N_scope.

Lemma Forall2_refl {A} (R : A -> A -> Prop) l : (forall a, In a l -> R a a) -> Forall2 R l l.
Proof. induction l; intros H; constructor; [apply H; left; reflexivity | apply IHl; intros; apply H; right; assumption]. Qed.

Lemma Forall2_imp {A} (R Q : A -> A -> Prop) l l' : (forall a a', R a a' -> Q a a') -> Forall2 R l l' -> Forall2 Q l l'.
Proof. intros H. induction 1; constructor; auto. Qed.

Lemma Forall2_map_intro {A B} (R : A -> A -> Prop) (Q : B -> B -> Prop) (f f' : A -> B) l l' :
  Forall2 R l l' -> (forall a a', R a a' -> Q (f a) (f' a')) -> Forall2 Q (map f l) (map f' l').
Proof. intros H HQ. induction H; simpl; constructor; auto. Qed.

Lemma Forall2_map_same {A B} (R : B -> B -> Prop) (f f' : A -> B) l :
  (forall a, In a l -> R (f a) (f' a)) -> Forall2 R (map f l) (map f' l).
Proof. intros H. apply Forall2_map_intro with (R := fun a a' => a = a' /\ In a l); [apply Forall2_refl; auto | intros a a' [<- Ha]; auto]. Qed.

Lemma Forall2_concat {A} (R : A -> A -> Prop) ll ll' : Forall2 (Forall2 R) ll ll' -> Forall2 R (concat ll) (concat ll').
Proof. induction 1; simpl; [constructor | apply Forall2_app; assumption]. Qed.

Lemma Forall2_len {A B} (R : A -> B -> Prop) l l' : Forall2 R l l' -> lenN l = lenN l'.
Proof. intros H. unfold lenN. f_equal. induction H; simpl; congruence. Qed.

Lemma Forall2_nthN {A} (R : A -> A -> Prop) : forall l l' i, Forall2 R l l' ->
  match nthN l i, nthN l' i with Some a, Some a' => R a a' | None, None => True | _, _ => False end.
Proof.
  intros l l' i H. revert i. induction H as [|a a' r r' Ha _ IH]; intros i; simpl; [exact I|].
  destruct (i =? 0); [exact Ha | apply IH].
Qed.

Lemma Forall2_dropN {A} (R : A -> A -> Prop) : forall l l' i, Forall2 R l l' -> Forall2 R (dropN l i) (dropN l' i).
Proof.
  intros l l' i H. revert i. induction H; intros i; simpl; [constructor|]. destruct (i =? 0); [constructor; assumption | auto].
Qed.

Lemma Forall2_take_step {A} (R : A -> A -> Prop) : forall l l' n st k, Forall2 R l l' -> Forall2 R (take_step l n st k) (take_step l' n st k).
Proof.
  intros l l' n st k H. revert n k. induction H; intros n k; simpl; [constructor|].
  destruct (n =? 0); [constructor|]. destruct (k =? 0); [constructor; auto | auto].
Qed.
Lemma Forall2_slice {A} (R : A -> A -> Prop) l l' a b c : Forall2 R l l' -> Forall2 R (slice_list l a b c) (slice_list l' a b c).
Proof.
  intros H. unfold slice_list. rewrite <- (Forall2_len R l l' H). apply Forall2_take_step. apply Forall2_dropN. exact H.
Qed.

Lemma Forall2_rev {A} (R : A -> A -> Prop) l l' : Forall2 R l l' -> Forall2 R (rev l) (rev l').
Proof. induction 1; simpl; [constructor | apply Forall2_app; [assumption | constructor; [assumption | constructor]]]. Qed.

Lemma Forall2_combine {A B} (R : B -> B -> Prop) (ns : list A) : forall l l', Forall2 R l l' ->
  Forall2 (fun p p' => fst p = fst p' /\ R (snd p) (snd p')) (combine ns l) (combine ns l').
Proof.
  induction ns as [|n r IH]; intros l l' H; simpl; [constructor|]. inversion H; subst; [constructor|].
  constructor; [split; [reflexivity | assumption] | apply IH; assumption].
Qed.

Section Dead.
Variable x : str.
Variables e1 e2 : list frame.      (* the dead frames on the left / on the right (either may be empty) *)

Definition rm (vs : list str) : list str := filter (fun y => negb (str_eqb y x)) vs.

Lemma in_rm y vs : In y (rm vs) <-> In y vs /\ y <> x.
Proof.
  unfold rm. rewrite filter_In. split; intros [H1 H2]; split; auto.
  - intros ->. rewrite str_eqb_refl in H2. discriminate.
  - destruct (str_eqb y x) eqn:E; [apply str_eqb_eq in E; contradiction | reflexivity].
Qed.

Lemma rm_other y : x <> y -> rm [y] = [y].
Proof. intros H. unfold rm. simpl. destruct (str_eqb y x) eqn:E; [apply str_eqb_eq in E; congruence | reflexivity]. Qed.

Definition lclosed (locals : list (str * cexpr)) (vs : list str) (body : cexpr) : Prop :=
  Forall (fun p => closed (map fst locals ++ vs) true (snd p)) locals /\ closed (map fst locals ++ vs) true body.

Definition names_eq {A B} (p : str * A) (p' : str * B) : Prop := fst p = fst p'.

Inductive vrel : value -> value -> Prop :=
| VR_null : vrel VNull VNull
| VR_bool b : vrel (VBool b) (VBool b)
| VR_num f : vrel (VNum f) (VNum f)
| VR_str s : vrel (VStr s) (VStr s)
| VR_arr items items' : Forall2 trel items items' -> vrel (VArr items) (VArr items')
| VR_obj ls ls' c : Forall2 lrel ls ls' -> vrel (VObj ls c) (VObj ls' c)
| VR_fun ps body en en' vs io :
    erel en en' vs io -> closed vs io (CFunc ps body) -> vrel (VFun ps body en) (VFun ps body en')
| VR_builtin b : vrel (VBuiltin b) (VBuiltin b)
with trel : thunk -> thunk -> Prop :=
| TR_th e en en' vs io : erel en en' vs io -> closed vs io e -> trel (Th e en) (Th e en')
| TR_tv v v' : vrel v v' -> trel (Tv v) (Tv v')
| TR_call f f' args args' : vrel f f' -> Forall2 trel args args' -> trel (TCall f args) (TCall f' args')
with erel : list frame -> list frame -> list str -> bool -> Prop :=
| ER_nil : erel [] [] [] false
| ER_vars b b' r rest rest' vs io :
    Forall2 (fun p p' => fst p = fst p' /\ trel (snd p) (snd p')) b b' ->
    Forall (fun p => closed (map fst b ++ map fst r ++ vs) io (snd p)) r ->
    erel rest rest' vs io ->
    erel (FVars b r :: rest) (FVars b' r :: rest') (map fst b ++ map fst r ++ vs) io
| ER_obj ls ls' i c rest rest' vs io :
    Forall2 lrel ls ls' -> erel rest rest' vs io -> erel (FObj ls i c :: rest) (FObj ls' i c :: rest') vs true
| ER_dead rest rest' vs io :
    erel rest rest' vs io -> erel (e1 ++ rest) (e2 ++ rest') (rm vs) io
with lrel : layer -> layer -> Prop :=
| LR_intro locals asserts fields fields' en en' std vs io :
    erel en en' vs io ->
    Forall (fun a => lclosed locals vs (fst a) /\ (forall m, snd a = Some m -> lclosed locals vs m)) asserts ->
    Forall2 (frel locals vs) fields fields' ->
    lrel (MkLayer locals asserts fields en std) (MkLayer locals asserts fields' en' std)
with frel : list (str * cexpr) -> list str -> str * field -> str * field -> Prop :=
| FR_none locals vs n vis plus body :
    lclosed locals vs body -> frel locals vs (n, MkField vis plus body None) (n, MkField vis plus body None)
| FR_some locals vs n vis plus body fe fe' vs' io' :
    erel fe fe' vs' io' -> lclosed locals vs' body ->
    frel locals vs (n, MkField vis plus body (Some fe)) (n, MkField vis plus body (Some fe')).

Definition lsrel (ls ls' : list layer) : Prop := Forall2 lrel ls ls'.
Definition tsrel (l l' : list thunk) : Prop := Forall2 trel l l'.
Definition bvrel (b b' : list (str * thunk)) : Prop := Forall2 (fun p p' => fst p = fst p' /\ trel (snd p) (snd p')) b b'.

Definition dead_ok (fs : list frame) : Prop :=
  forall en, (forall y, y <> x -> lookup_var y (fs ++ en) = lookup_var y en) /\ lookup_obj (fs ++ en) = lookup_obj en.
Definition dead_pair : Prop := dead_ok e1 /\ dead_ok e2.
Hypothesis Hd : dead_pair.

Lemma erel_vars b b' en en' vs io : bvrel b b' -> erel en en' vs io -> erel (FVars b [] :: en) (FVars b' [] :: en') (map fst b ++ vs) io.
Proof. intros Hb He. exact (ER_vars b b' [] en en' vs io Hb (Forall_nil _) He). Qed.

Lemma erel_locals r en en' vs io : Forall (fun p => closed (map fst r ++ vs) io (snd p)) r -> erel en en' vs io ->
  erel (FVars [] r :: en) (FVars [] r :: en') (map fst r ++ vs) io.
Proof. intros Hr He. exact (ER_vars [] [] r en en' vs io (Forall2_nil _) Hr He). Qed.

Lemma erel_hasobj : forall en en' vs io, erel en en' vs io -> hasobj en = io /\ hasobj en' = io.
Proof.
  induction 1 as [| | | rest rest' vs io Hrest IH]; simpl; auto.
  unfold hasobj in *. destruct Hd as [H1 H2]. rewrite (proj2 (H1 rest)), (proj2 (H2 rest')). exact IH.
Qed.

Lemma bvrel_names b b' : bvrel b b' -> map fst b = map fst b'.
Proof. induction 1 as [|p p' r r' [Hn _] _ IH]; simpl; [reflexivity | rewrite Hn, IH; reflexivity]. Qed.

Lemma bvrel_assoc : forall b b' y, bvrel b b' ->
  match assoc y b, assoc y b' with
  | Some t, Some t' => trel t t'
  | None, None => True
  | _, _ => False
  end.
Proof.
  intros b b' y H. induction H as [|[n t] [n' t'] r r' [Hn Ht] _ IH]; simpl; [exact I|].
  simpl in Hn. subst n'. destruct (str_eqb y n); [exact Ht | exact IH].
Qed.

Lemma erel_lookup_var : forall en en' vs io, erel en en' vs io -> forall y, In y vs ->
  exists t t', lookup_var y en = Some t /\ lookup_var y en' = Some t' /\ trel t t'.
Proof.
  induction 1 as [| b b' r rest rest' vs io Hb Hr Hrest IH | ls ls' i c rest rest' vs io Hls Hrest IH | rest rest' vs io Hrest IH];
    intros y Hy.
  - destruct Hy.
  - simpl. pose proof (bvrel_assoc b b' y Hb) as Ha.
    destruct (assoc y b) as [t|] eqn:E1; destruct (assoc y b') as [t'|] eqn:E2; try contradiction.
    + exists t, t'. auto.
    + destruct (assoc y r) as [ex|] eqn:Er.
      * exists (Th ex (FVars b r :: rest)), (Th ex (FVars b' r :: rest')). repeat split.
        econstructor; [econstructor; eassumption|]. apply in_assoc_in in Er. rewrite Forall_forall in Hr. apply (Hr _ Er).
      * apply IH. apply in_app_or in Hy. destruct Hy as [Hy | Hy].
        -- exfalso. apply (in_assoc_some y b Hy). exact E1.
        -- apply in_app_or in Hy. destruct Hy as [Hy | Hy]; [exfalso; apply (in_assoc_some y r Hy); exact Er | exact Hy].
  - simpl. apply IH. exact Hy.
  - apply in_rm in Hy. destruct Hy as [Hy Hne]. destruct Hd as [H1 H2].
    rewrite (proj1 (H1 rest) y Hne), (proj1 (H2 rest') y Hne). apply IH. exact Hy.
Qed.

Lemma erel_lookup_obj : forall en en' vs io, erel en en' vs io -> io = true ->
  exists ls ls' i c, lookup_obj en = Some (ls, i, c) /\ lookup_obj en' = Some (ls', i, c) /\ lsrel ls ls'.
Proof.
  induction 1 as [| | | rest rest' vs io Hrest IH]; intros Hio; try discriminate; simpl; eauto 10.
  destruct Hd as [H1 H2]. rewrite (proj2 (H1 rest)), (proj2 (H2 rest')). apply IH. exact Hio.
Qed.

Lemma frel_assoc : forall locals vs fs fs' n, Forall2 (frel locals vs) fs fs' ->
  match assoc n fs, assoc n fs' with
  | Some f, Some f' => frel locals vs (n, f) (n, f')
  | None, None => True
  | _, _ => False
  end.
Proof.
  intros locals vs fs fs' n H. induction H as [|p p' r r' Hp _ IH]; simpl; [exact I|].
  inversion Hp; subst; simpl; (destruct (str_eqb n n0) eqn:E; [apply str_eqb_eq in E; subst; exact Hp | exact IH]).
Qed.

Lemma frel_vis locals vs n f f' : frel locals vs (n, f) (n, f') -> f_vis f = f_vis f' /\ f_plus f = f_plus f' /\ f_body f = f_body f'.
Proof. intros H. inversion H; subst; auto. Qed.

Lemma frel_names locals vs fs fs' : Forall2 (frel locals vs) fs fs' -> map fst fs = map fst fs'.
Proof.
  induction 1 as [|p p' r r' Hp _ IH]; simpl; [reflexivity|]. rewrite IH. f_equal. destruct Hp; reflexivity.
Qed.

Lemma lrel_fields_names l l' : lrel l l' -> map fst (l_fields l) = map fst (l_fields l').
Proof. intros H. destruct H. simpl. eapply frel_names. eassumption. Qed.

Lemma lrel_assoc l l' n : lrel l l' -> exists vs io, erel (l_env l) (l_env l') vs io /\
  match assoc n (l_fields l), assoc n (l_fields l') with
  | Some f, Some f' => frel (l_locals l) vs (n, f) (n, f')
  | None, None => True
  | _, _ => False
  end.
Proof. intros H. destruct H as [? ? ? ? ? ? ? vs io]. simpl. exists vs, io. split; [assumption | apply frel_assoc; assumption]. Qed.

Lemma lrel_locals l l' : lrel l l' -> l_locals l = l_locals l' /\ l_asserts l = l_asserts l' /\ l_std l = l_std l'.
Proof. intros H. destruct H. auto. Qed.

Lemma lsrel_find_in : forall ls ls' k n, lsrel ls ls' ->
  match find_field_in ls k n, find_field_in ls' k n with
  | Some (i, f), Some (i', f') => i = i' /\ f_vis f = f_vis f' /\ f_plus f = f_plus f' /\ f_body f = f_body f'
  | None, None => True
  | _, _ => False
  end.
Proof.
  intros ls ls' k n H. revert k. induction H as [|l l' r r' Hl _ IH]; intros k; simpl; [exact I|].
  destruct (lrel_assoc l l' n Hl) as (vs0 & io0 & _ & Ha).
  destruct (assoc n (l_fields l)) as [f|]; destruct (assoc n (l_fields l')) as [f'|]; try contradiction.
  - split; [reflexivity | eapply frel_vis; eassumption].
  - apply IH.
Qed.

Lemma lsrel_find : forall ls ls' from n, lsrel ls ls' ->
  match find_field ls from n, find_field ls' from n with
  | Some (i, f), Some (i', f') => i = i' /\ f_vis f = f_vis f' /\ f_plus f = f_plus f' /\ f_body f = f_body f'
  | None, None => True
  | _, _ => False
  end.
Proof. intros. unfold find_field. apply lsrel_find_in. apply Forall2_dropN. assumption. Qed.

Lemma lsrel_has_field ls ls' from n : lsrel ls ls' -> has_field ls from n = has_field ls' from n.
Proof.
  intros H. unfold has_field. pose proof (lsrel_find ls ls' from n H) as Hf.
  destruct (find_field ls from n) as [[i f]|]; destruct (find_field ls' from n) as [[i' f']|]; try contradiction; reflexivity.
Qed.

Lemma lsrel_has_std ls ls' : lsrel ls ls' -> has_std ls = has_std ls'.
Proof.
  intros H. unfold has_std. induction H as [|a a' r r' Ha _ IH]; simpl; [reflexivity|].
  destruct (lrel_locals _ _ Ha) as (_ & _ & ->). rewrite IH. reflexivity.
Qed.

Lemma lsrel_field_vis_in : forall ls ls' n fd, lsrel ls ls' -> field_vis_in ls n fd = field_vis_in ls' n fd.
Proof.
  intros ls ls' n fd H. revert fd. induction H as [|l l' r r' Hl _ IH]; intros fd; simpl; [reflexivity|].
  destruct (lrel_assoc l l' n Hl) as (vs0 & io0 & _ & Ha).
  destruct (assoc n (l_fields l)) as [f|]; destruct (assoc n (l_fields l')) as [f'|]; try contradiction; [|apply IH].
  destruct (frel_vis _ _ _ _ _ Ha) as (-> & _). destruct (f_vis f'); auto.
Qed.

Lemma lsrel_is_visible ls ls' n : lsrel ls ls' -> is_visible ls n = is_visible ls' n.
Proof. intros H. unfold is_visible, field_vis. rewrite (lsrel_field_vis_in ls ls' n false H). reflexivity. Qed.

Lemma lsrel_all_names ls ls' : lsrel ls ls' -> all_names ls = all_names ls'.
Proof.
  intros H. unfold all_names. f_equal. induction H as [|l l' r r' Hl _ IH]; simpl; [reflexivity|].
  rewrite (lrel_fields_names _ _ Hl), IH. reflexivity.
Qed.

Lemma lsrel_visible_names ls ls' : lsrel ls ls' -> visible_names ls = visible_names ls'.
Proof.
  intros H. unfold visible_names. rewrite (lsrel_all_names _ _ H). apply filter_ext. intros n. apply lsrel_is_visible. exact H.
Qed.

Lemma find_field_assoc ls from n i f l : find_field ls from n = Some (i, f) -> nthN ls i = Some l -> assoc n (l_fields l) = Some f.
Proof.
  intros Hf Hn. unfold find_field in Hf. destruct (find_field_in_sound _ _ _ _ _ Hf) as (l0 & _ & Ha0 & Hn0 & Hle).
  rewrite nthN_dropN in Hn0. replace (from + (i - from)) with i in Hn0 by lia. rewrite Hn in Hn0. injection Hn0 as <-. exact Ha0.
Qed.

Lemma lsrel_field : forall ls ls' from n i f f' l l',
  lsrel ls ls' -> find_field ls from n = Some (i, f) -> find_field ls' from n = Some (i, f') ->
  nthN ls i = Some l -> nthN ls' i = Some l' ->
  exists vs io, erel (l_env l) (l_env l') vs io /\ frel (l_locals l) vs (n, f) (n, f').
Proof.
  intros ls ls' from n i f f' l l' H Hf Hf' Hn Hn'.
  pose proof (Forall2_nthN _ _ _ i H) as Hl. rewrite Hn, Hn' in Hl.
  destruct (lrel_assoc l l' n Hl) as (vs & io & He & Ha).
  rewrite (find_field_assoc _ _ _ _ _ _ Hf Hn), (find_field_assoc _ _ _ _ _ _ Hf' Hn') in Ha. eauto.
Qed.

Lemma layer_env_rel : forall ls ls' i l l' base base' vs io body,
  lsrel ls ls' -> l_locals l = l_locals l' -> erel base base' vs io -> lclosed (l_locals l) vs body ->
  erel (layer_env ls i l base) (layer_env ls' i l' base') (map fst (l_locals l) ++ vs) true /\
  closed (map fst (l_locals l) ++ vs) true body.
Proof.
  intros ls ls' i l l' base base' vs io body Hls Hloc He [Hl Hb]. unfold layer_env. rewrite <- Hloc. split; [|exact Hb].
  apply erel_locals; [exact Hl | econstructor; eassumption].
Qed.

End Dead.

Lemma dead_ok_nil x : dead_ok x [].
Proof. intros en. split; reflexivity. Qed.

Lemma dead_ok_local x e : dead_ok x [FVars [] [(x, e)]].
Proof.
  intros en. split; [|reflexivity]. intros y Hne. simpl.
  destruct (str_eqb y x) eqn:E; [apply str_eqb_eq in E; contradiction | reflexivity].
Qed.
