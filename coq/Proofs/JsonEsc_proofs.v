(* Proofs/JsonEsc_proofs.v — lemmas about the string escaper (Model/JsonEsc.v) against the
   string grammars and the string decoder of Model/JsonDec.v. *)
From RJ Require Import Base.Outcome Model.Token Model.JsonEsc Model.JsonDec.
From Coq Require Import Lia.
Local Open Scope N_scope.

(* enumerated by additions in N, not through [N.of_nat] over a [seq]: the sweeps below are
   evaluated again by the checker, which has no virtual machine *)
Fixpoint N_range_from (start : N) (n : nat) : list N :=
  match n with
  | O => []
  | S k => start :: N_range_from (start + 1) k
  end.

Lemma in_range_from : forall n start c,
  start <= c -> c < start + N.of_nat n -> In c (N_range_from start n).
Proof.
  induction n as [|n IH]; intros start c Hlo Hhi.
  - simpl in Hhi. lia.
  - cbn [N_range_from]. destruct (N.eq_dec c start) as [->|Hne].
    + left; reflexivity.
    + right. apply IH; lia.
Qed.

Lemma forall_below (P : N -> bool) (k : nat) :
  forallb P (N_range_from 0 k) = true -> forall c, c < N.of_nat k -> P c = true.
Proof.
  intros H c Hc. rewrite forallb_forall in H. apply H. apply in_range_from; lia.
Qed.

Definition arms_below (bound : N) (arms : list esc_arm) : bool :=
  forallb (fun a => forallb (fun r => snd r <? bound) (fst a)) arms.

Lemma in_ranges_above : forall rs b c,
  forallb (fun r => snd r <? b) rs = true -> b <= c -> in_ranges c rs = false.
Proof.
  induction rs as [|[lo hi] rs IH]; intros b c Hb Hc; [reflexivity|].
  cbn [forallb snd] in Hb. apply andb_true_iff in Hb as [H1 H2]. apply N.ltb_lt in H1.
  unfold in_ranges. cbn [existsb fst snd].
  replace (c <=? hi) with false by (symmetry; apply N.leb_gt; lia).
  rewrite andb_false_r. cbn [orb]. apply (IH b c H2 Hc).
Qed.

Lemma table_escape_above : forall arms d b c,
  arms_below b arms = true -> b <= c -> table_escape arms d c = run_action d c.
Proof.
  induction arms as [|[rs a] arms IH]; intros d b c Hb Hc; [reflexivity|].
  unfold arms_below in Hb. cbn [forallb fst] in Hb. apply andb_true_iff in Hb as [H1 H2].
  cbn [table_escape]. rewrite (in_ranges_above rs b c H1 Hc). apply (IH d b c H2 Hc).
Qed.

Lemma eqb_above b c : b <= c -> forall k, k < b -> (c =? k) = false.
Proof. intros Hc k Hk. apply N.eqb_neq. lia. Qed.

Lemma leb_above b c : b <= c -> forall k, k < b -> (c <=? k) = false.
Proof. intros Hc k Hk. apply N.leb_gt. lia. Qed.

Lemma escape_char_above : forall c, 256 <= c -> escape_char c = [c].
Proof.
  intros c Hc. unfold escape_char.
  rewrite !(eqb_above 256 c Hc), !(leb_above 256 c Hc) by reflexivity. now rewrite !andb_false_r.
Qed.

(* every range of the table ends below 256: from there on only the default arm is left; below,
   table and hand model are compared entry by entry *)
Theorem esc_table_matches_model_gen : forall arms dflt,
  arms_below 256 arms = true ->
  dflt = EPushChr ->
  forallb (fun c => str_eqb (table_escape arms dflt c) (escape_char c)) (N_range_from 0 256) = true ->
  forall c, table_escape arms dflt c = escape_char c.
Proof.
  intros arms dflt Hb Hd Hall c.
  destruct (N.lt_ge_cases c 256) as [Hlt|Hge].
  - apply str_eqb_eq. exact (forall_below _ 256 Hall c Hlt).
  - rewrite (table_escape_above arms dflt 256 c Hb Hge), Hd. cbn [run_action].
    symmetry. apply escape_char_above. exact Hge.
Qed.

Inductive esc_shape (c : N) : str -> Prop :=
| es_plain : 32 <= c -> c <> 34 -> c <> 92 -> ~ (127 <= c /\ c <= 159) -> esc_shape c [c]
| es_simple e : toml_esc e = true -> simple_escape e = Some c -> esc_shape c [92; e]
| es_u a b : c < 256 -> hex_val a = Some (c / 16) -> hex_val b = Some (c mod 16) ->
    esc_shape c [92; 117; 48; 48; a; b].

(* \uXXXX below U+0100: a table of 256 entries *)
Lemma u_escape_small : forall c, c < 256 ->
  u_escape c = [92; 117; 48; 48; hex_digit_lower (c / 16); hex_digit_lower (c mod 16)].
Proof.
  intros c Hc. apply str_eqb_eq. revert c Hc.
  apply (forall_below (fun c => str_eqb (u_escape c) [92; 117; 48; 48; hex_digit_lower (c / 16); hex_digit_lower (c mod 16)]) 256).
  vm_compute. reflexivity.
Qed.

Lemma hex_val_digit : forall d, d < 16 -> hex_val (hex_digit_lower d) = Some d.
Proof.
  intros d Hd. unfold hex_digit_lower, hex_val, is_dig. destruct (N.ltb_spec d 10).
  - rewrite (proj2 (N.leb_le 48 (48 + d))), (proj2 (N.leb_le (48 + d) 57)) by lia. cbn [andb]. f_equal. lia.
  - rewrite (proj2 (N.leb_gt (87 + d) 57)), andb_false_r by lia.
    rewrite (proj2 (N.leb_le 97 (87 + d))), (proj2 (N.leb_le (87 + d) 102)) by lia. cbn [andb]. f_equal. lia.
Qed.

Lemma u_escape_shape : forall c, c < 256 -> esc_shape c (u_escape c).
Proof.
  intros c Hc. rewrite (u_escape_small c Hc). apply es_u; [exact Hc| |]; apply hex_val_digit.
  - apply N.div_lt_upper_bound; lia.
  - apply N.mod_lt. lia.
Qed.

Lemma escape_char_shape : forall c, esc_shape c (escape_char c).
Proof.
  intros c. unfold escape_char.
  destruct (N.eqb_spec c 8) as [->|N8]; [now apply (es_simple _ 98)|].
  destruct (N.eqb_spec c 9) as [->|N9]; [now apply (es_simple _ 116)|].
  destruct (N.eqb_spec c 10) as [->|N10]; [now apply (es_simple _ 110)|].
  destruct (N.eqb_spec c 12) as [->|N12]; [now apply (es_simple _ 102)|].
  destruct (N.eqb_spec c 13) as [->|N13]; [now apply (es_simple _ 114)|].
  destruct (N.eqb_spec c 34) as [->|N34]; [now apply (es_simple _ 34)|].
  destruct (N.eqb_spec c 92) as [->|N92]; [now apply (es_simple _ 92)|].
  rewrite (proj2 (N.leb_le 0 c) (N.le_0_l c)).
  destruct (N.leb_spec c 31) as [L1|L1]; cbn [andb orb]; [apply u_escape_shape; lia|].
  destruct (N.leb_spec 127 c) as [L2|L2]; cbn [andb]; [|apply es_plain; [lia|exact N34|exact N92|lia]].
  destruct (N.leb_spec c 159) as [L3|L3]; [apply u_escape_shape; lia|apply es_plain; [lia|exact N34|exact N92|lia]].
Qed.

Lemma hex_val_is_hex : forall a x, hex_val a = Some x -> is_hex a = true.
Proof. intros a x H. unfold is_hex. rewrite H. reflexivity. Qed.

Section Grammar.
Variables plain_ok esc_ok : N -> bool.
Hypothesis plain_covers : forall c, 32 <= c -> c <> 34 -> c <> 92 -> ~ (127 <= c /\ c <= 159) -> plain_ok c = true.
Hypothesis esc_covers : forall e, toml_esc e = true -> esc_ok e = true.

Lemma escape_body_chars : forall s, str_chars plain_ok esc_ok (escape_body s).
Proof.
  induction s as [|c s IH]; [constructor|].
  unfold escape_body. cbn [flat_map]. fold (escape_body s).
  destruct (escape_char_shape c) as [H1 H2 H3 H4 | e He Hs | a b Hc Ha Hb]; cbn [app].
  - apply sc_plain; auto.
  - apply sc_esc; auto.
  - apply sc_u; auto; try reflexivity; eapply hex_val_is_hex; eassumption.
Qed.

Lemma escape_string_quoted : forall s, quoted (str_chars plain_ok esc_ok) (escape_string_json s).
Proof. intros s. exists (escape_body s). split; [reflexivity|apply escape_body_chars]. Qed.
End Grammar.

Lemma json_esc_covers : forall e, toml_esc e = true -> json_esc e = true.
Proof.
  intros e H. unfold toml_esc in H. unfold json_esc, simple_escape.
  repeat (apply orb_true_iff in H as [H|H]); apply N.eqb_eq in H; subst e; reflexivity.
Qed.

Theorem escape_valid : forall s, json_chars (escape_body s).
Proof.
  apply escape_body_chars.
  - intros c H _ _ _. unfold json_plain. apply N.leb_le. exact H.
  - exact json_esc_covers.
Qed.

Theorem escape_string_json_valid : forall s, quoted json_chars (escape_string_json s).
Proof. intros s. exists (escape_body s). split; [reflexivity|apply escape_valid]. Qed.

Lemma toml_plain_covers : forall c, 32 <= c -> c <> 34 -> c <> 92 -> ~ (127 <= c /\ c <= 159) -> toml_plain c = true.
Proof.
  intros c H _ _ Hn. unfold toml_plain. destruct (N.leb_spec 32 c); [|lia].
  destruct (N.leb_spec c 126); [now rewrite orb_true_r|]. destruct (N.leb_spec 128 c); [apply orb_true_r|lia].
Qed.

Theorem toml_basic_string_ok : forall s, quoted toml_basic_chars (escape_string_toml s).
Proof. intros s. apply escape_string_quoted; [exact toml_plain_covers|auto]. Qed.

Lemma python_plain_covers : forall c, 32 <= c -> c <> 34 -> c <> 92 -> ~ (127 <= c /\ c <= 159) -> python_plain c = true.
Proof.
  intros c H _ _ _. unfold python_plain. now rewrite !(eqb_above 32 c H) by reflexivity.
Qed.

Theorem python_string_ok : forall s, quoted python_chars (escape_string_python s).
Proof. intros s. apply escape_string_quoted; [exact python_plain_covers|auto]. Qed.

Theorem yaml_double_quoted_ok : forall s, quoted yaml_dq_chars (escape_string_json s).
Proof.
  intros s. apply escape_string_quoted; [|auto].
  intros c H _ _ _. unfold yaml_dq_plain. replace (32 <=? c) with true by (symmetry; apply N.leb_le; exact H).
  apply orb_true_r.
Qed.

Lemma simple_escape_117 : simple_escape 117 = None.
Proof. reflexivity. Qed.

Lemma lex_unit_escape_char : forall c rest, lex_unit (escape_char c ++ rest) = UChar c rest.
Proof.
  intros c rest.
  destruct (escape_char_shape c) as [H1 H2 H3 H4 | e He Hs | a b Hc Ha Hb]; cbn [app].
  - unfold lex_unit.
    replace (c =? 34) with false by (symmetry; apply N.eqb_neq; assumption).
    replace (c =? 92) with false by (symmetry; apply N.eqb_neq; assumption).
    replace (c <? 32) with false by (symmetry; apply N.ltb_ge; assumption).
    reflexivity.
  - unfold lex_unit. cbn [N.eqb Pos.eqb]. rewrite Hs. reflexivity.
  - unfold lex_unit. cbn [N.eqb Pos.eqb]. rewrite simple_escape_117.
    unfold hex4. change (hex_val 48) with (Some 0). rewrite Ha, Hb.
    assert (E : ((0 * 16 + 0) * 16 + c / 16) * 16 + c mod 16 = c).
    { pose proof (N.div_mod c 16). lia. }
    rewrite E.
    unfold is_high_surrogate, is_low_surrogate.
    replace (55296 <=? c) with false by (symmetry; apply N.leb_gt; lia).
    replace (56320 <=? c) with false by (symmetry; apply N.leb_gt; lia).
    reflexivity.
Qed.

Lemma lex_string_body_escape : forall s rest fuel, (length s < fuel)%nat ->
  lex_string_body fuel (escape_body s ++ 34 :: rest) = Some (s, rest).
Proof.
  induction s as [|c s IH]; intros rest fuel Hf.
  - destruct fuel as [|f]; [inversion Hf|]. reflexivity.
  - destruct fuel as [|f]; [inversion Hf|].
    unfold escape_body. cbn [flat_map]. fold (escape_body s).
    cbn [lex_string_body]. rewrite <- app_assoc. rewrite lex_unit_escape_char.
    rewrite IH; [reflexivity|]. cbn [length] in Hf. apply PeanoNat.Nat.succ_lt_mono. exact Hf.
Qed.

Lemma escape_char_nonempty : forall c, (1 <= length (escape_char c))%nat.
Proof. intros c. destruct (escape_char_shape c); cbn [length]; auto with arith. Qed.

Lemma escape_body_length : forall s, (length s <= length (escape_body s))%nat.
Proof.
  induction s as [|c s IH]; [apply le_n|].
  unfold escape_body. cbn [flat_map length]. fold (escape_body s). rewrite app_length.
  pose proof (escape_char_nonempty c). apply (PeanoNat.Nat.add_le_mono 1 _ _ _ H IH).
Qed.

Theorem unescape_escape : forall s rest, lex_string (escape_string_json s ++ rest) = Some (s, rest).
Proof.
  intros s rest. unfold escape_string_json. cbn [app lex_string].
  rewrite <- app_assoc. cbn [app]. apply lex_string_body_escape.
  rewrite app_length. pose proof (escape_body_length s).
  apply PeanoNat.Nat.lt_succ_r. apply (PeanoNat.Nat.le_trans _ _ _ H). apply PeanoNat.Nat.le_add_r.
Qed.

Lemma toml_plain_char_bare : forall c, toml_plain_char [95; 45] c = true -> toml_bare_char c = true.
Proof.
  intros c H. unfold toml_plain_char, is_ascii_alnum in H. cbn [existsb] in H. unfold toml_bare_char.
  destruct ((48 <=? c) && (c <=? 57)); [reflexivity|].
  destruct ((65 <=? c) && (c <=? 90)); [reflexivity|].
  destruct ((97 <=? c) && (c <=? 122)); [reflexivity|].
  destruct (c =? 45); [reflexivity|].
  destruct (c =? 95); [reflexivity|].
  discriminate H.
Qed.

Theorem safe_toml_plain_sound : forall s, is_safe_toml_plain s = true -> toml_bare_key s.
Proof.
  intros s H. unfold is_safe_toml_plain, is_safe_toml_plain_gen in H.
  apply andb_true_iff in H as [H1 H2]. split.
  - destruct s; [discriminate|intros E; discriminate].
  - apply Forall_forall. intros c Hc. rewrite forallb_forall in H2. apply toml_plain_char_bare. apply H2. exact Hc.
Qed.

Theorem escape_key_toml_ok : forall s,
  toml_bare_key (escape_key_toml s) \/ quoted toml_basic_chars (escape_key_toml s).
Proof.
  intros s. unfold escape_key_toml. destruct (is_safe_toml_plain s) eqn:E.
  - left. apply safe_toml_plain_sound. exact E.
  - right. apply toml_basic_string_ok.
Qed.

Lemma yaml_plain_ranges_match_gen : forall rs,
  forallb (fun r => snd r <? 256) rs = true ->
  forallb (fun c => Bool.eqb (in_ranges c rs) (yaml_plain_char c)) (N_range_from 0 256) = true ->
  forall c, in_ranges c rs = yaml_plain_char c.
Proof.
  intros rs Hb Hall c. destruct (N.lt_ge_cases c 256) as [Hlt|Hge].
  - apply Bool.eqb_prop. exact (forall_below _ 256 Hall c Hlt).
  - rewrite (in_ranges_above rs 256 c Hb Hge). symmetry.
    unfold yaml_plain_char, is_ascii_alnum.
    rewrite !(eqb_above 256 c Hge), !(leb_above 256 c Hge) by reflexivity. now rewrite !andb_false_r.
Qed.

Theorem safe_yaml_plain_chars : forall s, is_safe_yaml_plain s = true ->
  s <> [] /\ Forall (fun c => yaml_plain_char c = true) s
  /\ existsb (eq_ignore_ascii_case s) yaml_special = false.
Proof.
  intros s H. unfold is_safe_yaml_plain, is_safe_yaml_plain_gen in H.
  destruct s as [|c s]; [discriminate|].
  destruct (str_eqb (c :: s) [45] || str_eqb (c :: s) [45; 45; 45]); [discriminate|].
  destruct (forallb yaml_plain_char (c :: s)) eqn:Hc; [|discriminate]. cbn [negb] in H.
  destruct (existsb (eq_ignore_ascii_case (c :: s)) yaml_special) eqn:Hs; [discriminate|].
  split; [discriminate|]. split; [|reflexivity].
  apply Forall_forall. intros x Hx. rewrite forallb_forall in Hc. apply Hc. exact Hx.
Qed.

(* accepted as a plain key, yet a number under the YAML 1.2 core schema *)
Theorem safe_yaml_plain_core_string_refuted :
  exists s, is_safe_yaml_plain s = true /\ yaml12_core_nonstring s = true.
Proof. exists [49; 101; 53]. split; vm_compute; reflexivity. Qed.

Lemma str_chars_app : forall p e a b, str_chars p e a -> str_chars p e b -> str_chars p e (a ++ b).
Proof. intros p e a b Ha Hb. induction Ha; cbn [app]; [exact Hb| | |]; constructor; assumption. Qed.

Lemma hex4_sound : forall s u r, hex4 s = Some (u, r) ->
  exists a b c d, s = a :: b :: c :: d :: r /\ is_hex a = true /\ is_hex b = true /\ is_hex c = true /\ is_hex d = true.
Proof.
  intros s u r H. destruct s as [|a [|b [|c [|d s]]]]; try discriminate. cbn [hex4] in H.
  destruct (hex_val a) eqn:Ea; try discriminate. destruct (hex_val b) eqn:Eb; try discriminate.
  destruct (hex_val c) eqn:Ec; try discriminate. destruct (hex_val d) eqn:Ed; try discriminate.
  injection H as _ <-. exists a, b, c, d. unfold is_hex. rewrite Ea, Eb, Ec, Ed. repeat split.
Qed.

(* the continuation of a high surrogate starts with backslash u, or the match falls through *)
Lemma bs_u_cases : forall r2 : str,
  (exists r3, r2 = 92 :: 117 :: r3)
  \/ (forall (B : Type) (A : str -> B) (d : B), match r2 with 92 :: 117 :: r3 => A r3 | _ => d end = d).
Proof.
  intros [|y1 [|y2 r3]]; [right; reflexivity| |].
  - right. intros B A d. destruct y1 as [|p1]; [reflexivity|]. repeat (destruct p1 as [p1|p1|]; try reflexivity).
  - destruct y1 as [|p1]; [right; reflexivity|]. repeat (destruct p1 as [p1|p1|]; try (right; reflexivity)).
    destruct y2 as [|p2]; [right; reflexivity|]. repeat (destruct p2 as [p2|p2|]; try (right; reflexivity)).
    left. now exists r3.
Qed.

Lemma lex_unit_spec : forall s,
  match lex_unit s with
  | UEnd r => s = 34 :: r
  | UChar _ r => exists u, s = u ++ r /\ json_chars u
  | UErr => True
  end.
Proof.
  intros [|x s]; [exact I|]. cbn [lex_unit].
  destruct (N.eqb_spec x 34) as [->|Hq]; [reflexivity|].
  destruct (N.eqb_spec x 92) as [->|Hb].
  - destruct s as [|e s]; [exact I|].
    destruct (simple_escape e) as [d|] eqn:Es.
    { exists [92; e]. split; [reflexivity|]. apply sc_esc; [unfold json_esc; now rewrite Es|constructor]. }
    destruct (N.eqb_spec e 117) as [->|]; [|exact I].
    destruct (hex4 s) as [[u r2]|] eqn:E4; [|exact I].
    destruct (hex4_sound _ _ _ E4) as [a [b [c [d [-> [Ha [Hb' [Hc Hd]]]]]]]].
    destruct (is_high_surrogate u).
    + destruct (bs_u_cases r2) as [[r3 ->]|E]; [|now rewrite E].
      destruct (hex4 r3) as [[l r4]|] eqn:E5; [|exact I].
      destruct (hex4_sound _ _ _ E5) as [a2 [b2 [c2 [d2 [-> [Ha2 [Hb2 [Hc2 Hd2]]]]]]]].
      destruct (is_low_surrogate l); [|exact I].
      exists [92; 117; a; b; c; d; 92; 117; a2; b2; c2; d2]. split; [reflexivity|].
      apply sc_u; auto. apply sc_u; auto. constructor.
    + destruct (is_low_surrogate u); [exact I|].
      exists [92; 117; a; b; c; d]. split; [reflexivity|]. apply sc_u; auto. constructor.
  - destruct (x <? 32) eqn:Hlt; [exact I|].
    exists [x]. split; [reflexivity|]. apply sc_plain; [|exact Hq|exact Hb|constructor].
    unfold json_plain. apply N.leb_le. apply N.ltb_ge. exact Hlt.
Qed.

Lemma lex_string_body_sound : forall fuel s cs r, lex_string_body fuel s = Some (cs, r) ->
  exists body, s = body ++ 34 :: r /\ json_chars body.
Proof.
  induction fuel as [|f IH]; intros s cs r H; [discriminate|].
  cbn [lex_string_body] in H. pose proof (lex_unit_spec s) as Hu.
  destruct (lex_unit s) as [r0|c r0|]; [| |discriminate].
  - injection H as _ <-. exists []. split; [exact Hu|constructor].
  - destruct (lex_string_body f r0) as [[cs' r']|] eqn:Er; [|discriminate]. injection H as _ <-.
    destruct Hu as [u [-> Hu]]. destruct (IH _ _ _ Er) as [body [-> Hb]].
    exists (u ++ body). split; [rewrite app_assoc; reflexivity|apply str_chars_app; assumption].
Qed.

Theorem lex_string_sound : forall s cs r, lex_string s = Some (cs, r) ->
  exists body, s = 34 :: body ++ 34 :: r /\ json_chars body.
Proof.
  intros s cs r H. destruct s as [|x s]; [discriminate|]. cbn [lex_string] in H.
  destruct x as [|p]; [discriminate H|]. repeat (destruct p as [p|p|]; try discriminate H).
  destruct (lex_string_body_sound _ _ _ _ H) as [body [-> Hb]]. exists body. split; [reflexivity|exact Hb].
Qed.
