(* Proofs/Base64_arith_proofs.v — the alphabet of Model/Base64.v by finite enumeration, its byte arithmetic *)
From RJ Require Import Base.Outcome Base.F64 Model.Base64.
From Coq Require Import Lia.
Local Open Scope N_scope.

Definition nrange (n : nat) : list N := map N.of_nat (seq 0 n).

Lemma nrange_in (n : nat) (x : N) : x < N.of_nat n -> In x (nrange n).
Proof.
  intros H. unfold nrange. apply in_map_iff. exists (N.to_nat x). split.
  - apply N2Nat.id.
  - apply in_seq. lia.
Qed.

Lemma forallb_nrange (P : N -> bool) (n : nat) :
  forallb P (nrange n) = true -> forall x, x < N.of_nat n -> P x = true.
Proof. intros H x Hx. rewrite forallb_forall in H. apply H, nrange_in, Hx. Qed.

Definition in_alpha (c : N) : bool :=
  ((65 <=? c) && (c <=? 90)) || ((97 <=? c) && (c <=? 122)) || ((48 <=? c) && (c <=? 57))
  || (c =? 43) || (c =? 47).

Definition idx_ok (i : N) : bool :=
  match chr_to_index (encmap i) with Ok j => j =? i | _ => false end.

Lemma chr_encmap i : i < 64 -> chr_to_index (encmap i) = Ok i.
Proof.
  intros H.
  assert (E : idx_ok i = true) by (revert i H; apply (forallb_nrange idx_ok 64); vm_compute; reflexivity).
  unfold idx_ok in E. destruct (chr_to_index (encmap i)); try discriminate.
  apply N.eqb_eq in E. now subst.
Qed.

Lemma chr_to_index_alpha c : is_ok (chr_to_index c) = in_alpha c.
Proof.
  unfold chr_to_index, in_alpha.
  destruct ((65 <=? c) && (c <=? 90)); [reflexivity|].
  destruct ((97 <=? c) && (c <=? 122)); [reflexivity|].
  destruct ((48 <=? c) && (c <=? 57)); [reflexivity|].
  destruct (c =? 43); [reflexivity|].
  destruct (c =? 47); reflexivity.
Qed.

Lemma pad_not_alpha : in_alpha pad = false.
Proof. reflexivity. Qed.

Lemma encmap_alpha i : i < 64 -> in_alpha (encmap i) = true.
Proof. intros H. now rewrite <- chr_to_index_alpha, chr_encmap. Qed.

Lemma encmap_not_pad i : i < 64 -> (encmap i =? pad) = false.
Proof.
  intros H. apply N.eqb_neq. intros E.
  pose proof (encmap_alpha i H) as A. rewrite E, pad_not_alpha in A. discriminate.
Qed.

(* a number below 2^k shares no bit with a multiple of 2^k, so or-ing them is adding them *)
Lemma lor_low h l k : l < 2 ^ k -> N.lor (h * 2 ^ k) l = h * 2 ^ k + l.
Proof.
  intros Hl.
  assert (D : N.land (h * 2 ^ k) l = 0).
  { apply N.bits_inj. intros n. rewrite N.land_spec, N.bits_0.
    destruct (N.lt_ge_cases n k) as [Hn|Hn].
    - now rewrite N.mul_pow2_bits_low.
    - rewrite <- (N.mod_small l (2 ^ k)), N.mod_pow2_bits_high by assumption. apply andb_false_r. }
  now rewrite <- N.lxor_lor, <- N.add_nocarry_lxor.
Qed.

(* the decoder's [((i << k) as u8) | low]: the part [a] of the index that belongs to the
   previous byte is shifted out, and what remains is [x] cut at bit [k] and joined again *)
Lemma u8_join a x k : x < 256 -> k <= 8 ->
  N.lor (u8 ((a * 2 ^ (8 - k) + x / 2 ^ k) * 2 ^ k)) (x mod 2 ^ k) = x.
Proof.
  intros Hx Hk. unfold u8.
  assert (Hq : 2 ^ k <> 0) by (apply N.pow_nonzero; discriminate).
  replace ((a * 2 ^ (8 - k) + x / 2 ^ k) * 2 ^ k) with (x / 2 ^ k * 2 ^ k + a * 256).
  2:{ change 256 with (2 ^ 8). replace 8 with (8 - k + k) at 1 by lia. rewrite N.pow_add_r. ring. }
  pose proof (N.div_mod' x (2 ^ k)) as E. pose proof (N.mul_div_le x (2 ^ k) Hq) as L.
  rewrite N.mod_add, N.mod_small by lia.
  rewrite lor_low by now apply N.mod_lt. lia.
Qed.

Lemma div_low a y q : y < q -> (a * q + y) / q = a.
Proof. intros H. rewrite N.div_add_l, N.div_small by lia. apply N.add_0_r. Qed.

(* the three bytes of a group, once the low parts are reduced by [div_low] *)
Lemma byte0 b : b < 256 -> N.lor (u8 (b / 4 * 4)) (b mod 4) = b.
Proof. intros H. now apply (u8_join 0 b 2). Qed.
Lemma byte1 a b : b < 256 -> N.lor (u8 ((a * 16 + b / 16) * 16)) (b mod 16) = b.
Proof. intros H. now apply (u8_join a b 4). Qed.
Lemma byte2 a b : b < 256 -> N.lor (u8 ((a * 4 + b / 64) * 64)) (b mod 64) = b.
Proof. intros H. now apply (u8_join a b 6). Qed.
