(* Proofs/Parser_rt2.v — round trip: machine transitions for operands *)
From RJ Require Import Base.Outcome Model.Token Model.Ast Model.Parser Model.Print Proofs.Parser_rt.
From Coq Require Import Lia.
Local Open Scope list_scope.
Local Open Scope N_scope.

Definition atom_tok (e : expr) : option token :=
  match e with
  | ENull _ => Some (sim KNull)
  | EBool _ b => Some (sim (if b then KTrue else KFalse))
  | ESelf _ => Some (sim KSelf)
  | EDollar _ => Some (sim SDollar)
  | EString _ s => Some (tk (TString s))
  | ETextBlock _ s => Some (tk (TTextBlock s))
  | ENumber _ n => Some (tk (TNumber n))
  | EIdent _ i => Some (id_tok i)
  | _ => None
  end.

Section Machine2.
  Variable pexpr : P expr.
  Variable lf : nat.
  Notation T := spec_prec.
  Notation PL := (pe_loop spec_prec pexpr (S lf)).

  Lemma pl_unary_miss f stk c t (a : expr) t' :
    all_miss (pt_unary T) c = true ->
    run (PL f StPrimary (SiSuffix :: stk)) (c :: t) a t' -> run (PL (S f) StUnary stk) (c :: t) a t'.
  Proof.
    intros Hm H. cbn [pe_loop].
    eapply run_bind; [apply run_eat_first_miss; exact Hm|]. exact H.
  Qed.

  Lemma pl_unary_hit f stk u t (a : expr) t' : t <> [] ->
    run (PL f StUnary (SiUnary u sp0 :: stk)) t a t' -> run (PL (S f) StUnary stk) (sim (unop_tok u) :: t) a t'.
  Proof.
    intros Ht H. cbn [pe_loop].
    destruct u.
    - eapply run_bind; [apply (run_eat_first_hit [(SPlus, UPlus)] SMinus UMinus); [reflexivity|reflexivity|exact Ht]|exact H].
    - eapply run_bind; [apply (run_eat_first_hit [] SPlus UPlus); [reflexivity|reflexivity|exact Ht]|exact H].
    - eapply run_bind; [apply (run_eat_first_hit [(SPlus, UPlus); (SMinus, UMinus)] STilde UBitwiseNot);
                        [reflexivity|reflexivity|exact Ht]|exact H].
    - eapply run_bind; [apply (run_eat_first_hit [(SPlus, UPlus); (SMinus, UMinus); (STilde, UBitwiseNot)]
                                 SExclam ULogicNot); [reflexivity|reflexivity|exact Ht]|exact H].
  Qed.

  Lemma pl_parsed_unary f u e stk t (a : expr) t' : expr_span e = sp0 ->
    run (PL f (StParsed (EUnary sp0 u e)) stk) t a t' ->
    run (PL (S f) (StParsed e) (SiUnary u sp0 :: stk)) t a t'.
  Proof.
    intros He H. cbn [pe_loop]. rewrite He.
    apply run_span0_then. exact H.
  Qed.

  Lemma pl_parsed_rhs f k lhs op e stk t (a : expr) t' : expr_span lhs = sp0 -> expr_span e = sp0 ->
    run (PL f (StBinaryRhs k (EBinary sp0 lhs op e)) stk) t a t' ->
    run (PL (S f) (StParsed e) (SiBinaryRhs k lhs op :: stk)) t a t'.
  Proof.
    intros Hl He H. cbn [pe_loop]. rewrite Hl, He.
    apply run_span0_then. exact H.
  Qed.

  Lemma nosfx_inv c : nosfx c = true ->
    is_simple SDot c = false /\ is_simple SLeftBracket c = false /\ is_simple SLeftParen c = false /\
    is_simple SLeftBrace c = false /\ is_simple KTailstrict c = false.
  Proof.
    unfold nosfx. intros H. repeat (apply andb_true_iff in H as [H ?]).
    repeat match goal with H : negb _ = true |- _ => apply negb_true_iff in H end. auto.
  Qed.

  Lemma suffix_none lf' e c t : nosfx c = true -> run (suffix_loop pexpr (S lf) (S lf') e) (c :: t) e (c :: t).
  Proof.
    intros H. destruct (nosfx_inv c H) as (H1 & H2 & H3 & H4 & _). cbn [suffix_loop].
    apply run_alt_miss; [exact H1|].
    apply run_alt_miss; [exact H2|].
    apply run_alt_miss; [exact H3|].
    apply run_alt_miss; [exact H4|].
    apply run_ret.
  Qed.

  Lemma pl_parsed_suffix_none f e stk c t (a : expr) t' : nosfx c = true ->
    run (PL f (StParsed e) stk) (c :: t) a t' -> run (PL (S f) (StParsed e) (SiSuffix :: stk)) (c :: t) a t'.
  Proof.
    intros Hn H. cbn [pe_loop].
    eapply run_bind; [unfold parse_suffix_expr; apply run_call; apply suffix_none; exact Hn|]. exact H.
  Qed.

  Lemma pl_primary_atom f e c stk t (a : expr) t' : atom_tok e = Some c -> t <> [] ->
    run (PL f (StParsed (strip_spans e)) stk) t a t' -> run (PL (S f) StPrimary stk) (c :: t) a t'.
  Proof.
    intros Ha Ht H. cbn [pe_loop]. destruct t as [|t1 r1]; [congruence|].
    eapply run_orelse_hit; [|exact H].
    destruct e; cbn in Ha; try discriminate; injection Ha as <-; try (destruct b); run_compute.
  Qed.

  Lemma pl_primary_paren f stk t (a : expr) t' : t <> [] ->
    run (PL f (init_state T) (SiParen sp0 :: stk)) t a t' -> run (PL (S f) StPrimary stk) (sim SLeftParen :: t) a t'.
  Proof.
    intros Ht H. cbn [pe_loop].
    do 12 (eapply run_orelse_miss; [run_compute|]).
    apply run_alt_hit; [reflexivity|exact Ht|]. exact H.
  Qed.

  Lemma pl_parsed_paren f e stk t (a : expr) t' : t <> [] ->
    run (PL f (StParsed (EParen sp0 e)) stk) t a t' ->
    run (PL (S f) (StParsed e) (SiParen sp0 :: stk)) (sim SRightParen :: t) a t'.
  Proof.
    intros Ht H. cbn [pe_loop].
    apply run_expect_then; [reflexivity|exact Ht|].
    apply run_span0_then. exact H.
  Qed.

  Lemma pl_primary_brace f stk t (a : expr) t' : t <> [] ->
    run ('(oi, en) <- parse_obj_inside pexpr (S lf) ;; sp <- mk_span sp0 en ;;
         PL f (StParsed (EObject sp oi)) stk) t a t' ->
    run (PL (S f) StPrimary stk) (sim SLeftBrace :: t) a t'.
  Proof.
    intros Ht H. cbn [pe_loop]. eapply run_orelse_miss; [run_compute|].
    apply run_alt_hit; [reflexivity|exact Ht|]. exact H.
  Qed.

  (* open-ended primaries: the keyword is recognised after the earlier alternatives miss *)
  Definition prefix_kws : list (stoken * (span -> expr -> expr)) :=
    [(KImport, EImport); (KImportstr, EImportStr); (KImportbin, EImportBin); (KError, EError)].

  Lemma pl_primary_prefix kw mk f stk t (a : expr) t' : In (kw, mk) prefix_kws -> t <> [] ->
    run (x <- prefix_form pexpr sp0 mk ;; PL f (StParsed x) stk) t a t' ->
    run (PL (S f) StPrimary stk) (sim kw :: t) a t'.
  Proof.
    intros Hin Ht H. cbn [pe_loop].
    (* one script for the four keywords: the alternatives before the keyword's own miss by evaluation *)
    destruct Hin as [E|[E|[E|[E|[]]]]]; injection E as <- <-;
      repeat (eapply run_orelse_miss; [run_compute|]);
      (apply run_alt_hit; [reflexivity|exact Ht|exact H]).
  Qed.

  Lemma pl_primary_if f stk t (a : expr) t' : t <> [] ->
    run (cond <- pexpr ;;
         _ <- expect_simple KThen true ;;
         th <- pexpr ;;
         c <- eat_simple KElse true ;;
         el <- opt_expr pexpr c ;;
         sp <- mk_span sp0 (match el with Some x => expr_span x | None => expr_span th end) ;;
         PL f (StParsed (EIf sp cond th el)) stk) t a t' ->
    run (PL (S f) StPrimary stk) (sim KIf :: t) a t'.
  Proof.
    intros Ht H. cbn [pe_loop]. do 5 (eapply run_orelse_miss; [run_compute|]).
    apply run_alt_hit; [reflexivity|exact Ht|]. exact H.
  Qed.

  Lemma pl_primary_super f stk t (a : expr) t' : t <> [] ->
    run (IFLET _ <== eat_simple SDot true
         THEN (fn <- expect_ident true ;; sp <- mk_span sp0 (id_span fn) ;; PL f (StParsed (ESuperField sp sp0 fn)) stk)
         ELSE IFLET _ <== eat_simple SLeftBracket true
              THEN (ie <- pexpr ;; en <- expect_simple SRightBracket true ;; sp <- mk_span sp0 en ;;
                    PL f (StParsed (ESuperIndex sp sp0 ie)) stk)
              ELSE report_expected) t a t' ->
    run (PL (S f) StPrimary stk) (sim KSuper :: t) a t'.
  Proof.
    intros Ht H. cbn [pe_loop]. do 3 (eapply run_orelse_miss; [run_compute|]).
    apply run_alt_hit; [reflexivity|exact Ht|]. exact H.
  Qed.

  Lemma pl_primary_function f stk t (a : expr) t' : t <> [] ->
    run (_ <- expect_simple SLeftParen true ;;
         '(params, _) <- parse_params pexpr (S lf) ;;
         body <- pexpr ;;
         sp <- mk_span sp0 (expr_span body) ;;
         PL f (StParsed (EFunc sp params body)) stk) t a t' ->
    run (PL (S f) StPrimary stk) (sim KFunction :: t) a t'.
  Proof.
    intros Ht H. cbn [pe_loop]. do 6 (eapply run_orelse_miss; [run_compute|]).
    apply run_alt_hit; [reflexivity|exact Ht|]. exact H.
  Qed.

  Lemma pl_primary_local f stk t (a : expr) t' : t <> [] ->
    run (b0 <- parse_bind pexpr (S lf) ;;
         binds <- binds_loop pexpr (S lf) (S lf) [b0] ;;
         _ <- expect_simple SSemicolon true ;;
         inner <- pexpr ;;
         sp <- mk_span sp0 (expr_span inner) ;;
         PL f (StParsed (ELocal sp binds inner)) stk) t a t' ->
    run (PL (S f) StPrimary stk) (sim KLocal :: t) a t'.
  Proof.
    intros Ht H. cbn [pe_loop]. do 4 (eapply run_orelse_miss; [run_compute|]).
    apply run_alt_hit; [reflexivity|exact Ht|]. exact H.
  Qed.

  Lemma pl_primary_assert f stk t A t1 (a : expr) t' :
    run (maybe_parse_assert pexpr false) (sim KAssert :: t) (Some (sp0, A)) t1 ->
    run (_ <- expect_simple SSemicolon true ;;
         inner <- pexpr ;;
         sp <- mk_span sp0 (expr_span inner) ;;
         PL f (StParsed (EAssert sp A inner)) stk) t1 a t' ->
    run (PL (S f) StPrimary stk) (sim KAssert :: t) a t'.
  Proof.
    intros H1 H2. cbn [pe_loop]. do 7 (eapply run_orelse_miss; [run_compute|]).
    eapply run_orelse_hit; [exact H1|exact H2].
  Qed.

  (* from the unary level back to level k *)
  Definition steps_fin (k : nat) : nat := match (10 - k)%nat with O => O | S d => S (2 * d) end.

  Lemma finish k f e stk c t (a : expr) t' : (k <= 10)%nat -> noop_above k c = true ->
    run (PL f (exit_ k e) stk) (c :: t) a t' ->
    run (PL (steps_fin k + f) (StParsed e) (lhs_up k (10 - k) ++ stk)) (c :: t) a t'.
  Proof.
    intros Hk Hn H. unfold steps_fin. destruct (10 - k)%nat as [|d] eqn:Hd.
    - assert (k = 10)%nat by lia. subst k. exact H.
    - cbn [lhs_up app Nat.add]. apply pl_parsed_lhs.
      replace (k + d)%nat with 9%nat by lia.
      replace 9%nat with (k + d)%nat at 1 by lia.
      apply ascend; [lia|exact Hn|].
      unfold exit_ in H. replace (k <? 10)%nat with true in H by (symmetry; apply Nat.ltb_lt; lia). exact H.
  Qed.
End Machine2.
