(* Proofs/RefNeed_proofs.v — C02/C04: call-by-need rewrite laws over the reference interpreter:
   the laws that need no coincidence argument (the rewritten expression is evaluated in the
   same environment; only evaluation frames differ).  The law that needs one is in
   Proofs/RefCoin_proofs.v. *)
From RJ Require Import Base.Outcome Base.F64 Model.Token Model.Ast Model.RefCore Model.RefValue Model.RefEval.
From RJ Require Import Proofs.RefSem_laws Proofs.RefSem_params.
Local Open Scope N_scope.

(* results that every construct passes through unchanged: a value, or an error *)
Definition passes (o : outcome answer err) : Prop := (exists v, o = Ok (AVal v)) \/ (exists e, o = Err e).

Ltac pass_cases H := destruct H as [[?v ->] | [?e ->]].

Lemma force_th : forall f c en e d t o,
  run_task f c (TEval en e) d = (t, o) -> passes o -> run_task (S f) c (TForce (Th e en)) d = (t, o).
Proof.
  intros * H Hp. rewrite run_task_S. crunch. rewrite H.
  pass_cases Hp; crunch; norm_apps; reflexivity.
Qed.

Lemma var_lookup : forall f c en x th d t o,
  lookup_var x en = Some th -> fits c d ->
  run_task f c (TForce th) (d + 1) = (t, o) -> passes o -> run_task (S f) c (TEval en (CVar x)) d = (t, o).
Proof.
  intros * Hl Hfit H Hp. rewrite run_task_S. crunch. rewrite Hl, Hfit. crunch. rewrite H.
  pass_cases Hp; crunch; norm_apps; reflexivity.
Qed.

Lemma local_body : forall f c en binds body d t o,
  run_task f c (TEval (FVars [] binds :: en) body) d = (t, o) -> passes o ->
  run_task (S f) c (TEval en (CLocal binds body)) d = (t, o).
Proof.
  intros * H Hp. rewrite run_task_S. crunch. rewrite H.
  pass_cases Hp; crunch; norm_apps; reflexivity.
Qed.

(* local x = e; x   is   e  evaluated one frame deeper in the environment extended by that binding
   (x itself; if x is not free in e the extension is invisible — that last step is
   `rw_local_name_bare` in Proofs/RefCoin_proofs.v) *)
Theorem rw_local_name : forall f c en x e d t o,
  fits c d ->
  run_task f c (TEval (FVars [] [(x, e)] :: en) e) (d + 1) = (t, o) -> passes o ->
  run_task (S (S (S f))) c (TEval en (CLocal [(x, e)] (CVar x))) d = (t, o).
Proof.
  intros * Hfit H Hp.
  apply local_body; [|exact Hp]. eapply var_lookup; [| exact Hfit | | exact Hp].
  - simpl. rewrite str_eqb_refl. reflexivity.
  - apply force_th; assumption.
Qed.

(* a[i] on an array: both operands, then one frame around the element's thunk *)
Lemma index_array : forall f c en a i d ta ti items g n th t o,
  run_task f c (TEval en a) d = (ta, Ok (AVal (VArr items))) ->
  run_task f c (TEval en i) d = (ti, Ok (AVal (VNum g))) ->
  to_index g = Some n -> nthN items n = Some th -> fits c d ->
  run_task f c (TForce th) (d + 1) = (t, o) -> passes o ->
  run_task (S f) c (TEval en (CIndex a i)) d = (ta ++ ti ++ t, o).
Proof.
  intros * Ha Hi Hg Hn Hfit H Hp. rewrite run_task_S. crunch. rewrite Ha. crunch. rewrite Hi. crunch.
  cbv [index_value]. rewrite Hg, Hn. crunch. rewrite Hfit. crunch. rewrite H.
  pass_cases Hp; crunch; norm_apps; rewrite <- ?app_assoc; reflexivity.
Qed.

(* [e][0]  is  e  (same environment), one frame deeper *)
Theorem rw_array_proj : forall f c en e d t o,
  fits c d ->
  run_task f c (TEval en e) (d + 1) = (t, o) -> passes o ->
  run_task (S (S f)) c (TEval en (CIndex (CArray [e]) (CNum f_zero))) d = (t, o).
Proof.
  intros * Hfit H Hp.
  apply (index_array (S f) c en _ _ d [] [] [Th e en] f_zero 0 (Th e en)); try reflexivity; [exact Hfit | | exact Hp].
  apply force_th; assumption.
Qed.

(* a call of a closure whose arguments bind: one frame, then the body in the frame of the parameters *)
Lemma apply_closure : forall f c ps body fenv pos named b ds d t o,
  bind_args ps pos named = Ok (b, ds) -> fits c d ->
  run_task f c (TEval (FVars b ds :: fenv) body) (d + 1) = (t, o) -> passes o ->
  run_task (S f) c (TApply (VFun ps body fenv) pos named false) d = (t, o).
Proof.
  intros * Hb Hfit H Hp. rewrite run_task_S. cbv [step do_apply]. crunch. rewrite Hb. crunch. rewrite Hfit. crunch. rewrite H.
  pass_cases Hp; crunch; norm_apps; reflexivity.
Qed.

(* f(args) without tailstrict: the callee, then the application *)
Lemma call_node : forall f c en fe pos named tl d tf fv t o,
  run_task f c (TEval en fe) d = (tf, Ok (AVal fv)) -> is_fun fv = true ->
  run_task f c (TApply fv (map (fun e => Th e en) pos) (map (fun p => (fst p, Th (snd p) en)) named) false) d = (t, o) ->
  passes o ->
  run_task (S f) c (TEval en (CCall fe pos named false tl)) d = (tf ++ t, o).
Proof.
  intros * Hf Hfun H Hp. rewrite run_task_S. crunch. rewrite Hf. crunch. rewrite Hfun.
  cbv [ask_ts_tail apply]. crunch. cbn [andb]. rewrite H.
  pass_cases Hp; crunch; norm_apps; reflexivity.
Qed.

(* (function(x) x)(e)  is  e  (same environment), two frames deeper (the call and the parameter) *)
Theorem rw_identity : forall f c en x e tl d t o,
  fits c d -> fits c (d + 1) ->
  run_task f c (TEval en e) (d + 1 + 1) = (t, o) -> passes o ->
  run_task (S (S (S (S f)))) c (TEval en (CCall (CFunc [(x, None)] (CVar x)) [e] [] false tl)) d = (t, o).
Proof.
  intros * Hfit Hfit1 H Hp.
  apply (call_node _ _ _ _ _ _ _ _ [] (VFun [(x, None)] (CVar x) en)); [reflexivity | reflexivity | | exact Hp].
  apply (apply_closure _ _ _ _ _ _ _ [(x, Th e en)] []); [reflexivity | exact Hfit | | exact Hp].
  eapply var_lookup; [| exact Hfit1 | | exact Hp].
  - simpl. rewrite str_eqb_refl. reflexivity.
  - apply force_th; assumption.
Qed.
