(* Proofs/RefScope_static.v — C02/C09: the specification's static rules (StaticOK, Model/Analyze.v)
   imply closedness of the desugared core program. *)
From RJ Require Import Base.Outcome Base.F64 Model.Token Model.Ast Model.RefCore Model.RefValue Model.RefEval.
From RJ Require Import Model.Analyze.
From RJ Require Import Proofs.RefScope_defs Proofs.RefScope_main.
From Coq Require Import Lia.
Local Open Scope N_scope.

(* core scope cvs represents source scope vs: it contains vs, and `$` wherever an object is in scope *)
Definition scope_rel (vs cvs : list str) (io : bool) : Prop := incl vs cvs /\ (io = true -> In dollar cvs).

Lemma scope_rel_app names vs cvs cvs' io :
  scope_rel vs cvs io -> incl cvs cvs' -> incl names cvs' -> scope_rel (names ++ vs) cvs' io.
Proof.
  intros [Hi Hd] Hc Hn. split; [apply incl_app; [exact Hn | exact (incl_tran Hi Hc)] | intros E; apply Hc, Hd, E].
Qed.

Lemma scope_rel_cons x vs cvs io : scope_rel vs cvs io -> scope_rel (x :: vs) (x :: cvs) io.
Proof.
  intros [Hi Hd]. split.
  - intros y [-> | Hy]; [left; reflexivity | right; auto].
  - intros E. right. auto.
Qed.

(* an object's locals are in scope of its members together with `$`: bound by the outermost object
   ([add_dollar]), inherited by the others *)
Lemma scope_rel_add_dollar names locals vs cvs io :
  scope_rel vs cvs io -> map fst locals = names ->
  scope_rel (names ++ vs) (map fst (add_dollar io locals) ++ cvs) true.
Proof.
  intros [Hi Hd] <-. unfold add_dollar. destruct io; simpl; split.
  - apply incl_app; [apply incl_appl, incl_refl | apply incl_appr, Hi].
  - intros _. apply in_or_app. right. apply Hd. reflexivity.
  - apply incl_tl, incl_app; [apply incl_appl, incl_refl | apply incl_appr, Hi].
  - intros _. left. reflexivity.
Qed.

Lemma add_dollar_closed io locals sc :
  Forall (fun p => closed sc true (snd p)) locals -> Forall (fun p => closed sc true (snd p)) (add_dollar io locals).
Proof. intros H. unfold add_dollar. destruct io; [exact H|]. constructor; [constructor | exact H]. Qed.

Lemma locals_names ms : map fst (flat_map ds_local_of ms) = map bind_name (member_locals ms).
Proof.
  induction ms as [|m r IH]; simpl; [reflexivity|]. destruct m as [b | a | f]; simpl; try exact IH.
  rewrite IH. destruct b as [n [[ps psp]|] v]; reflexivity.
Qed.

Lemma binds_names io bs : map fst (map (ds_bind io) bs) = map bind_name bs.
Proof. induction bs as [|b r IH]; simpl; [reflexivity|]. rewrite IH. destruct b as [n [[ps psp]|] v]; reflexivity. Qed.

Lemma params_names io ps : map fst (map (ds_param io) ps) = map param_name ps.
Proof. induction ps as [|p r IH]; simpl; [reflexivity|]. rewrite IH. destruct p; reflexivity. Qed.

(* [map] and [flat_map] over a derivation; transparent, so that the recursion below may pass through
   them to the derivations of the items *)
Section ForallMapDep.
  Context {A B} (P : A -> Prop) (Q : B -> Prop) (g : A -> B) (F : forall a, P a -> Q (g a)).
  Fixpoint Forall_map_dep l (H : Forall P l) {struct H} : Forall Q (map g l) :=
    match H with
    | Forall_nil _ => Forall_nil Q
    | @Forall_cons _ _ a l' h t => Forall_cons (g a) (F a h) (Forall_map_dep l' t)
    end.

  Context (gs : A -> list B) (Fs : forall a, P a -> Forall Q (gs a)).
  Fixpoint Forall_flat_map_dep l (H : Forall P l) {struct H} : Forall Q (flat_map gs l) :=
    match H with
    | Forall_nil _ => Forall_nil Q
    | @Forall_cons _ _ a l' h t => proj2 (Forall_app Q (gs a) (flat_map gs l')) (conj (Fs a h) (Forall_flat_map_dep l' t))
    end.
End ForallMapDep.

Definition assert_closed (cvs : list str) (io : bool) (a : cexpr * option cexpr) : Prop :=
  closed cvs io (fst a) /\ closed_opt cvs io (snd a).

Fixpoint so_expr vs io e (H : StaticOK vs io e) {struct H} :
  forall tl cvs, scope_rel vs cvs io -> closed cvs io (ds_expr io tl e)
with so_param vs io p (H : ParamOK vs io p) {struct H} :
  forall cvs, scope_rel vs cvs io -> closed_opt cvs io (snd (ds_param io p))
with so_function vs io ps body (H : FunctionOK vs io ps body) {struct H} :
  forall cvs, scope_rel vs cvs io -> closed cvs io (CFunc (map (ds_param io) ps) (ds_expr io true body))
with so_bind vs io b (H : BindOK vs io b) {struct H} :
  forall cvs, scope_rel vs cvs io -> closed cvs io (snd (ds_bind io b))
with so_assert vs io a (H : AssertOK vs io a) {struct H} :
  forall cvs, scope_rel vs cvs io ->
  match a with MkAssert _ c m => assert_closed cvs io (ds_expr io false c, option_map (ds_expr io false) m) end
with so_specs vs io cs out (H : SpecsOK vs io cs out) {struct H} :
  forall cvs, scope_rel vs cvs io -> exists cout, closed_specs cvs io (map (ds_spec io) cs) cout /\ scope_rel out cout io
with so_arg vs io a (H : ArgOK vs io a) {struct H} :
  forall cvs, scope_rel vs cvs io ->
  Forall (closed cvs io) (ds_pos_of io a) /\ Forall (fun p => closed cvs io (snd p)) (ds_named_of io a)
with so_obj vs io o (H : ObjOK vs io o) {struct H} :
  forall cvs, scope_rel vs cvs io -> closed cvs io (ds_obj io o)
with so_member vs io inner m (H : MemberOK vs io inner m) {struct H} :
  forall cvs cinner, scope_rel vs cvs io -> scope_rel inner cinner true ->
  Forall (fun p => closed cinner true (snd p)) (ds_local_of m) /\
  Forall (assert_closed cinner true) (ds_assert_of m) /\
  Forall (closed_field cvs io cinner) (ds_field_of io m)
with so_fname vs io n (H : FieldNameOK vs io n) {struct H} :
  forall cvs cinner plus vis body, scope_rel vs cvs io -> closed cinner true body ->
  closed_field cvs io cinner (CFld (ds_fname io n) plus vis body).
Proof.
  - (* so_expr *)
    (* a rule whose premises are sub-expressions is closed by the recursive calls on them *)
    destruct H; intros tl cvs Hs; cbn [ds_expr]; try solve [eauto | constructor; eauto].
    + (* Dollar *) constructor. apply Hs. reflexivity.
    + (* Array *) constructor. exact (Forall_map_dep _ _ _ (fun e h => so_expr _ _ e h false cvs Hs) _ H).
    + (* ArrayComp *)
      destruct (so_specs _ _ _ _ H cvs Hs) as (cout & Hcs & Hout). econstructor; [exact Hcs | eauto].
    + (* Slice *)
      constructor; [eauto | destruct a | destruct b | destruct c]; simpl; constructor; eauto.
    + (* Call *)
      constructor; [eauto | |].
      * exact (Forall_flat_map_dep _ _ _ (fun a h => proj1 (so_arg _ _ a h cvs Hs)) _ H1).
      * exact (Forall_flat_map_dep _ _ _ (fun a h => proj2 (so_arg _ _ a h cvs Hs)) _ H1).
    + (* Ident *) constructor. apply Hs. assumption.
    + (* Local *)
      assert (Hs' : scope_rel (map bind_name binds ++ vs) (map fst (map (ds_bind io) binds) ++ cvs) io).
      { rewrite binds_names. eapply scope_rel_app; [exact Hs | apply incl_appr, incl_refl | apply incl_appl, incl_refl]. }
      constructor; [|eauto].
      exact (Forall_map_dep _ _ _ (fun b h => so_bind _ _ b h _ Hs') _ H0).
    + (* If *)
      destruct f as [f|]; cbn [ds_expr].
      * constructor; eauto.
      * constructor; [eauto | eauto | constructor].
    + (* Binary *)
      destruct op; cbn [ds_expr]; repeat constructor; eauto.
    + (* Assert *)
      destruct a as [asp c m]. destruct (so_assert _ _ _ H cvs Hs) as [Hc Hm]. simpl in Hc, Hm.
      constructor; [exact Hc | exact Hm | eauto].
  - (* so_param *)
    destruct H; intros cvs Hs; simpl; constructor. eauto.
  - (* so_function *)
    destruct H; intros cvs Hs. constructor. intros vs' Hi Hp.
    assert (Hs' : scope_rel (map param_name ps ++ vs) vs' io).
    { eapply scope_rel_app; [exact Hs | exact Hi | rewrite <- (params_names io); exact Hp]. }
    split; [|eauto].
    exact (Forall_map_dep _ _ _ (fun p h => so_param _ _ p h _ Hs') _ H0).
  - (* so_bind *)
    destruct H; intros cvs Hs; simpl; eauto.
  - (* so_assert *)
    destruct H; intros cvs Hs. split; simpl; [eauto|].
    destruct m; simpl; constructor. eauto.
  - (* so_specs *)
    destruct H; intros cvs Hs; simpl.
    + exists cvs. split; [constructor | exact Hs].
    + destruct (so_specs _ _ _ _ H0 (id_value v :: cvs) (scope_rel_cons _ _ _ _ Hs)) as (cout & Hc & Ho).
      exists cout. split; [constructor; [eauto | exact Hc] | exact Ho].
    + destruct (so_specs _ _ _ _ H0 cvs Hs) as (cout & Hc & Ho).
      exists cout. split; [constructor; [eauto | exact Hc] | exact Ho].
  - (* so_arg *)
    destruct H; intros cvs Hs; simpl; split; repeat constructor; eauto.
  - (* so_obj *)
    destruct H; intros cvs Hs; cbn [ds_obj].
    + (* members *)
      set (locals := add_dollar io (flat_map ds_local_of ms)).
      assert (Hs' : scope_rel (map bind_name (member_locals ms) ++ vs) (map fst locals ++ cvs) true)
        by (apply scope_rel_add_dollar; [exact Hs | apply locals_names]).
      constructor.
      * apply add_dollar_closed.
        exact (Forall_flat_map_dep _ _ _ (fun m h => proj1 (so_member _ _ _ m h _ _ Hs Hs')) _ H1).
      * exact (Forall_flat_map_dep _ _ _ (fun m h => proj1 (proj2 (so_member _ _ _ m h _ _ Hs Hs'))) _ H1).
      * exact (Forall_flat_map_dep _ _ _ (fun m h => proj2 (proj2 (so_member _ _ _ m h _ _ Hs Hs'))) _ H1).
    + (* comprehension *)
      destruct (so_specs _ _ _ _ H cvs Hs) as (cout & Hc & Ho).
      set (locals := add_dollar io (map (ds_bind true) l1 ++ map (ds_bind true) l2)).
      assert (Hs' : scope_rel (map bind_name (l1 ++ l2) ++ vs') (map fst locals ++ cout) true)
        by (apply scope_rel_add_dollar; [exact Ho | rewrite <- map_app; apply binds_names]).
      econstructor; [exact Hc | eauto | | eauto].
      apply add_dollar_closed. rewrite <- map_app.
      exact (Forall_map_dep _ _ _ (fun b h => so_bind _ _ b h _ Hs') _ H1).
  - (* so_member *)
    destruct H; intros cvs cinner Hs Hi; simpl.
    + repeat split; repeat constructor. eauto.
    + destruct a as [asp c m]. split; [constructor | split; [constructor; [exact (so_assert _ _ _ H cinner Hi) | constructor] | constructor]].
    + repeat split; repeat constructor. exact (so_fname _ _ _ H cvs cinner plus vis _ Hs (so_expr _ _ _ H0 false cinner Hi)).
    + repeat split; repeat constructor. exact (so_fname _ _ _ H cvs cinner false vis _ Hs (so_function _ _ _ _ H0 cinner Hi)).
  - (* so_fname *)
    destruct H; intros cvs cinner plus vis body Hs Hb; simpl; constructor; try assumption.
    eauto.
Qed.

Theorem static_ok_closed : forall e, StaticOK [s_std] false e -> closed [s_std] false (desugar e).
Proof.
  intros e H. unfold desugar. apply (so_expr _ _ _ H false [s_std]). split; [apply incl_refl | discriminate].
Qed.

(* C09, second sentence, over the reference interpreter itself: a program that passes the static
   check never fails at run time because a variable, self, super or $ turns out to be unbound *)
Theorem refeval_no_static_error : forall e, StaticOK [s_std] false e ->
  forall fuel c, ~ RefScope_main.static_error (run fuel c e).
Proof.
  intros e H fuel c. unfold run. apply RefScope_main.core_no_static_error. apply static_ok_closed. exact H.
Qed.
