(* Proofs/Parser_rt3.v — round trip: arrays, core_expr, head and follow-token conditions, the frames
   wrap / open_case, index / slice / call arguments, params, binds, comprehension specs *)
From RJ Require Import Base.Outcome Model.Token Model.Ast Model.Parser Model.Print
  Proofs.Parser_rt Proofs.Parser_rt2.
From Coq Require Import Lia.
Local Open Scope list_scope.
Local Open Scope N_scope.

Notation T := spec_prec.

(* facts about operator tokens, by enumeration *)
Lemma ops_split op : exists l1 l2,
  pt_ops T (kind (binop_level op)) = l1 ++ (binop_tok op, op) :: l2 /\ all_miss l1 (sim (binop_tok op)) = true.
Proof.
  destruct op; cbn [binop_level kind pt_ops spec_prec binop_tok];
  first [ exists (@nil (stoken * binary_op)); eexists; split; reflexivity
        | eexists [_]; eexists; split; reflexivity
        | eexists [_; _]; eexists; split; reflexivity
        | eexists [_; _; _]; eexists; split; reflexivity
        | eexists [_; _; _; _]; eexists; split; reflexivity ].
Qed.
Lemma optok_nosfx op : nosfx (sim (binop_tok op)) = true.
Proof. destruct op; reflexivity. Qed.
Lemma optok_noop op : noop_above (binop_level op) (sim (binop_tok op)) = true.
Proof. destruct op; reflexivity. Qed.
Lemma level_le9 op : (binop_level op <= 9)%nat.
Proof. destruct op; cbn; lia. Qed.

(* after the operator `in` the parser looks ahead for a bare `super` (one not followed by `.` or
   `[`); a printed expression never is one *)
Definition in_ok_b (t : list token) : bool :=
  match t with
  | c :: rest => negb (is_simple KSuper c) ||
                 match rest with c2 :: _ => is_simple SDot c2 || is_simple SLeftBracket c2 | [] => false end
  | [] => true
  end.

Lemma peek_in s :
  (peek_simple KSuper 0 s && negb (peek_simple SDot 1 s) && negb (peek_simple SLeftBracket 1 s))%bool
  = negb (in_ok_b (toks_of s)).
Proof.
  destruct s as [c r ex dc dm]. unfold peek_simple, peek_tok, toks_of, in_ok_b. cbn [cur rest nth_error].
  destruct (is_simple KSuper c); destruct r as [|c2 r]; cbn; try reflexivity.
  destruct (is_simple SDot c2), (is_simple SLeftBracket c2); reflexivity.
Qed.

Lemma in_ok_single c t : is_simple KSuper c = false -> in_ok_b (c :: t) = true.
Proof. intros H. cbn. rewrite H. reflexivity. Qed.

Lemma print_in_ok e : forall t, in_ok_b (print_expr e ++ t) = true.
Proof.
  induction e; intros t; cbn [print_expr];
    try match goal with
        | IH : forall t, in_ok_b (print_expr ?x ++ t) = true |- in_ok_b ((print_expr ?x ++ _) ++ _) = true =>
            rewrite <- app_assoc; apply IH
        end.
  all: try destruct b; try destruct op; try destruct a; cbn [print_assert app];
    first [apply in_ok_single; reflexivity | reflexivity].
Qed.

Lemma run_for_spec_miss pexpr c t : is_simple KFor c = false ->
  run (maybe_parse_for_spec pexpr) (c :: t) None (c :: t).
Proof.
  intros H. unfold maybe_parse_for_spec. apply run_call.
  eapply run_orelse_miss; [apply run_eat_miss; exact H|apply run_ret].
Qed.

Lemma run_comp_spec_miss pexpr lf c t : is_simple KFor c = false ->
  run (maybe_parse_comp_spec pexpr lf) (c :: t) None (c :: t).
Proof.
  intros H. unfold maybe_parse_comp_spec. apply run_call.
  eapply run_orelse_miss; [apply run_for_spec_miss; exact H|apply run_ret].
Qed.

Section Steps.
  Variable pexpr : P expr.
  Variable lf : nat.
  Notation PL := (pe_loop spec_prec pexpr (S lf)).

  Lemma pl_rhs_op f op lhs stk t (a : expr) t' : t <> [] -> in_ok_b t = true ->
    run (PL f (enter (S (binop_level op))) (SiBinaryRhs (kind (binop_level op)) lhs op :: stk)) t a t' ->
    run (PL (S f) (StBinaryRhs (kind (binop_level op)) lhs) stk) (sim (binop_tok op) :: t) a t'.
  Proof.
    intros Ht Hs H. cbn [pe_loop].
    destruct (ops_split op) as (l1 & l2 & -> & Hm).
    eapply run_bind; [apply run_eat_first_hit; [exact Hm|destruct op; reflexivity|exact Ht]|].
    cbv beta iota. rewrite next_state_enter by apply level_le9.
    destruct (stoken_eqb (binop_tok op) KIn) eqn:Ein; [|exact H].
    apply run_if_false; [|exact H].
    intros s Es. rewrite peek_in, Es, Hs. reflexivity.
  Qed.

  Lemma pl_rhs_insuper f lhs stk c t (a : expr) t' : expr_span lhs = sp0 -> nosfx c = true ->
    run (PL f (StBinaryRhs (kind 6) (EInSuper sp0 lhs sp0)) stk) (c :: t) a t' ->
    run (PL (S f) (StBinaryRhs (kind 6) lhs) stk) (sim KIn :: sim KSuper :: c :: t) a t'.
  Proof.
    intros Hl Hn H. cbn [pe_loop].
    eapply run_bind.
    { apply (run_eat_first_hit [(SLt, BLt); (SLtEq, BLe); (SGt, BGt); (SGtEq, BGe)] KIn BIn []);
        [reflexivity|reflexivity|discriminate]. }
    cbv beta iota. change (stoken_eqb KIn KIn) with true. cbv iota.
    destruct (nosfx_inv c Hn) as (H1 & H2 & _).
    apply run_if_true.
    { intros s Es. unfold toks_of in Es. injection Es as Ec Er.
      unfold peek_simple, peek_tok. rewrite Ec, Er. cbn [nth_error]. rewrite H1, H2. reflexivity. }
    apply run_alt_hit; [reflexivity|discriminate|].
    rewrite Hl. apply run_span0_then. exact H.
  Qed.

  Lemma pl_parsed_suffix_gen f e stk t R t1 (a : expr) t' :
    run (suffix_loop pexpr (S lf) (S lf) e) t R t1 -> run (PL f (StParsed R) stk) t1 a t' ->
    run (PL (S f) (StParsed e) (SiSuffix :: stk)) t a t'.
  Proof.
    intros H1 H2. cbn [pe_loop].
    eapply run_bind; [unfold parse_suffix_expr; apply run_call; exact H1|exact H2].
  Qed.

  Lemma pl_primary_bracket f stk t (a : expr) t' : t <> [] ->
    run (IFLET en <== eat_simple SRightBracket true
         THEN (sp <- mk_span sp0 en ;; PL f (StParsed (EArray sp [])) stk)
         ELSE PL f (init_state T) (SiArrayItem0 sp0 :: stk)) t a t' ->
    run (PL (S f) StPrimary stk) (sim SLeftBracket :: t) a t'.
  Proof.
    intros Ht H. cbn [pe_loop]. do 2 (eapply run_orelse_miss; [run_compute|]).
    apply run_alt_hit; [reflexivity|exact Ht|]. exact H.
  Qed.

  (* the pending item of an array after the items [acc]: SiArrayItem0 is SiArrayItemN without
     items, except that it also tries a comprehension, which misses on `]` and on `, x` *)
  Definition aitem (acc : list expr) : stack_item :=
    match acc with [] => SiArrayItem0 sp0 | _ => SiArrayItemN sp0 acc end.

  Lemma aitem_snoc acc e : aitem (acc ++ [e]) = SiArrayItemN sp0 (acc ++ [e]).
  Proof. destruct acc; reflexivity. Qed.

  Lemma pl_item_last f e acc stk t (a : expr) t' : t <> [] ->
    run (PL f (StParsed (EArray sp0 (acc ++ [e]))) stk) t a t' ->
    run (PL (S f) (StParsed e) (aitem acc :: stk)) (sim SRightBracket :: t) a t'.
  Proof.
    intros Ht H. destruct acc as [|x acc]; cbn [aitem pe_loop]; cbv zeta.
    - eapply run_bind; [apply run_eat_miss; reflexivity|].
      eapply run_orelse_miss; [apply run_comp_spec_miss; reflexivity|].
      apply run_alt_hit; [reflexivity|exact Ht|].
      apply run_span0_then. exact H.
    - eapply run_bind; [apply run_eat_miss; reflexivity|].
      apply run_alt_hit; [reflexivity|exact Ht|].
      apply run_span0_then. exact H.
  Qed.

  Lemma pl_item_more f e acc stk l c r t (a : expr) t' : l = c :: r -> starter c = true ->
    run (PL f (init_state T) (aitem (acc ++ [e]) :: stk)) (l ++ t) a t' ->
    run (PL (S f) (StParsed e) (aitem acc :: stk)) (sim SComma :: l ++ t) a t'.
  Proof.
    intros -> Hc H. rewrite aitem_snoc in H. cbn [app] in *.
    destruct acc as [|x acc]; cbn [aitem pe_loop]; cbv zeta.
    - apply run_eat_then; [reflexivity|discriminate|].
      eapply run_orelse_miss; [apply run_comp_spec_miss; apply starter_not; [exact Hc|reflexivity]|].
      eapply run_orelse_miss; [apply run_eat_miss; apply starter_not; [exact Hc|reflexivity]|].
      exact H.
    - apply run_eat_then; [reflexivity|discriminate|].
      eapply run_orelse_miss; [apply run_eat_miss; apply starter_not; [exact Hc|reflexivity]|].
      exact H.
  Qed.

  (* the item of `[x for …]` *)
  Lemma pl_item0_comp f e stk c t specs' t2 (a : expr) t' :
    is_simple SComma c = false ->
    run (maybe_parse_comp_spec pexpr (S lf)) (c :: t) (Some specs') (sim SRightBracket :: t2) -> t2 <> [] ->
    run (PL f (StParsed (EArrayComp sp0 e specs')) stk) t2 a t' ->
    run (PL (S f) (StParsed e) (SiArrayItem0 sp0 :: stk)) (c :: t) a t'.
  Proof.
    intros Hc Hs Ht H. cbn [pe_loop].
    eapply run_bind; [apply run_eat_miss; exact Hc|].
    eapply run_orelse_hit; [exact Hs|].
    apply run_expect_then; [reflexivity|exact Ht|].
    apply run_span0_then. exact H.
  Qed.
End Steps.

(* core_expr: every `local` has a bind, every comprehension begins with `for` *)
Fixpoint core_expr (e : expr) : bool :=
  match e with
  | ENull _ | EBool _ _ | ESelf _ | EDollar _ | EString _ _ | ETextBlock _ _ | ENumber _ _ | EIdent _ _ => true
  | EParen _ x => core_expr x
  | ESuperField _ _ _ => true
  | ESuperIndex _ _ i => core_expr i
  | EUnary _ _ x => core_expr x
  | EBinary _ l _ r => core_expr l && core_expr r
  | EInSuper _ x _ => core_expr x
  | EArray _ items => forallb core_expr items
  | EArrayComp _ x specs =>
      core_expr x && specs_ok specs && forallb (fun c => match c with CFor _ y | CIf y => core_expr y end) specs
  | EField _ x _ => core_expr x
  | EIndex _ x i => core_expr x && core_expr i
  | ESlice _ x a b c =>
      core_expr x && match a with Some y => core_expr y | None => true end &&
      match b with Some y => core_expr y | None => true end &&
      match c with Some y => core_expr y | None => true end
  | ECall _ f args _ =>
      core_expr f && forallb (fun a => match a with APositional y | ANamed _ y => core_expr y end) args
  | EError _ x | EImport _ x | EImportStr _ x | EImportBin _ x => core_expr x
  | ELocal _ binds body =>
      negb (match binds with [] => true | _ => false end) &&
      forallb (fun b => match b with
                        | MkBind _ ps v =>
                            match ps with
                            | Some (l, _) => forallb (fun p => match p with MkParam _ d =>
                                               match d with Some y => core_expr y | None => true end end) l
                            | None => true
                            end && core_expr v
                        end) binds && core_expr body
  | EFunc _ params body =>
      forallb (fun p => match p with MkParam _ d => match d with Some y => core_expr y | None => true end end) params &&
      core_expr body
  | EIf _ c t o => core_expr c && core_expr t && match o with Some x => core_expr x | None => true end
  | EAssert _ (MkAssert _ c m) body =>
      core_expr c && match m with Some x => core_expr x | None => true end && core_expr body
  | EObject _ o => core_obj o
  | EObjExt _ x o _ => core_expr x && core_obj o
  end

with core_obj (o : obj_inside) : bool :=
  match o with
  | OMembers ms => forallb core_member ms
  | OComp l1 name _ body l2 specs =>
      forallb core_bind l1 && core_expr name && core_expr body && forallb core_bind l2 &&
      specs_ok specs && forallb (fun c => match c with CFor _ y | CIf y => core_expr y end) specs
  end

with core_member (m : member) : bool :=
  match m with
  | MLocal b => core_bind b
  | MAssert (MkAssert _ c m') => core_expr c && match m' with Some x => core_expr x | None => true end
  | MField f => core_field f
  end

with core_field (f : field) : bool :=
  match f with
  | FValue n _ _ v => core_fname n && core_expr v
  | FFunc n ps _ _ v =>
      core_fname n &&
      forallb (fun p => match p with MkParam _ d => match d with Some y => core_expr y | None => true end end) ps &&
      core_expr v
  end

with core_fname (n : field_name) : bool :=
  match n with
  | FnIdent _ | FnString _ _ => true
  | FnExpr e _ => core_expr e
  end

with core_bind (b : bind) : bool :=
  match b with
  | MkBind _ ps v =>
      match ps with
      | Some (l, _) => forallb (fun p => match p with MkParam _ d =>
                         match d with Some y => core_expr y | None => true end end) l
      | None => true
      end && core_expr v
  end.

Ltac split_and H :=
  repeat match type of H with
         | (_ && _)%bool = true => let H2 := fresh "Hc" in apply andb_true_iff in H as [H H2]
         end.

Definition pcore (p : param) : bool :=
  match p with MkParam _ d => match d with Some y => core_expr y | None => true end end.
Definition bcore (b : bind) : bool :=
  match b with
  | MkBind _ ps v => match ps with Some (l, _) => forallb pcore l | None => true end && core_expr v
  end.
Lemma core_bind_bcore b : core_bind b = bcore b.
Proof. destruct b as [nm [[l sp]|] v]; reflexivity. Qed.

Definition ocore (o : option expr) : bool := match o with Some y => core_expr y | None => true end.
Definition acore (a : arg) : bool := match a with APositional y | ANamed _ y => core_expr y end.
Definition score (c : comp_spec) : bool := match c with CFor _ y | CIf y => core_expr y end.

(* Transparent, as are the lemmas of section [CoreParts]: [wpx_core] is a structural recursion on the
   tree that goes through them, and the guard checker has to see that the hypothesis on
   sub-expressions is only ever applied to parts of the tree at hand. *)
Lemma forallb_impl {A} (p q : A -> bool) :
  (forall x, p x = true -> q x = true) -> forall l, forallb p l = true -> forallb q l = true.
Proof.
  intros H l. induction l as [|x l IH]; cbn [forallb]; [reflexivity|].
  intros Hl. apply andb_true_iff in Hl as [Hx Hl]. rewrite (H x Hx), (IH Hl). reflexivity.
Defined.

(* the parts of a tree that are not expressions, given the claim for the expressions in them *)
Section CoreParts.
  Variable HE : forall x, wpx 0 true x = true -> core_expr x = true.

  Lemma wp_param_core p : wp_param p = true -> pcore p = true.
  Proof. destruct p as [n [d|]]; [exact (HE d)|reflexivity]. Defined.

  Lemma wp_arg_core a : wp_arg a = true -> acore a = true.
  Proof. destruct a as [e|n e]; exact (HE e). Defined.

  Lemma wp_spec_core c : wp_spec c = true -> score c = true.
  Proof. destruct c as [v e|e]; exact (HE e). Defined.

  Lemma wp_fname_core n : wp_fname n = true -> core_fname n = true.
  Proof. destruct n as [i|s sp|e sp]; [reflexivity|reflexivity|exact (HE e)]. Defined.

  Lemma wp_assert_core a :
    wp_assert a = true -> match a with MkAssert _ c m => core_expr c && ocore m end = true.
  Proof.
    destruct a as [sp c [m|]]; intros H; cbn [wp_assert opt_all ocore] in *; split_and H;
      rewrite !HE by assumption; reflexivity.
  Defined.

  Lemma wp_bind_core b : wp_bind b = true -> core_bind b = true.
  Proof.
    destruct b as [n [[ps psp]|] v]; intros H; cbn [wp_bind core_bind] in *; split_and H;
      rewrite (HE v) by assumption; [|reflexivity].
    rewrite andb_true_r. exact (forallb_impl _ _ wp_param_core _ H).
  Defined.

  Lemma wp_field_core f : wp_field f = true -> core_field f = true.
  Proof.
    destruct f as [n plus vis v|n ps psp vis v]; intros H; cbn [wp_field core_field] in *; split_and H;
      rewrite wp_fname_core, (HE v) by assumption; [reflexivity|].
    rewrite andb_true_r. exact (forallb_impl _ _ wp_param_core _ Hc0).
  Defined.

  Lemma wp_member_core m : wp_member m = true -> core_member m = true.
  Proof. destruct m as [b|a|f]; [exact (wp_bind_core b)|exact (wp_assert_core a)|exact (wp_field_core f)]. Defined.

  Lemma wp_obj_core o : wp_obj o = true -> core_obj o = true.
  Proof.
    destruct o as [ms|l1 name plus body l2 specs]; intros H; cbn [wp_obj core_obj] in *.
    - exact (forallb_impl _ _ wp_member_core _ H).
    - split_and H. rewrite !(forallb_impl _ _ wp_bind_core), !HE, Hc0 by assumption.
      exact (forallb_impl _ _ wp_spec_core _ Hc).
  Defined.
End CoreParts.

(* wpx implies core_expr: a well-parenthesised tree has non-empty `local` bind lists and comprehension specs that begin
   with `for`, which is all that core_expr asks *)
Lemma wpx_core : forall e k last, wpx k last e = true -> core_expr e = true.
Proof.
  fix wpx_core 1. intros e k last H. pose proof (fun x => wpx_core x 0%nat true) as HE.
  destruct e; try reflexivity; cbn [wpx] in H; cbn [core_expr]; split_and H;
    erewrite ?wpx_core, ?(wp_obj_core HE) by eassumption; try reflexivity.
  - (* EArray *) exact (forallb_impl _ _ HE _ H).
  - (* EArrayComp *) rewrite Hc0. exact (forallb_impl _ _ (wp_spec_core HE) _ Hc).
  - (* ESlice *) destruct a, b, c; cbn [opt_all] in *; erewrite ?wpx_core by eassumption; reflexivity.
  - (* ECall *) exact (forallb_impl _ _ (wp_arg_core HE) _ Hc).
  - (* ELocal *) rewrite Hc1, andb_true_r. apply (forallb_impl wp_bind bcore); [|exact Hc0].
    intros b Hb. rewrite <- core_bind_bcore. exact (wp_bind_core HE b Hb).
  - (* EIf *) destruct e3; split_and H; erewrite !wpx_core by eassumption; reflexivity.
  - (* EFunc *) rewrite andb_true_r. exact (forallb_impl _ _ (wp_param_core HE) _ Hc0).
  - (* EAssert *) pose proof (wp_assert_core HE a Hc0) as Ha. destruct a. rewrite andb_true_r. exact Ha.
Qed.

(* the first printed token starts an expression; a left-recursive form begins as its first
   sub-expression does, every other form with a token of its own (which depends on [b] for
   true/false, on [op] for a unary operator, on [a] for assert) *)
Lemma print_head e : exists c r, print_expr e = c :: r /\ starter c = true.
Proof.
  induction e; cbn [print_expr];
    try match goal with
        | IH : exists c r, print_expr ?x = c :: r /\ _ |- exists c r, print_expr ?x ++ _ = _ /\ _ =>
            destruct IH as (c0 & r0 & -> & Hs); exists c0; eexists; split; [reflexivity|exact Hs]
        end.
  all: try destruct b; try destruct op; try destruct a; eexists; eexists; split; reflexivity.
Qed.

(* parse_arg's look-ahead `ident =` never fires on a printed expression *)
Definition named_test (l : list token) : bool :=
  match l with
  | c1 :: c2 :: _ => negb (not_ident c1) && is_simple SEq c2
  | _ => false
  end.

Lemma peek_named s : (peek_ident 0 s && peek_simple SEq 1 s)%bool = named_test (toks_of s).
Proof.
  destruct s as [c r ex dc dm]. unfold peek_ident, peek_simple, peek_tok, toks_of, named_test, not_ident.
  cbn [cur rest nth_error]. destruct r as [|c2 r]; destruct (tok_kind c); cbn; reflexivity.
Qed.

Lemma named_test_app_single c fo rest : is_simple SEq fo = false -> named_test ([c] ++ fo :: rest) = false.
Proof. intros H. cbn. rewrite H. apply andb_false_r. Qed.

Lemma named_test_head c r : not_ident c = true -> named_test (c :: r) = false.
Proof. intros H. destruct r; cbn; [reflexivity|]. rewrite H. reflexivity. Qed.

Lemma not_named e : forall fo rest, is_simple SEq fo = false ->
  named_test (print_expr e ++ fo :: rest) = false.
Proof.
  induction e; intros fo rest Hfo; cbn [print_expr];
    try match goal with
        | IH : forall fo rest, _ -> named_test (print_expr ?x ++ _) = false
          |- named_test ((print_expr ?x ++ _) ++ _) = false =>
            rewrite <- app_assoc; cbn [app]; apply IH; try destruct op; reflexivity
        end.
  all: try destruct b; try destruct op; try destruct a; cbn [print_assert app];
    first [apply named_test_app_single; exact Hfo | apply named_test_head; reflexivity].
Qed.

(* [stopper c]: neither a suffix nor a binary operator starts at c, so every expression ends
   before it.  [fcond k last fo]: what must follow an operand of level k; when it is the last
   part of everything around it ([last]), and so may be an open-ended form, a stopper. *)
Definition stopper (c : token) : bool := nosfx c && forallb (fun l => opmiss l c) (seq 0 10).
Definition fcond (k : nat) (last : bool) (fo : token) : Prop :=
  if last then stopper fo = true else nosfx fo = true /\ noop_above k fo = true.
Definition else_ok (e : expr) (fo : token) : Prop := dangling e = true -> is_simple KElse fo = false.

Lemma stopper_nosfx c : stopper c = true -> nosfx c = true.
Proof. unfold stopper. intros H. apply andb_true_iff in H as [H _]. exact H. Qed.
Lemma stopper_noop c k : stopper c = true -> noop_above k c = true.
Proof.
  unfold stopper, noop_above. intros H. apply andb_true_iff in H as [_ H].
  rewrite forallb_forall in *. intros l Hl. apply H. apply in_seq in Hl. apply in_seq. lia.
Qed.
Lemma stopper_op0 c : stopper c = true -> opmiss 0 c = true.
Proof.
  unfold stopper. intros H. apply andb_true_iff in H as [_ H]. rewrite forallb_forall in H.
  apply H. apply in_seq. lia.
Qed.
Lemma fcond_nosfx k last fo : fcond k last fo -> nosfx fo = true.
Proof. destruct last; cbn; [apply stopper_nosfx|tauto]. Qed.
Lemma fcond_noop k last fo : fcond k last fo -> noop_above k fo = true.
Proof. destruct last; cbn; [apply stopper_noop|tauto]. Qed.

(* what comes after a sub-expression that is not the last part of its form: a token that ends
   every expression, a dangling `if` included *)
Definition follow (fo : token) : Prop := stopper fo = true /\ is_simple KElse fo = false.

(* what a recursive call self.parse_expr() must deliver for the sub-expressions it is used on *)
Definition pexpr_ok (pexpr : P expr) (L : nat) : Prop :=
  forall y fo r, core_expr y = true -> wp y = true -> (List.length (print_expr y) < L)%nat ->
    stopper fo = true -> else_ok y fo ->
    run pexpr (print_expr y ++ fo :: r) (strip_spans y) (fo :: r).

Lemma pexpr_ok_mono pexpr L L' : pexpr_ok pexpr L -> (L' <= L)%nat -> pexpr_ok pexpr L'.
Proof. intros H HL y fo r Hc Hw Hl. apply H; [exact Hc|exact Hw|lia]. Qed.

(* pexpr_ok as it is used: core_expr follows from wpx *)
Lemma pexpr_run {pexpr L} (Hp : pexpr_ok pexpr L) y fo r : wpx 0 true y = true ->
  (List.length (print_expr y) < L)%nat -> stopper fo = true -> else_ok y fo ->
  run pexpr (print_expr y ++ fo :: r) (strip_spans y) (fo :: r).
Proof. intros Hw Hl Hs He. apply Hp; [exact (wpx_core _ _ _ Hw)|exact Hw|exact Hl|exact Hs|exact He]. Qed.

(* [Bform k last e c]: on the printed [e] followed by a token that [fcond k last] admits, the
   machine that enters level k leaves it with [strip_spans e] after c steps, whatever the stack
   and whatever comes next; [Uform] is the same from the unary level to the parsed operand.  The
   recursive calls are taken as correct on what prints shorter than [e]; [lf], the fuel of the
   inner loops, is at least the printed length. *)
Definition Bform (k : nat) (last : bool) (e : expr) (c : nat) : Prop :=
  forall pexpr lf f stk fo r x tf,
    pexpr_ok pexpr (List.length (print_expr e)) -> (List.length (print_expr e) <= lf)%nat ->
    fcond k last fo -> else_ok e fo ->
    run (pe_loop T pexpr (S lf) f (exit_ k (strip_spans e)) stk) (fo :: r) x tf ->
    run (pe_loop T pexpr (S lf) (c + f) (enter k) stk) (print_expr e ++ fo :: r) x tf.

Definition Uform (last : bool) (e : expr) (c : nat) : Prop :=
  forall pexpr lf f stk fo r x tf,
    pexpr_ok pexpr (List.length (print_expr e)) -> (List.length (print_expr e) <= lf)%nat ->
    nosfx fo = true -> (last = true -> stopper fo = true) ->
    else_ok e fo ->
    run (pe_loop T pexpr (S lf) f (StParsed (strip_spans e)) stk) (fo :: r) x tf ->
    run (pe_loop T pexpr (S lf) (c + f) StUnary stk) (print_expr e ++ fo :: r) x tf.

Ltac fuel_as X :=
  match goal with |- run (pe_loop _ _ _ ?F _ _) _ _ _ => replace F with X by lia end.

Lemma wrap k last e c : (k <= 10)%nat -> Uform last e c -> Bform k last e ((10 - k) + c + steps_fin k).
Proof.
  intros Hk HU pexpr lf f stk fo r x tf Hp Hlf Hfc Hel H.
  fuel_as ((10 - k) + (c + (steps_fin k + f)))%nat.
  apply descend; [lia|]. replace (k + (10 - k))%nat with 10%nat by lia.
  change (enter 10) with StUnary.
  apply HU; [exact Hp|exact Hlf|apply (fcond_nosfx k last); exact Hfc|intros ->; exact Hfc|exact Hel|].
  apply finish; [exact Hk|apply (fcond_noop k last); exact Hfc|exact H].
Qed.

Lemma steps_fin_le k : (steps_fin k <= 19)%nat.
Proof. unfold steps_fin. destruct (10 - k)%nat eqn:E; lia. Qed.

(* An open-ended form (local, if, function, assert, import…, error) is only allowed last and
   begins with a keyword that is no unary operator: from its transition through StPrimary
   (which ends where the last sub-expression ends, so no suffix can follow) it is a Bform at every level. *)
Lemma open_case k last e kw t0 : (k <= 10)%nat -> last = true ->
  print_expr e = sim kw :: t0 -> all_miss (pt_unary T) (sim kw) = true ->
  (forall pexpr lf f stk fo r x tf,
     pexpr_ok pexpr (List.length (print_expr e)) -> (List.length (print_expr e) <= lf)%nat ->
     stopper fo = true -> else_ok e fo ->
     run (pe_loop T pexpr (S lf) f (StParsed (strip_spans e)) stk) (fo :: r) x tf ->
     run (pe_loop T pexpr (S lf) (S f) StPrimary stk) (sim kw :: t0 ++ fo :: r) x tf) ->
  exists c, (c <= 40 * List.length (print_expr e))%nat /\ Bform k last e c.
Proof.
  intros Hk -> Hpr Hum Hbody. pose proof (steps_fin_le k) as Hfin.
  exists ((10 - k) + 3 + steps_fin k)%nat. split; [rewrite Hpr; cbn [List.length]; lia|].
  apply wrap; [exact Hk|].
  intros pexpr lf f stk fo r x tf Hp Hlf Hn Hs Hel H.
  rewrite Hpr. cbn [app Nat.add].
  apply pl_unary_miss; [exact Hum|].
  apply Hbody; [exact Hp|exact Hlf|exact (Hs eq_refl)|exact Hel|].
  apply pl_parsed_suffix_none; [exact Hn|exact H].
Qed.

Lemma prefix_case k last e x kw mk : (k <= 10)%nat -> last = true -> In (kw, mk) prefix_kws ->
  print_expr e = sim kw :: print_expr x -> strip_spans e = mk sp0 (strip_spans x) ->
  dangling e = dangling x -> wpx 0 true x = true ->
  exists c, (c <= 40 * List.length (print_expr e))%nat /\ Bform k last e c.
Proof.
  intros Hk Hl Hin Hpr Hst Hdg Hw. apply (open_case k last e kw (print_expr x) Hk Hl Hpr).
  { repeat (destruct Hin as [[= <- <-]|Hin]; [reflexivity|]). destruct Hin. }
  intros pexpr lf f stk fo r v tf Hp Hlf Hs Hel H. rewrite Hpr in Hp. cbn [List.length] in Hp.
  apply (pl_primary_prefix pexpr lf kw mk); [exact Hin|auto with rt|].
  eapply run_bind.
  - unfold prefix_form. eapply run_bind.
    + apply (pexpr_run Hp); [exact Hw|lia|exact Hs|intros Hd; apply Hel; rewrite Hdg; exact Hd].
    + rewrite strip_span0. apply run_span0_then, run_ret.
  - rewrite Hst in H. exact H.
Qed.

Ltac len_tac :=
  cbn [print_expr print_assert opt_tokens sep_by flat_map comma];
  repeat (progress (repeat rewrite app_length; cbn [List.length])); lia.

Lemma app_r_not_nil {A} (l1 l2 : list A) : l2 <> [] -> l1 ++ l2 <> [].
Proof. destruct l1; [auto|discriminate]. Qed.
#[export] Hint Resolve app_r_not_nil : rt.

Lemma run_eat_miss_app k add l t c r : l = c :: r -> is_simple k c = false ->
  run (eat_simple k add) (l ++ t) None (l ++ t).
Proof. intros -> H. apply run_eat_miss; exact H. Qed.

Ltac norm_app := repeat (progress (rewrite <- ?app_assoc; cbn [app])).

(* lengths of printed lists: every element, and the number of elements, are bounded by the whole *)
Lemma flat_map_len_in {A} (f : A -> list token) l x : In x l ->
  (List.length (f x) <= List.length (flat_map f l))%nat.
Proof.
  induction l as [|y l IH]; cbn [flat_map In]; [tauto|]. rewrite app_length.
  intros [->|Hin]; [lia|]. specialize (IH Hin). lia.
Qed.

Lemma flat_map_count {A} (f : A -> list token) l : (forall x, In x l -> f x <> []) ->
  (List.length l <= List.length (flat_map f l))%nat.
Proof.
  induction l as [|y l IH]; intros Hne; cbn [flat_map List.length]; [lia|]. rewrite app_length.
  pose proof (Hne y (or_introl eq_refl)). destruct (f y); [congruence|].
  specialize (IH (fun x Hin => Hne x (or_intror Hin))). cbn [List.length]. lia.
Qed.

Lemma flat_len {A} (f : A -> list token) (l : list A) :
  (List.length l <= List.length (flat_map (fun y => comma ++ f y) l))%nat.
Proof. apply flat_map_count. discriminate. Qed.

Lemma sep_by_len {A} (f : A -> list token) l x : In x l ->
  (List.length (f x) <= List.length (sep_by comma f l))%nat.
Proof.
  unfold sep_by. destruct l as [|a0 more]; [intros []|]. rewrite app_length. intros [->|Hin]; [lia|].
  pose proof (flat_map_len_in (fun y => comma ++ f y) more x Hin) as Hle. cbv beta in Hle. rewrite app_length in Hle. lia.
Qed.

Lemma sep_by_count {A} (f : A -> list token) l : (forall x, In x l -> f x <> []) ->
  (List.length l <= List.length (sep_by comma f l))%nat.
Proof.
  unfold sep_by. destruct l as [|a0 more]; [cbn; lia|]. intros Hne. rewrite app_length.
  pose proof (flat_len f more). specialize (Hne a0 (or_introl eq_refl)).
  destruct (f a0); [congruence|]. cbn [List.length]. lia.
Qed.

Lemma app_cons_snoc {A} (l : list A) x r : l ++ x :: r = (l ++ [x]) ++ r.
Proof. rewrite <- app_assoc. reflexivity. Qed.

Lemma spec_nonempty c : print_spec c <> [].
Proof. destruct c; discriminate. Qed.

Lemma run_eat_string_miss_sim add k t : run (eat_string add) (sim k :: t) None (sim k :: t).
Proof. apply run_on. intros ex dc dm. destruct add; eexists; split; reflexivity. Qed.

Lemma run_eat_text_block_miss_sim add k t : run (eat_text_block add) (sim k :: t) None (sim k :: t).
Proof. apply run_on. intros ex dc dm. destruct add; eexists; split; reflexivity. Qed.

Section Productions.
  Variable pexpr : P expr.
  Variable L : nat.
  Hypothesis Hp : pexpr_ok pexpr L.

  Lemma run_pexpr y fo r : wpx 0 true y = true -> (List.length (print_expr y) < L)%nat -> follow fo ->
    run pexpr (print_expr y ++ fo :: r) (strip_spans y) (fo :: r).
  Proof. intros Hw Hl [Hs He]. apply (pexpr_run Hp); [exact Hw|exact Hl|exact Hs|intros _; exact He]. Qed.

  (* the head of a printed expression is missed by eat_simple of a non-starter *)
  Lemma run_miss_head k add y t : starter_k k = false ->
    run (eat_simple k add) (print_expr y ++ t) None (print_expr y ++ t).
  Proof.
    intros Hk. destruct (print_head y) as (c & r & E & Hst). rewrite E. cbn [app].
    apply run_eat_miss. apply starter_not; assumption.
  Qed.

  Lemma run_fin lhs A B C t : expr_span lhs = sp0 -> run (fin_slice lhs A B C sp0) t (ESlice sp0 lhs A B C) t.
  Proof. intros Hs. unfold fin_slice. rewrite Hs. apply run_span0_then, run_ret. Qed.

  Definition ctoks (c : option expr) : list token :=
    match c with Some c' => sim SColon :: print_expr c' | None => [] end.
  Definition olen (o : option expr) : nat := match o with Some y => List.length (print_expr y) | None => O end.

  Lemma run_idx3 y rest : wpx 0 true y = true -> (List.length (print_expr y) < L)%nat -> rest <> [] ->
    run (idx3 pexpr) (print_expr y ++ sim SRightBracket :: rest) (Some (strip_spans y), sp0) rest.
  Proof.
    intros Hw Hl Hr. unfold idx3. eapply run_orelse_miss; [apply run_miss_head; reflexivity|].
    eapply run_bind; [apply run_pexpr; [exact Hw|exact Hl|split; reflexivity]|].
    apply run_expect_then; [reflexivity|exact Hr|apply run_ret].
  Qed.

  Lemma run_after2 c rest : opt_all (wpx 0 true) c = true -> (olen c < L)%nat -> rest <> [] ->
    run (after2 pexpr) (ctoks c ++ sim SRightBracket :: rest) (option_map strip_spans c, sp0) rest.
  Proof.
    intros Hw Hl Hr. unfold after2. destruct c as [c|]; cbn [ctoks option_map app].
    - apply run_alt_miss; [reflexivity|]. apply run_alt_hit; [reflexivity|auto with rt|].
      apply run_idx3; assumption.
    - apply run_alt_hit; [reflexivity|exact Hr|apply run_ret].
  Qed.

  (* after the first `:` of a slice *)
  Lemma run_slice_tail lhs A b c rest :
    opt_all (wpx 0 true) b = true -> opt_all (wpx 0 true) c = true ->
    (olen b < L)%nat -> (olen c < L)%nat -> expr_span lhs = sp0 -> rest <> [] ->
    run (IFLET e <== eat_simple SRightBracket true THEN fin_slice lhs A None None e ELSE
         IFLET _ <== eat_simple SColon true THEN ('(i3, e) <- idx3 pexpr ;; fin_slice lhs A None i3 e) ELSE
         (i2 <- pexpr ;; '(i3, e) <- after2 pexpr ;; fin_slice lhs A (Some i2) i3 e))
        (opt_tokens print_expr b ++ ctoks c ++ sim SRightBracket :: rest)
        (ESlice sp0 lhs A (option_map strip_spans b) (option_map strip_spans c)) rest.
  Proof.
    intros Hwb Hwc Hlb Hlc Hs Hr.
    destruct b as [b|]; [|destruct c as [c|]]; cbn [opt_tokens ctoks option_map app opt_all olen] in *.
    - (* b [: c] ] *)
      assert (E : exists fo r, ctoks c ++ sim SRightBracket :: rest = fo :: r /\ follow fo)
        by (destruct c; eexists; eexists; (split; [reflexivity|split; reflexivity])).
      destruct E as (fo & r & E & Hfo). rewrite E.
      eapply run_orelse_miss; [apply run_miss_head; reflexivity|].
      eapply run_orelse_miss; [apply run_miss_head; reflexivity|].
      eapply run_bind; [apply run_pexpr; [exact Hwb|exact Hlb|exact Hfo]|]. rewrite <- E.
      eapply run_bind; [apply run_after2; assumption|]. apply run_fin, Hs.
    - (* : c ] *)
      apply run_alt_miss; [reflexivity|]. apply run_alt_hit; [reflexivity|auto with rt|].
      eapply run_bind; [apply run_idx3; assumption|]. apply run_fin, Hs.
    - (* ] *)
      apply run_alt_hit; [reflexivity|exact Hr|]. apply run_fin, Hs.
  Qed.

  Lemma run_index lhs i rest : wpx 0 true i = true ->
    (List.length (print_expr i) < L)%nat -> expr_span lhs = sp0 -> rest <> [] ->
    run (parse_index_expr pexpr lhs) (print_expr i ++ sim SRightBracket :: rest) (EIndex sp0 lhs (strip_spans i)) rest.
  Proof.
    intros Hw Hl Hs Hr. unfold parse_index_expr. apply run_call.
    eapply run_orelse_miss; [apply run_miss_head; reflexivity|].
    eapply run_orelse_miss; [apply run_miss_head; reflexivity|].
    eapply run_bind; [apply run_pexpr; [exact Hw|exact Hl|split; reflexivity]|].
    apply run_alt_hit; [reflexivity|exact Hr|].
    rewrite Hs. apply run_span0_then, run_ret.
  Qed.

  Lemma run_slice lhs a b c rest :
    opt_all (wpx 0 true) a = true -> opt_all (wpx 0 true) b = true -> opt_all (wpx 0 true) c = true ->
    (olen a < L)%nat -> (olen b < L)%nat -> (olen c < L)%nat -> expr_span lhs = sp0 -> rest <> [] ->
    run (parse_index_expr pexpr lhs)
        (opt_tokens print_expr a ++ sim SColon :: opt_tokens print_expr b ++ ctoks c ++ sim SRightBracket :: rest)
        (ESlice sp0 lhs (option_map strip_spans a) (option_map strip_spans b) (option_map strip_spans c)) rest.
  Proof.
    intros Hwa Hwb Hwc Hla Hlb Hlc Hs Hr. unfold parse_index_expr. apply run_call.
    destruct a as [a|]; cbn [opt_tokens option_map app opt_all olen] in *.
    - eapply run_orelse_miss; [apply run_miss_head; reflexivity|].
      eapply run_orelse_miss; [apply run_miss_head; reflexivity|].
      eapply run_bind; [apply run_pexpr; [exact Hwa|exact Hla|split; reflexivity]|].
      apply run_alt_miss; [reflexivity|].
      apply run_alt_hit; [reflexivity|auto with rt|].
      apply (run_slice_tail lhs (Some (strip_spans a)) b c rest); assumption.
    - apply run_alt_hit; [reflexivity|auto with rt|].
      apply (run_slice_tail lhs None b c rest); assumption.
  Qed.

  Definition alen (a : arg) : nat := List.length (print_arg a).

  Lemma run_arg a fo r : wp_arg a = true -> (alen a < L)%nat -> follow fo -> is_simple SEq fo = false ->
    run (parse_arg pexpr) (print_arg a ++ fo :: r) (strip_arg a) (fo :: r).
  Proof.
    intros Hw Hl Hfo Hq. unfold parse_arg. apply run_call. destruct a as [y|name y]; cbn [wp_arg print_arg strip_arg] in *.
    - apply run_if_false.
      + intros s Es. rewrite peek_named, Es. apply not_named; assumption.
      + eapply run_bind; [apply run_pexpr; [exact Hw|exact Hl|exact Hfo]|apply run_ret].
    - cbn [app]. apply run_if_true.
      + intros s Es. rewrite peek_named, Es. reflexivity.
      + eapply run_orelse_hit; [unfold id_tok, tk; apply run_eat_ident_hit; auto with rt|].
        apply run_alt_hit; [reflexivity|auto with rt|].
        unfold alen in Hl. cbn [print_arg List.length] in Hl.
        eapply run_bind; [apply run_pexpr; [exact Hw|lia|exact Hfo]|apply run_ret].
  Qed.

  Lemma arg_head a : exists c r, print_arg a = c :: r /\ is_simple SRightParen c = false.
  Proof.
    destruct a as [y|name y]; cbn [print_arg].
    - destruct (print_head y) as (c & r & E & Hst). exists c, r. split; [exact E|].
      apply starter_not; [exact Hst|reflexivity].
    - eexists; eexists; split; reflexivity.
  Qed.

  Definition arg_ok (a : arg) : Prop := wp_arg a = true /\ (alen a < L)%nat.

  Lemma run_args_loop : forall more a0 acc fuel rest,
    (List.length more < fuel)%nat -> Forall arg_ok (a0 :: more) -> rest <> [] ->
    run (args_loop pexpr fuel acc)
        (print_arg a0 ++ flat_map (fun y => comma ++ print_arg y) more ++ sim SRightParen :: rest)
        (acc ++ map strip_arg (a0 :: more), sp0) rest.
  Proof.
    induction more as [|a1 more IH]; intros a0 acc fuel rest Hf Hall Hr;
      destruct fuel as [|f]; try (cbn in Hf; lia); cbn [args_loop flat_map app].
    - inversion Hall as [|? ? (Hw & Hl) _]; subst.
      eapply run_bind; [apply run_arg; [exact Hw|exact Hl|split; reflexivity|reflexivity]|].
      apply run_alt_hit; [reflexivity|exact Hr|]. apply run_ret.
    - inversion Hall as [|? ? (Hw & Hl) Hall']; subst.
      unfold comma at 1. rewrite <- !app_assoc. cbn [app].
      eapply run_bind; [apply run_arg; [exact Hw|exact Hl|split; reflexivity|reflexivity]|].
      apply run_alt_miss; [reflexivity|].
      apply run_alt_hit; [reflexivity|auto with rt|].
      destruct (arg_head a1) as (c & r & E & Hh).
      eapply run_orelse_miss; [eapply run_eat_miss_app; [exact E|exact Hh]|].
      replace (acc ++ map strip_arg (a0 :: a1 :: more)) with ((acc ++ [strip_arg a0]) ++ map strip_arg (a1 :: more))
        by (symmetry; apply app_cons_snoc).
      apply IH; [cbn in Hf; lia|exact Hall'|exact Hr].
  Qed.

  (* the arguments of a call up to its `)`; `()` is read without entering parse_args *)
  Lemma run_call_args lf' args rest : forallb wp_arg args = true ->
    (List.length (sep_by comma print_arg args) < L)%nat ->
    (List.length (sep_by comma print_arg args) <= lf')%nat -> rest <> [] ->
    run (IFLET e <== eat_simple SRightParen true THEN ret ([], e) ELSE parse_args pexpr lf')
        (sep_by comma print_arg args ++ sim SRightParen :: rest) (map strip_arg args, sp0) rest.
  Proof.
    intros Hw HL Hlf Hr. destruct args as [|a0 more].
    - cbn [sep_by app map]. apply run_alt_hit; [reflexivity|exact Hr|apply run_ret].
    - assert (Hargs : Forall arg_ok (a0 :: more)).
      { apply Forall_forall. intros a Hin. rewrite forallb_forall in Hw. split; [apply (Hw a Hin)|].
        pose proof (sep_by_len print_arg (a0 :: more) a Hin) as Hle. unfold alen. lia. }
      destruct (arg_head a0) as (ch & rh & Eh & Hh).
      unfold sep_by in *. rewrite app_length, Eh in Hlf. cbn [List.length] in Hlf. rewrite <- app_assoc.
      eapply run_orelse_miss; [eapply run_eat_miss_app; [exact Eh|exact Hh]|].
      unfold parse_args. apply run_call.
      eapply run_orelse_miss; [eapply run_eat_miss_app; [exact Eh|exact Hh]|].
      apply run_args_loop; [|exact Hargs|exact Hr].
      pose proof (flat_len print_arg more). lia.
  Qed.

  Definition param_ok (p : param) : Prop :=
    wp_param p = true /\ (List.length (print_param p) < L)%nat.

  (* one `name [= default]`, as params_loop reads it, followed by the rest [k] of the iteration *)
  Lemma run_param_then {B} name d fo r (k : ident -> option expr -> P B) b t' :
    param_ok (MkParam name d) -> follow fo -> is_simple SEq fo = false ->
    run (k (strip_ident name) (option_map strip_spans d)) (fo :: r) b t' ->
    run (nm <- expect_ident true ;; c <- eat_simple SEq true ;; dv <- opt_expr pexpr c ;; k nm dv)
        (print_param (MkParam name d) ++ fo :: r) b t'.
  Proof.
    intros (Hw & Hl) Hfo Hq Hk. cbn [print_param wp_param app] in *.
    eapply run_bind; [unfold id_tok, tk; apply run_expect_ident_hit; auto with rt|].
    destruct d as [y|]; cbn [opt_all option_map app] in *.
    - apply run_eat_then; [reflexivity|auto with rt|].
      cbn [opt_expr]. eapply run_bind; [|exact Hk].
      cbn [List.length] in Hl. eapply run_bind; [apply run_pexpr; [exact Hw|lia|exact Hfo]|apply run_ret].
    - eapply run_bind; [apply run_eat_miss; exact Hq|].
      cbn [opt_expr]. eapply run_bind; [apply run_ret|exact Hk].
  Qed.

  Lemma run_params_loop : forall more p0 acc fuel rest,
    (List.length more < fuel)%nat -> Forall param_ok (p0 :: more) -> rest <> [] ->
    run (params_loop pexpr fuel acc)
        (print_param p0 ++ flat_map (fun y => comma ++ print_param y) more ++ sim SRightParen :: rest)
        (acc ++ map strip_param (p0 :: more), sp0) rest.
  Proof.
    induction more as [|p1 more IH]; intros p0 acc fuel rest Hf Hall Hr;
      destruct fuel as [|f]; try (cbn in Hf; lia); cbn [params_loop flat_map];
      inversion Hall as [|? ? Hok Hall']; subst; destruct p0 as [name d].
    - cbn [app]. apply run_param_then; [exact Hok|split; reflexivity|reflexivity|]. cbv zeta.
      eapply run_orelse_hit; [apply run_eat_hit; [reflexivity|exact Hr]|apply run_ret].
    - unfold comma at 1. rewrite <- !app_assoc. cbn [app].
      apply run_param_then; [exact Hok|split; reflexivity|reflexivity|]. cbv zeta.
      destruct p1 as [name1 d1].
      apply run_alt_miss; [reflexivity|].
      apply run_alt_hit; [reflexivity|cbn [print_param app]; discriminate|].
      eapply run_orelse_miss; [eapply (run_eat_miss_app _ _ _ _ (id_tok name1)); [reflexivity|reflexivity]|].
      replace (acc ++ map strip_param (MkParam name d :: MkParam name1 d1 :: more))
        with ((acc ++ [strip_param (MkParam name d)]) ++ map strip_param (MkParam name1 d1 :: more))
        by (symmetry; apply app_cons_snoc).
      apply IH; [cbn in Hf; lia|exact Hall'|exact Hr].
  Qed.

  Lemma run_params lf' params rest : forallb wp_param params = true ->
    (List.length (sep_by comma print_param params) < L)%nat ->
    (List.length (sep_by comma print_param params) <= lf')%nat -> rest <> [] ->
    run (parse_params pexpr lf') (sep_by comma print_param params ++ sim SRightParen :: rest)
        (map strip_param params, sp0) rest.
  Proof.
    intros Hw HL Hlf Hr.
    assert (Hall : Forall param_ok params).
    { apply Forall_forall. intros p Hin. rewrite forallb_forall in Hw. split; [apply (Hw p Hin)|].
      pose proof (sep_by_len print_param params p Hin). lia. }
    assert (Hcnt : (List.length params <= lf')%nat).
    { pose proof (sep_by_count print_param params) as Hc. rewrite <- Hc in Hlf; [exact Hlf|].
      intros [nm dd] _. discriminate. }
    unfold parse_params. apply run_call. unfold sep_by. destruct params as [|p0 more].
    - cbn [app map]. eapply run_orelse_hit; [apply run_eat_hit; [reflexivity|exact Hr]|apply run_ret].
    - rewrite <- app_assoc. destruct p0 as [name d].
      eapply run_orelse_miss; [eapply (run_eat_miss_app _ _ _ _ (id_tok name)); [reflexivity|reflexivity]|].
      apply (run_params_loop more (MkParam name d) []); [cbn in Hcnt; lia|exact Hall|exact Hr].
  Qed.

  Definition bind_ok (b : bind) : Prop :=
    wp_bind b = true /\ (List.length (print_bind b) < L)%nat.

  Lemma run_bind_ lf' b fo r : bind_ok b -> (List.length (print_bind b) <= lf')%nat -> follow fo ->
    run (parse_bind pexpr lf') (print_bind b ++ fo :: r) (strip_bind b) (fo :: r).
  Proof.
    intros (Hw & Hl) Hlf Hfo. destruct b as [name ps v]. cbn [wp_bind print_bind strip_bind] in *.
    apply andb_true_iff in Hw as [Hwp Hwv].
    unfold parse_bind. apply run_call. cbn [app].
    eapply run_bind; [unfold id_tok, tk; apply run_expect_ident_hit; auto with rt|].
    destruct ps as [[l psp]|]; norm_app; cbv beta iota in Hl, Hlf; cbn [List.length] in Hl, Hlf;
      repeat (rewrite app_length in Hl, Hlf; cbn [List.length] in Hl, Hlf).
    - apply run_eat_then; [reflexivity|auto with rt|].
      eapply run_bind.
      + eapply run_bind; [apply (run_params lf' l); [exact Hwp|lia|lia|discriminate]|].
        cbv beta iota. apply run_span0_then, run_ret.
      + apply run_expect_then; [reflexivity|auto with rt|].
        eapply run_bind; [apply run_pexpr; [exact Hwv| |exact Hfo]|apply run_ret].
        revert Hl. cbn [List.length]. repeat (rewrite app_length; cbn [List.length]). lia.
    - eapply run_bind; [apply run_eat_miss; reflexivity|].
      eapply run_bind; [apply run_ret|].
      apply run_expect_then; [reflexivity|auto with rt|].
      eapply run_bind; [apply run_pexpr; [exact Hwv| |exact Hfo]|apply run_ret].
      revert Hl. cbn [List.length]. lia.
  Qed.

  Lemma binds_follow more fo r : follow fo ->
    exists t0 r0, flat_map (fun b => comma ++ print_bind b) more ++ fo :: r = t0 :: r0 /\ follow t0.
  Proof.
    intros Hfo. destruct more as [|b more]; cbn [flat_map comma app].
    - eexists; eexists; split; [reflexivity|exact Hfo].
    - eexists; eexists; split; [reflexivity|split; reflexivity].
  Qed.

  Lemma run_binds_loop lf' : forall more acc fuel fo r, (List.length more < fuel)%nat ->
    Forall (fun b => bind_ok b /\ (List.length (print_bind b) <= lf')%nat) more ->
    follow fo -> is_simple SComma fo = false ->
    run (binds_loop pexpr lf' fuel acc) (flat_map (fun b => comma ++ print_bind b) more ++ fo :: r)
        (acc ++ map strip_bind more) (fo :: r).
  Proof.
    induction more as [|b more IH]; intros acc fuel fo r Hf Hall Hfo Hc;
      destruct fuel as [|f]; try (cbn in Hf; lia); cbn [binds_loop flat_map map app].
    - apply run_alt_miss; [exact Hc|]. rewrite app_nil_r. apply run_ret.
    - inversion Hall as [|? ? (Hok & Hlb) Hall']; subst.
      unfold comma at 1. norm_app.
      apply run_alt_hit; [reflexivity|auto with rt|].
      destruct (binds_follow more fo r Hfo) as (t0 & r0 & E0 & Hf0).
      rewrite E0.
      eapply run_bind; [apply (run_bind_ lf' b t0 r0 Hok Hlb Hf0)|].
      rewrite <- E0.
      rewrite (app_cons_snoc acc (strip_bind b) (map strip_bind more)).
      apply IH; [cbn in Hf; lia|exact Hall'|exact Hfo|exact Hc].
  Qed.

  Definition spec_ok (c : comp_spec) : Prop :=
    wp_spec c = true /\ (List.length (print_spec c) < L)%nat.

  Lemma specs_follow more fo r : follow fo ->
    exists t0 r0, flat_map print_spec more ++ fo :: r = t0 :: r0 /\ follow t0.
  Proof.
    intros Hf. destruct more as [|[v y|y] more]; cbn [flat_map print_spec app].
    - eexists; eexists; split; [reflexivity|exact Hf].
    - eexists; eexists; split; [reflexivity|split; reflexivity].
    - eexists; eexists; split; [reflexivity|split; reflexivity].
  Qed.

  Lemma run_for_spec v y t0 r0 : wpx 0 true y = true ->
    (List.length (print_expr y) < L)%nat -> follow t0 ->
    run (maybe_parse_for_spec pexpr) (sim KFor :: id_tok v :: sim KIn :: print_expr y ++ t0 :: r0)
        (Some (CFor (strip_ident v) (strip_spans y))) (t0 :: r0).
  Proof.
    intros Hw Hl Hf0. unfold maybe_parse_for_spec. apply run_call.
    apply run_alt_hit; [reflexivity|discriminate|].
    eapply run_bind; [unfold id_tok, tk; apply run_expect_ident_hit; discriminate|].
    apply run_expect_then; [reflexivity|auto with rt|].
    eapply run_bind; [apply run_pexpr; [exact Hw|exact Hl|exact Hf0]|apply run_ret].
  Qed.

  Lemma run_if_spec_miss c t : is_simple KIf c = false -> run (maybe_parse_if_spec pexpr) (c :: t) None (c :: t).
  Proof.
    intros H. unfold maybe_parse_if_spec. apply run_call.
    eapply run_orelse_miss; [apply run_eat_miss; exact H|apply run_ret].
  Qed.

  (* one spec, as comp_spec_loop reads it, followed by the rest [k] of the iteration *)
  Lemma run_spec_then {B} (k : comp_spec -> P B) z sc t0 r0 b t' : spec_ok sc -> follow t0 ->
    run (k (strip_spec sc)) (t0 :: r0) b t' ->
    run (IFLET fs <== maybe_parse_for_spec pexpr THEN k fs ELSE
         IFLET ifs <== maybe_parse_if_spec pexpr THEN k ifs ELSE z) (print_spec sc ++ t0 :: r0) b t'.
  Proof.
    intros (Hw & Hl) Hf0 Hk. destruct sc as [v y|y]; cbn [wp_spec print_spec strip_spec app List.length] in *.
    - eapply run_orelse_hit; [apply run_for_spec; [exact Hw|lia|exact Hf0]|exact Hk].
    - eapply run_orelse_miss; [apply run_for_spec_miss; reflexivity|].
      eapply run_orelse_hit; [|exact Hk].
      unfold maybe_parse_if_spec. apply run_call. apply run_alt_hit; [reflexivity|auto with rt|].
      eapply run_bind; [apply run_pexpr; [exact Hw|lia|exact Hf0]|apply run_ret].
  Qed.

  Lemma run_comp_loop : forall specs acc fuel fo r, (List.length specs < fuel)%nat ->
    Forall spec_ok specs -> follow fo -> is_simple KFor fo = false -> is_simple KIf fo = false ->
    run (comp_spec_loop pexpr fuel acc) (flat_map print_spec specs ++ fo :: r) (acc ++ map strip_spec specs) (fo :: r).
  Proof.
    induction specs as [|sc more IH]; intros acc fuel fo r Hf Hall Hfo Hnf Hni;
      destruct fuel as [|f]; try (cbn in Hf; lia); cbn [comp_spec_loop flat_map app map].
    - eapply run_orelse_miss; [apply run_for_spec_miss; exact Hnf|].
      eapply run_orelse_miss; [apply run_if_spec_miss; exact Hni|].
      rewrite app_nil_r. apply run_ret.
    - inversion Hall as [|? ? Hok Hall']; subst.
      destruct (specs_follow more fo r Hfo) as (t0 & r0 & E0 & Hf0).
      rewrite <- app_assoc, E0, (app_cons_snoc acc (strip_spec sc) (map strip_spec more)).
      apply run_spec_then; [exact Hok|exact Hf0|].
      rewrite <- E0. apply IH; [cbn in Hf; lia|exact Hall'|exact Hfo|exact Hnf|exact Hni].
  Qed.

  Lemma run_comp_spec lf' specs fo r : specs_ok specs = true -> (List.length specs <= lf')%nat ->
    Forall spec_ok specs -> follow fo -> is_simple KFor fo = false -> is_simple KIf fo = false ->
    run (maybe_parse_comp_spec pexpr lf') (flat_map print_spec specs ++ fo :: r)
        (Some (map strip_spec specs)) (fo :: r).
  Proof.
    intros Hok Hlf Hall Hfo Hnf Hni. destruct specs as [|[v y|y] more]; cbn [specs_ok] in Hok; try discriminate.
    inversion Hall as [|? ? (Hw & Hl) Hall']; subst.
    unfold maybe_parse_comp_spec. apply run_call. cbn [flat_map print_spec app map strip_spec].
    destruct (specs_follow more fo r Hfo) as (t0 & r0 & E0 & Hf0).
    rewrite <- app_assoc. rewrite E0. cbn [wp_spec print_spec] in *.
    eapply run_orelse_hit; [apply run_for_spec; [exact Hw|cbn [List.length] in Hl; lia|exact Hf0]|].
    eapply run_bind; [|apply run_ret].
    rewrite <- E0.
    apply (run_comp_loop more [CFor (strip_ident v) (strip_spans y)]);
      [cbn in Hlf; lia|exact Hall'|exact Hfo|exact Hnf|exact Hni].
  Qed.

  Lemma run_plus_vis plus vis t : t <> [] ->
    run (eat_plus_visibility true) (sim (vis_tok plus vis) :: t) (Some (plus, vis)) t.
  Proof.
    intros Ht. destruct t as [|t1 r1]; [congruence|]. destruct plus, vis; run_compute.
  Qed.

  Lemma run_vis vis t : t <> [] ->
    run (eat_visibility true) (sim (vis_tok false vis) :: t) (Some vis) t.
  Proof.
    intros Ht. destruct t as [|t1 r1]; [congruence|]. destruct vis; run_compute.
  Qed.

  Lemma run_field_name_ident i t : t <> [] ->
    run (maybe_parse_field_name pexpr) (id_tok i :: t) (Some (FnIdent (strip_ident i))) t.
  Proof.
    intros Ht. unfold maybe_parse_field_name. apply run_call.
    eapply run_orelse_hit; [unfold id_tok, tk; apply run_eat_ident_hit; exact Ht|apply run_ret].
  Qed.

  Lemma run_field_name_string x t : t <> [] ->
    run (maybe_parse_field_name pexpr) (tk (TString x) :: t) (Some (FnString x sp0)) t.
  Proof.
    intros Ht. destruct t as [|t1 r1]; [congruence|]. run_compute.
  Qed.

  Lemma run_field_name_expr y t : wpx 0 true y = true ->
    (List.length (print_expr y) < L)%nat -> t <> [] ->
    run (maybe_parse_field_name pexpr) (sim SLeftBracket :: print_expr y ++ sim SRightBracket :: t)
        (Some (FnExpr (strip_spans y) sp0)) t.
  Proof.
    intros Hw Hl Ht. unfold maybe_parse_field_name. apply run_call.
    eapply run_orelse_miss; [apply run_eat_ident_miss; reflexivity|].
    eapply run_orelse_miss; [apply run_eat_string_miss_sim|].
    eapply run_orelse_miss; [apply run_eat_text_block_miss_sim|].
    apply run_alt_hit; [reflexivity|auto with rt|].
    eapply run_bind; [apply run_pexpr; [exact Hw|exact Hl|split; reflexivity]|].
    apply run_expect_then; [reflexivity|exact Ht|].
    apply run_span0_then, run_ret.
  Qed.

  Lemma run_obj_local lf' b fo r : bind_ok b -> (List.length (print_bind b) <= lf')%nat -> follow fo ->
    run (maybe_parse_obj_local pexpr lf') (sim KLocal :: print_bind b ++ fo :: r) (Some (strip_bind b)) (fo :: r).
  Proof.
    intros Hok Hl Hfo. unfold maybe_parse_obj_local. apply run_call.
    apply run_alt_hit; [reflexivity|auto with rt|].
    eapply run_bind; [apply (run_bind_ lf' b fo r Hok Hl Hfo)|apply run_ret].
  Qed.
End Productions.

