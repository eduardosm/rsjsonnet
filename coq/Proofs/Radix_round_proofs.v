(* Proofs/Radix_round_proofs.v — closed form of SpecFloat.binary_round_aux (prec 53,
   emax 1024) on mantissas of at least 54 bits, through Flocq's [shr_truncate]; used to show
   that the sticky bit of parse_num_radix gives the correctly rounded double. *)
From Coq Require Import ZArith Lia Floats.SpecFloat.
From Flocq Require Import Core.Core Core.Digits Calc.Bracket Calc.Round IEEE754.BinarySingleNaN.
From RJ Require Import Base.F64 Proofs.Radix_float_proofs.
Local Open Scope Z_scope.

Notation fexp64 := (SpecFloat.fexp 53 1024).

Lemma fexp64_val x : fexp64 x = Z.max (x - 53) (-1074).
Proof. reflexivity. Qed.

(* location of m inside its k low bits *)
Definition loc_low (m k : Z) : location :=
  let r := m mod 2 ^ k in
  if r =? 0 then loc_Exact else loc_Inexact (Z.compare (2 * r) (2 ^ k)).

Lemma new_location_pow2 k r : 0 < k -> new_location (2 ^ k) r loc_Exact =
  if r =? 0 then loc_Exact else loc_Inexact (Z.compare (2 * r) (2 ^ k)).
Proof.
  intros H. unfold new_location. rewrite Z.even_pow by assumption. cbn [Z.even]. unfold new_location_even.
  unfold Zeq_bool. destruct (Z.eqb_spec r 0) as [->|Hr].
  - reflexivity.
  - destruct (r ?= 0) eqn:E; [apply Z.compare_eq in E; contradiction| |];
      (destruct (2 * r ?= 2 ^ k); reflexivity).
Qed.

(* first truncation: D digits -> 53 digits *)
Lemma shr_fexp_big m e : 0 < m -> 54 <= Zdigits2 m -> -1074 <= Zdigits2 m + e - 53 ->
  let k := Zdigits2 m - 53 in
  shr_fexp 53 1024 m e loc_Exact = (shr_record_of_loc (m / 2 ^ k) (loc_low m k), e + k).
Proof.
  intros Hm Hd He k. unfold shr_fexp.
  rewrite (shr_truncate fexp64 m e loc_Exact _) by lia.
  unfold truncate. rewrite <- Zdigits2_Zdigits. rewrite fexp64_val.
  replace (Z.max (Zdigits2 m + e - 53) (-1074) - e) with k by (unfold k; lia).
  replace (Zlt_bool 0 k) with true by (symmetry; apply Z.ltb_lt; unfold k; lia).
  unfold truncate_aux. cbn [Zpower radix_val radix2].
  change (Zpower radix2 k) with (2 ^ k).
  rewrite new_location_pow2 by (unfold k; lia). reflexivity.
Qed.

Lemma zdigits2_bounds m : 0 < m -> 2 ^ (Zdigits2 m - 1) <= m < 2 ^ Zdigits2 m.
Proof.
  intros Hm. rewrite Zdigits2_Zdigits. pose proof (Zdigits_correct radix2 m) as H.
  rewrite Z.abs_eq in H by lia. exact H.
Qed.

Lemma zdigits2_unique m d : 1 <= d -> 2 ^ (d - 1) <= m < 2 ^ d -> Zdigits2 m = d.
Proof.
  intros Hd H. rewrite Zdigits2_Zdigits. apply Zdigits_unique.
  assert (0 < 2 ^ (d - 1)) by (apply Z.pow_pos_nonneg; lia).
  rewrite Z.abs_eq by lia. exact H.
Qed.

Lemma zdigits2_range m lo hi : 0 <= lo -> 0 <= hi -> 2 ^ lo <= m < 2 ^ hi -> lo < Zdigits2 m <= hi.
Proof.
  intros Hlo Hhi [L U]. assert (0 < 2 ^ lo) by (apply Z.pow_pos_nonneg; lia).
  rewrite Zdigits2_Zdigits. split.
  - apply Zdigits_gt_Zpower. rewrite Z.abs_eq by lia. exact L.
  - apply Zdigits_le_Zpower. rewrite Z.abs_eq by lia. exact U.
Qed.

Lemma shr_fexp_53 q e : 2 ^ 52 <= q < 2 ^ 53 -> -1074 <= e ->
  shr_fexp 53 1024 q e loc_Exact = (shr_record_of_loc q loc_Exact, e).
Proof.
  intros Hq He. unfold shr_fexp.
  rewrite (shr_truncate fexp64 q e loc_Exact _) by lia.
  unfold truncate. rewrite <- Zdigits2_Zdigits. rewrite (zdigits2_unique q 53) by (try exact Hq; lia).
  rewrite fexp64_val. replace (Z.max (53 + e - 53) (-1074) - e) with 0 by lia. reflexivity.
Qed.

Lemma shr_fexp_2p53 e : -1074 <= e ->
  shr_fexp 53 1024 (2 ^ 53) e loc_Exact = (shr_record_of_loc (2 ^ 52) loc_Exact, e + 1).
Proof.
  intros He. pose proof (shr_fexp_big (2 ^ 53) e) as H. change (Zdigits2 (2 ^ 53)) with 54 in H.
  rewrite H; [reflexivity|reflexivity|lia|lia].
Qed.

Lemma round_ne_bounds q l : q <= round_nearest_even q l <= q + 1.
Proof. destruct l as [|[| |]]; cbn [round_nearest_even]; try lia. destruct (Z.even q); lia. Qed.

Definition big_result (sx : bool) (m e : Z) : spec_float :=
  let k := Zdigits2 m - 53 in
  let q1 := round_nearest_even (m / 2 ^ k) (loc_low m k) in
  if q1 =? 2 ^ 53 then
    (if e + k + 1 <=? 971 then S754_finite sx (Z.to_pos (2 ^ 52)) (e + k + 1) else S754_infinity sx)
  else
    (if e + k <=? 971 then S754_finite sx (Z.to_pos q1) (e + k) else S754_infinity sx).

Lemma quot_53 m : 0 < m -> 54 <= Zdigits2 m ->
  2 ^ 52 <= m / 2 ^ (Zdigits2 m - 53) < 2 ^ 53.
Proof.
  intros Hm Hd. pose proof (zdigits2_bounds m Hm) as [Hlo Hhi].
  set (D := Zdigits2 m) in *. set (k := D - 53).
  assert (Hk : 0 < 2 ^ k) by (apply Z.pow_pos_nonneg; unfold k; lia).
  replace (D - 1) with (52 + k) in Hlo by (unfold k; lia). rewrite Z.pow_add_r in Hlo by (unfold k; lia).
  replace D with (53 + k) in Hhi by (unfold k; lia). rewrite Z.pow_add_r in Hhi by (unfold k; lia).
  split.
  - apply Z.div_le_lower_bound; lia.
  - apply Z.div_lt_upper_bound; lia.
Qed.

(* shape of the rounding of a big integer: a 53-bit mantissa and an exponent that is the
   given one plus a constant *)
Lemma big_result_shape m : 0 < m -> 54 <= Zdigits2 m ->
  exists mx ex, 2 ^ 52 <= Z.pos mx < 2 ^ 53 /\ 0 <= ex <= Zdigits2 m - 52 /\
    forall e, big_result false m e =
              if e + ex <=? 971 then S754_finite false mx (e + ex) else S754_infinity false.
Proof.
  intros Hm HD. unfold big_result. set (k := Zdigits2 m - 53).
  pose proof (quot_53 m Hm HD) as Hq. fold k in Hq.
  pose proof (round_ne_bounds (m / 2 ^ k) (loc_low m k)) as Hr.
  set (q1 := round_nearest_even (m / 2 ^ k) (loc_low m k)) in *.
  destruct (Z.eqb_spec q1 (2 ^ 53)) as [E|E].
  - exists (Z.to_pos (2 ^ 52)), (k + 1). split; [cbv; split; [discriminate|reflexivity]|].
    split; [unfold k; lia|]. intros e. replace (e + k + 1) with (e + (k + 1)) by lia. reflexivity.
  - destruct q1 as [|p|p] eqn:Eq; try lia. exists p, k. split; [lia|]. split; [unfold k; lia|].
    intros e. reflexivity.
Qed.

Theorem binary_round_aux_big sx m e : 0 < m -> 54 <= Zdigits2 m -> -1074 <= Zdigits2 m + e - 53 ->
  SpecFloat.binary_round_aux 53 1024 sx m e loc_Exact = big_result sx m e.
Proof.
  intros Hm Hd He. unfold SpecFloat.binary_round_aux, big_result.
  rewrite (shr_fexp_big m e Hm Hd He). cbv zeta.
  set (k := Zdigits2 m - 53). rewrite shr_m_shr_record_of_loc, loc_of_shr_record_of_loc.
  pose proof (quot_53 m Hm Hd) as Hq. fold k in Hq.
  pose proof (round_ne_bounds (m / 2 ^ k) (loc_low m k)) as Hr.
  set (q1 := round_nearest_even (m / 2 ^ k) (loc_low m k)) in *.
  destruct (Z.eqb_spec q1 (2 ^ 53)) as [E|E].
  - rewrite E, shr_fexp_2p53 by (unfold k; lia). rewrite shr_m_shr_record_of_loc.
    change (2 ^ 52) with (Z.pos (Z.to_pos (2 ^ 52))) at 1. cbv iota.
    replace (1024 - 53) with 971 by reflexivity. unfold Zle_bool. reflexivity.
  - rewrite shr_fexp_53 by (unfold k; lia). rewrite shr_m_shr_record_of_loc.
    destruct q1 as [|p|p] eqn:Eq; try lia. replace (1024 - 53) with 971 by reflexivity. reflexivity.
Qed.

(* n with its lowest bit forced to one *)
Definition set_low (n : Z) : Z := if Z.odd n then n else n + 1.

Lemma set_low_half n : set_low n = 2 * (n / 2) + 1.
Proof.
  unfold set_low. rewrite Zodd_mod.
  pose proof (Z.div_mod n 2 ltac:(lia)). pose proof (Z.mod_pos_bound n 2 ltac:(lia)).
  destruct (Zeq_bool (n mod 2) 1) eqn:E; [apply Zeq_bool_eq in E|apply Zeq_bool_neq in E]; lia.
Qed.

Lemma div_mod_decomp q d r : 0 <= r < d -> (q * d + r) / d = q /\ (q * d + r) mod d = r.
Proof.
  intros H. split; symmetry; [apply (Z.div_unique _ d q r)|apply (Z.mod_unique _ d q r)]; lia.
Qed.

(* the k low bits of N = n * 2^j + t (0 <= t < 2^j) against those of n'.  With n = 2c + o and
   c = q * 2^(k-1) + r, the remainders are (2r + o) * 2^j + t and, for t <> 0, the odd number
   2r + 1; 2^(k-1) being even, both lie on the same side of the half, and neither on it *)
Lemma sticky_core n t j k : 0 <= n -> 0 <= j -> 2 <= k -> 0 <= t < 2 ^ j ->
  let n' := if t =? 0 then n else set_low n in
  let N := n * 2 ^ j + t in
  N / 2 ^ (k + j) = n' / 2 ^ k /\ loc_low N (k + j) = loc_low n' k.
Proof.
  intros Hn Hj Hk Ht n' N.
  assert (PJ : 0 < 2 ^ j) by (apply Z.pow_pos_nonneg; lia). set (J := 2 ^ j) in *.
  set (h := 2 ^ (k - 2)). assert (Ph : 0 < h) by (apply Z.pow_pos_nonneg; lia).
  assert (E2k : 2 ^ k = 2 * (2 * h)).
  { unfold h. replace k with (1 + (1 + (k - 2))) at 1 by lia. rewrite !Z.pow_add_r by lia. reflexivity. }
  pose proof (Z.div_mod n 2 ltac:(lia)) as En. pose proof (Z.mod_pos_bound n 2 ltac:(lia)) as Ho.
  pose proof (Z.div_mod (n / 2) (2 * h) ltac:(lia)) as Ec.
  pose proof (Z.mod_pos_bound (n / 2) (2 * h) ltac:(lia)) as Hr.
  set (o := n mod 2) in *. set (q := n / 2 / (2 * h)) in *. set (r := (n / 2) mod (2 * h)) in *.
  set (a := 2 * r + o). set (a' := if t =? 0 then a else 2 * r + 1).
  assert (EN : N = q * (2 ^ k * J) + (a * J + t)) by (unfold N, a; rewrite E2k; nia).
  assert (En' : n' = q * 2 ^ k + a').
  { unfold n', a', a. rewrite E2k. destruct (t =? 0); [|rewrite set_low_half]; lia. }
  assert (Ha : 0 <= a * J + t < 2 ^ k * J) by (unfold a; rewrite E2k; nia).
  assert (Ha' : 0 <= a' < 2 ^ k) by (unfold a', a; rewrite E2k; destruct (t =? 0); lia).
  unfold loc_low. rewrite Z.pow_add_r, EN, En' by lia. fold J.
  destruct (div_mod_decomp q _ _ Ha) as [-> ->]. destruct (div_mod_decomp q _ _ Ha') as [-> ->].
  split; [reflexivity|]. unfold a'. destruct (Z.eqb_spec t 0) as [->|Hnz].
  - rewrite Z.add_0_r. destruct (Z.eqb_spec a 0) as [->|Hane]; [reflexivity|].
    replace (a * J =? 0) with false by (symmetry; apply Z.eqb_neq; nia).
    f_equal. rewrite Z.mul_assoc. symmetry. apply Zmult_compare_compat_r. lia.
  - replace (a * J + t =? 0) with false by (symmetry; apply Z.eqb_neq; nia).
    replace (2 * r + 1 =? 0) with false by (symmetry; apply Z.eqb_neq; lia).
    f_equal. rewrite E2k. unfold a. destruct (Z_lt_le_dec r h) as [Hlt|Hge].
    + rewrite (proj2 (Z.compare_lt_iff (2 * (2 * r + 1)) _)) by lia. apply Z.compare_lt_iff. clear - Hlt Ho Ht PJ. nia.
    + rewrite (proj2 (Z.compare_gt_iff (2 * (2 * r + 1)) _)) by lia. apply Z.compare_gt_iff. clear - Hge Ho Ht PJ Hnz. nia.
Qed.

Lemma digits_scale n t j : 0 < n -> 0 <= j -> 0 <= t < 2 ^ j -> Zdigits2 (n * 2 ^ j + t) = Zdigits2 n + j.
Proof.
  intros Hn Hj Ht. pose proof (zdigits2_bounds n Hn) as [Hlo Hhi].
  assert (HD : 0 < Zdigits2 n) by (rewrite Zdigits2_Zdigits; apply Zdigits_gt_0; lia).
  assert (P2j : 0 < 2 ^ j) by (apply Z.pow_pos_nonneg; lia).
  apply zdigits2_unique; [lia|].
  replace (Zdigits2 n + j - 1) with ((Zdigits2 n - 1) + j) by lia.
  rewrite !Z.pow_add_r by lia. nia.
Qed.

Lemma set_low_bounds n : 0 <= n -> n <= set_low n <= n + 1.
Proof. intros. unfold set_low. destruct (Z.odd n); lia. Qed.

Lemma digits_set_low n : 0 < n -> 2 <= Zdigits2 n -> Zdigits2 (set_low n) = Zdigits2 n.
Proof.
  intros Hn HD. pose proof (zdigits2_bounds n Hn) as [Hlo Hhi].
  apply zdigits2_unique; [lia|]. rewrite set_low_half.
  assert (E : 2 ^ Zdigits2 n = 2 * 2 ^ (Zdigits2 n - 1)) by (rewrite <- Z.pow_succ_r by lia; f_equal; lia).
  rewrite E in Hhi |- *.
  pose proof (Z.div_mod n 2 ltac:(lia)). pose proof (Z.mod_pos_bound n 2 ltac:(lia)). lia.
Qed.

Theorem big_result_sticky sx n t j e : 0 < n -> 55 <= Zdigits2 n -> 0 <= j -> 0 <= t < 2 ^ j ->
  big_result sx (n * 2 ^ j + t) e = big_result sx (if t =? 0 then n else set_low n) (e + j).
Proof.
  intros Hn HD Hj Ht. unfold big_result.
  rewrite (digits_scale n t j Hn Hj Ht).
  assert (HD' : Zdigits2 (if t =? 0 then n else set_low n) = Zdigits2 n).
  { destruct (t =? 0); [reflexivity|]. apply digits_set_low; lia. }
  rewrite HD'. set (k := Zdigits2 n - 53).
  replace (Zdigits2 n + j - 53) with (k + j) by (unfold k; lia).
  destruct (sticky_core n t j k ltac:(lia) Hj ltac:(unfold k; lia) Ht) as [Q L].
  cbv zeta in Q, L. rewrite Q, L.
  replace (e + (k + j) + 1) with (e + j + k + 1) by lia.
  replace (e + (k + j)) with (e + j + k) by lia. reflexivity.
Qed.

Lemma f_of_Z_big m : 0 < m -> 54 <= Zdigits2 m -> f_of_Z m = big_result false m 0.
Proof.
  intros Hm HD. unfold f_of_Z, f_of_Z_exp, prec, emax. destruct m as [|p|p]; try lia.
  unfold SpecFloat.binary_normalize, SpecFloat.binary_round.
  replace (Z.pos (digits2_pos p)) with (Zdigits2 (Z.pos p)) by reflexivity.
  rewrite Z.add_0_r. rewrite fexp64_val.
  unfold SpecFloat.shl_align. replace (Z.max (Zdigits2 (Z.pos p) - 53) (-1074) - 0) with (Zdigits2 (Z.pos p) - 53) by lia.
  destruct (Zdigits2 (Z.pos p) - 53) eqn:E; try lia;
    apply binary_round_aux_big; lia.
Qed.

(* multiplying a normal double by 2^b, given as the double (2^52, b - 52) *)
Lemma f_mul_pow2 mx ex c : 2 ^ 52 <= Z.pos mx < 2 ^ 53 -> 0 <= ex -> -60 <= c ->
  f_mul (S754_finite false mx ex) (S754_finite false (Z.to_pos (2 ^ 52)) c) =
  if ex + c + 52 <=? 971 then S754_finite false mx (ex + c + 52) else S754_infinity false.
Proof.
  intros Hm He Hc. unfold f_mul, SFmul, prec, emax. cbn [xorb].
  set (P := Z.pos (mx * Z.to_pos (2 ^ 52))).
  assert (EP : P = Z.pos mx * 2 ^ 52 + 0) by (unfold P; rewrite Pos2Z.inj_mul; rewrite Z.add_0_r; reflexivity).
  assert (HDm : Zdigits2 (Z.pos mx) = 53) by (apply zdigits2_unique; lia).
  assert (HDP : Zdigits2 P = 105) by (rewrite EP, digits_scale; lia).
  rewrite binary_round_aux_big by (try lia; rewrite HDP; lia).
  unfold big_result. rewrite HDP. replace (105 - 53) with 52 by reflexivity.
  assert (Q : P / 2 ^ 52 = Z.pos mx) by (rewrite EP, Z.add_0_r; apply Z.div_mul; lia).
  assert (L : loc_low P 52 = loc_Exact).
  { unfold loc_low. rewrite EP, Z.add_0_r, Z.mod_mul by lia. reflexivity. }
  rewrite Q, L. cbn [round_nearest_even].
  replace (Z.pos mx =? 2 ^ 53) with false by (symmetry; apply Z.eqb_neq; lia).
  reflexivity.
Qed.
