(* Proofs/Utf8Order_proofs.v — lexicographic comparison of lists of numbers is a total
   order, and the byte order of UTF-8 encodings is the code-point order. *)
From Coq Require Import List NArith ZArith Lia Bool.
From RJ Require Import Model.Utf8Order.
Import ListNotations.
Local Open Scope N_scope.

Lemma lex_refl a : lex_compare a a = Eq.
Proof. induction a as [|x a IH]; cbn [lex_compare]; [reflexivity|]. now rewrite N.compare_refl. Qed.

Lemma lex_opp a : forall b, lex_compare b a = CompOpp (lex_compare a b).
Proof.
  induction a as [|x a IH]; intros [|y b]; cbn [lex_compare]; try reflexivity.
  rewrite (N.compare_antisym x y). destruct (x ?= y); cbn [CompOpp]; auto.
Qed.

Lemma lex_eq_iff a : forall b, lex_compare a b = Eq <-> a = b.
Proof.
  induction a as [|x a IH]; intros [|y b]; cbn [lex_compare]; split; intros H; try discriminate; try reflexivity.
  - destruct (x ?= y) eqn:E; try discriminate. apply N.compare_eq in E. apply IH in H. congruence.
  - injection H as -> ->. rewrite N.compare_refl. now apply IH.
Qed.

Lemma lex_trans_lt a : forall b c, lex_compare a b = Lt -> lex_compare b c = Lt -> lex_compare a c = Lt.
Proof.
  induction a as [|x a IH]; intros [|y b] [|z c]; cbn [lex_compare]; intros H1 H2; try discriminate; try reflexivity.
  destruct (x ?= y) eqn:E1; try discriminate; destruct (y ?= z) eqn:E2; try discriminate.
  - apply N.compare_eq in E1, E2. subst. rewrite N.compare_refl. eauto.
  - apply N.compare_eq in E1. subst. now rewrite E2.
  - apply N.compare_eq in E2. subst. now rewrite E1.
  - rewrite N.compare_lt_iff in E1, E2. assert (E : x < z) by lia. apply N.compare_lt_iff in E. now rewrite E.
Qed.

Lemma lex_eq_compat a b c : lex_compare a b = Eq -> lex_compare a c = lex_compare b c.
Proof. intros H. apply lex_eq_iff in H. now subst. Qed.

Lemma lex_app_same p : forall a b, lex_compare (p ++ a) (p ++ b) = lex_compare a b.
Proof. induction p as [|x p IH]; intros a b; cbn [app lex_compare]; [reflexivity|]. now rewrite N.compare_refl. Qed.

Lemma list_eqb_iff a : forall b, list_eqb a b = true <-> a = b.
Proof.
  induction a as [|x a IH]; intros [|y b]; cbn [list_eqb]; split; intros H; try discriminate; try reflexivity.
  - apply andb_true_iff in H as [H1 H2]. apply N.eqb_eq in H1. apply IH in H2. congruence.
  - injection H as -> ->. rewrite N.eqb_refl. cbn. now apply IH.
Qed.

Lemma list_eqb_lex a b : list_eqb a b = match lex_compare a b with Eq => true | _ => false end.
Proof.
  destruct (list_eqb a b) eqn:E.
  - apply list_eqb_iff in E. subst. now rewrite lex_refl.
  - destruct (lex_compare a b) eqn:C; try reflexivity.
    apply lex_eq_iff in C. apply list_eqb_iff in C. congruence.
Qed.

Lemma lex_lt_cons x y a b : x < y -> lex_compare (x :: a) (y :: b) = Lt.
Proof. intros H. cbn [lex_compare]. apply N.compare_lt_iff in H. now rewrite H. Qed.

(* base-64 digits of a code point, and every quotient the encoder takes in terms of them *)
Lemma digits c : exists c3 c2 c1 c0,
  c = 262144 * c3 + 4096 * c2 + 64 * c1 + c0 /\ c2 < 64 /\ c1 < 64 /\ c0 < 64 /\
  c / 262144 = c3 /\ (c / 4096) mod 64 = c2 /\ (c / 64) mod 64 = c1 /\ c mod 64 = c0 /\
  c / 4096 = 64 * c3 + c2 /\ c / 64 = 4096 * c3 + 64 * c2 + c1.
Proof.
  exists (c / 64 / 64 / 64), ((c / 64 / 64) mod 64), ((c / 64) mod 64), (c mod 64).
  replace (c / 262144) with (c / 64 / 64 / 64) by (rewrite !N.div_div by lia; reflexivity).
  replace (c / 4096) with (c / 64 / 64) by (rewrite !N.div_div by lia; reflexivity).
  pose proof (N.div_mod' c 64) as E0. pose proof (N.mod_lt c 64) as L0.
  pose proof (N.div_mod' (c / 64) 64) as E1. pose proof (N.mod_lt (c / 64) 64) as L1.
  pose proof (N.div_mod' (c / 64 / 64) 64) as E2. pose proof (N.mod_lt (c / 64 / 64) 64) as L2.
  generalize dependent (c mod 64). generalize dependent ((c / 64) mod 64).
  generalize dependent ((c / 64 / 64) mod 64). generalize dependent (c / 64 / 64 / 64).
  generalize dependent (c / 64 / 64). generalize dependent (c / 64).
  intros. repeat split; lia.
Qed.

(* UTF-8 writes a code point in base 64, most significant digit first: a lead byte that carries
   the top digit above a constant telling the length, then a byte 0x80 + digit for every other digit *)
Fixpoint enc_digits (k : N) (n : nat) (c : N) : list N :=
  match n with
  | O => [k + c]
  | S n => enc_digits k n (c / 64) ++ [0x80 + c mod 64]
  end.

Lemma utf8_enc_digits c : utf8_enc c =
  if c <? 0x80 then enc_digits 0 0 c
  else if c <? 0x800 then enc_digits 0xC0 1 c
  else if c <? 0x10000 then enc_digits 0xE0 2 c
  else enc_digits 0xF0 3 c.
Proof. unfold utf8_enc. cbn [enc_digits app]. rewrite !N.div_div by lia. reflexivity. Qed.

Lemma div64_lt c d : c < d -> c / 64 < d / 64 \/ (c / 64 = d / 64 /\ c mod 64 < d mod 64).
Proof.
  intros H. pose proof (N.div_mod' c 64) as Ec. pose proof (N.div_mod' d 64) as Ed.
  pose proof (N.mod_lt c 64) as Lc. pose proof (N.mod_lt d 64) as Ld.
  (* quotients and remainders as variables: lia need not know what / and mod are *)
  generalize dependent (c mod 64). generalize dependent (d mod 64).
  generalize dependent (c / 64). generalize dependent (d / 64). intros. lia.
Qed.

Lemma enc_digits_lt k n : forall c d X Y, c < d ->
  lex_compare (enc_digits k n c ++ X) (enc_digits k n d ++ Y) = Lt.
Proof.
  induction n as [|n IH]; intros c d X Y H; cbn [enc_digits app].
  - apply lex_lt_cons. lia.
  - rewrite <- !app_assoc. destruct (div64_lt c d H) as [Hq|[Hq Hr]].
    + apply IH, Hq.
    + rewrite Hq, lex_app_same. apply lex_lt_cons, N.add_lt_mono_l, Hr.
Qed.

(* the four lengths an encoding can have, one case each *)
Ltac enc_length c :=
  destruct (N.ltb_spec c 0x80); [|destruct (N.ltb_spec c 0x800); [|destruct (N.ltb_spec c 0x10000)]].

(* lead bytes: a constant telling the length plus the top digit, which stays below [b] *)
Lemma lead_lt k k' q q' b : q < b -> k + b <= k' -> k + q < k' + q'.
Proof. lia. Qed.

Lemma enc_lt c d X Y : c < d -> lex_compare (utf8_enc c ++ X) (utf8_enc d ++ Y) = Lt.
Proof.
  intros Hcd. rewrite !utf8_enc_digits.
  enc_length c; enc_length d; try lia; try (apply enc_digits_lt, Hcd);
    cbn [enc_digits app]; apply lex_lt_cons.
  (* of two lengths the shorter has the smaller lead byte *)
  1-3: apply (lead_lt _ _ _ _ 0x80); [assumption | lia].
  1-2: apply (lead_lt _ _ _ _ 32); [apply N.div_lt_upper_bound; lia | lia].
  apply (lead_lt _ _ _ _ 16); [repeat apply N.div_lt_upper_bound; lia | lia].
Qed.

Lemma enc_nonempty c : exists b r, utf8_enc c = b :: r.
Proof. unfold utf8_enc. destruct (c <? 0x80), (c <? 0x800), (c <? 0x10000); eauto. Qed.

(* Rust compares `str` by the bytes of the UTF-8 encoding: that is the order of the code-point
   sequences (the encoder of the model is monotone on all of N, beyond the code points too) *)
Lemma utf8_lex s : forall t, lex_compare (utf8 s) (utf8 t) = lex_compare s t.
Proof.
  induction s as [|c s IH]; intros [|d t]; cbn [utf8 lex_compare]; try reflexivity.
  - destruct (enc_nonempty d) as (b & r & ->). reflexivity.
  - destruct (enc_nonempty c) as (b & r & ->). reflexivity.
  - destruct (c ?= d) eqn:E.
    + apply N.compare_eq in E. subst. rewrite lex_app_same. apply IH.
    + apply N.compare_lt_iff in E. now apply enc_lt.
    + apply N.compare_gt_iff in E. rewrite lex_opp, enc_lt by assumption. reflexivity.
Qed.

Definition str_ok (s : list N) : Prop := Forall (fun c => c < 0x110000) s.

Theorem utf8_order_is_cp_order s : forall t, str_ok s -> str_ok t ->
  lex_compare (utf8 s) (utf8 t) = lex_compare s t.
Proof. intros t _ _. apply utf8_lex. Qed.

Corollary utf8_injective s t : utf8 s = utf8 t -> s = t.
Proof. intros E. apply lex_eq_iff. rewrite <- utf8_lex. now apply lex_eq_iff. Qed.

Corollary str_eqb_is_eq s t : str_eqb s t = true <-> s = t.
Proof. unfold str_eqb. rewrite list_eqb_iff. split; [apply utf8_injective | now intros ->]. Qed.

Lemma str_eqb_refl s : str_eqb s s = true.
Proof. unfold str_eqb. now apply list_eqb_iff. Qed.

Lemma str_eqb_compare s t : str_eqb s t = match str_compare s t with Eq => true | _ => false end.
Proof. apply list_eqb_lex. Qed.
