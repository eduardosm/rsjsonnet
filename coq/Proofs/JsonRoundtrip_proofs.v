(* Proofs/JsonRoundtrip_proofs.v — round trip of Model/JsonParse.v with a minimal printer:
   parse_json (print p) = Ok (embed p) for every printable value (null, booleans, natural
   numbers given by their decimal digits, strings, arrays, objects with distinct keys). *)
From RJ Require Import Base.Outcome Base.F64 Model.JsonParse Proofs.JsonParse_proofs Proofs.JsonString_proofs.
From Coq Require Import Lia Floats.SpecFloat.
Local Open Scope N_scope.

Inductive pvalue :=
| PNull
| PBool (b : bool)
| PNat (ds : list N)                 (* decimal digits, as code points *)
| PStr (s : str)
| PArr (l : list pvalue)
| PObj (fs : list (str * pvalue)).

Fixpoint print (p : pvalue) : str :=
  match p with
  | PNull => [110; 117; 108; 108]
  | PBool true => [116; 114; 117; 101]
  | PBool false => [102; 97; 108; 115; 101]
  | PNat ds => ds
  | PStr s => print_string s
  | PArr l =>
      91 :: match l with
            | [] => [93]
            | x :: r =>
                print x ++
                (fix rest (r : list pvalue) : str :=
                   match r with
                   | [] => [93]
                   | y :: r' => 44 :: print y ++ rest r'
                   end) r
            end
  | PObj fs =>
      123 :: match fs with
             | [] => [125]
             | (k, x) :: r =>
                 print_string k ++ 58 :: print x ++
                 (fix rest (r : list (str * pvalue)) : str :=
                    match r with
                    | [] => [125]
                    | (k', y) :: r' => 44 :: print_string k' ++ 58 :: print y ++ rest r'
                    end) r
             end
  end.

Fixpoint arr_rest (r : list pvalue) : str :=
  match r with
  | [] => [93]
  | y :: r' => 44 :: print y ++ arr_rest r'
  end.
Fixpoint obj_rest (r : list (str * pvalue)) : str :=
  match r with
  | [] => [125]
  | (k', y) :: r' => 44 :: print_string k' ++ 58 :: print y ++ obj_rest r'
  end.

Lemma print_arr_cons x r : print (PArr (x :: r)) = 91 :: print x ++ arr_rest r.
Proof. cbn [print]. do 2 (apply f_equal). induction r as [|y r' IH]; [reflexivity|]. cbn [arr_rest]. now rewrite <- IH. Qed.
Lemma print_obj_cons k x r : print (PObj ((k, x) :: r)) = 123 :: print_string k ++ 58 :: print x ++ obj_rest r.
Proof.
  cbn [print]. do 4 (apply f_equal).
  induction r as [|[k' y] r' IH]; [reflexivity|]. cbn [obj_rest]. now rewrite <- IH.
Qed.

Fixpoint dec_val (ds : list N) (acc : N) : N :=
  match ds with [] => acc | c :: r => dec_val r (acc * 10 + (c - 48)) end.

Fixpoint embed (p : pvalue) : jvalue :=
  match p with
  | PNull => JNull
  | PBool b => JBool b
  | PNat ds => JNum (dec_to_f64 false (dec_val ds 0) 0)
  | PStr s => JStr s
  | PArr l => JArr (map embed l)
  | PObj fs => JObj (map (fun kv => (fst kv, embed (snd kv))) fs)
  end.

(* number of values (= iterations of the parser's outer loop) *)
Fixpoint cost (p : pvalue) : nat :=
  match p with
  | PArr l => S (fold_right (fun x n => (cost x + n)%nat) O l)
  | PObj fs => S (fold_right (fun kv n => (cost (snd kv) + n)%nat) O fs)
  | _ => 1%nat
  end.

Definition digits_ok (ds : list N) : Prop :=
  ds = [48] \/ (exists d r, ds = d :: r /\ is_digit19 d = true /\ Forall (fun c => is_digit c = true) r).

Fixpoint wf (p : pvalue) : Prop :=
  match p with
  | PNat ds => digits_ok ds /\ f_is_finite (dec_to_f64 false (dec_val ds 0) 0) = true
  | PArr l => (fix all (l : list pvalue) : Prop := match l with [] => True | x :: r => wf x /\ all r end) l
  | PObj fs => NoDup (map fst fs) /\
               (fix all (l : list (str * pvalue)) : Prop := match l with [] => True | (_, x) :: r => wf x /\ all r end) fs
  | _ => True
  end.

(* what may follow a printed value: after a number, nothing that continues the number *)
Definition follow_ok (p : pvalue) (rest : str) : Prop :=
  match p with
  | PNat _ => match rest with
              | [] => True
              | c :: _ => is_digit c = false /\ c <> 46 /\ c <> 101 /\ c <> 69
              end
  | _ => True
  end.

(* what the outer loop does with the outcome of the inner loop *)
Definition after (fuel : nat) (u : unwind_res) : outcome jvalue jerr :=
  match u with
  | UDone r => r
  | UCont lx2 st2 => parse_loop fuel lx2 st2
  end.

Lemma parse_loop_step fuel lx st sv : start_value lx = Ok sv ->
  parse_loop (S fuel) lx st =
  match sv with
  | SVPush it lx1 => parse_loop fuel lx1 (it :: st)
  | SVValue v lx1 => after fuel (unwind lx1 st v)
  end.
Proof. intros H. cbn [parse_loop]. rewrite H. cbn [obind]. destruct sv; [|reflexivity]. unfold after. reflexivity. Qed.

Section PInd.
Variable P : pvalue -> Prop.
Hypothesis Hnull : P PNull.
Hypothesis Hbool : forall b, P (PBool b).
Hypothesis Hnat : forall ds, P (PNat ds).
Hypothesis Hstr : forall s, P (PStr s).
Hypothesis Harr : forall l, Forall P l -> P (PArr l).
Hypothesis Hobj : forall fs, Forall (fun kv => P (snd kv)) fs -> P (PObj fs).

Fixpoint pvalue_ind' (p : pvalue) : P p :=
  match p with
  | PNull => Hnull
  | PBool b => Hbool b
  | PNat ds => Hnat ds
  | PStr s => Hstr s
  | PArr l =>
      Harr l ((fix go (l : list pvalue) : Forall P l :=
                 match l with
                 | [] => Forall_nil _
                 | x :: r => Forall_cons x (pvalue_ind' x) (go r)
                 end) l)
  | PObj fs =>
      Hobj fs ((fix go (fs : list (str * pvalue)) : Forall (fun kv => P (snd kv)) fs :=
                  match fs with
                  | [] => Forall_nil _
                  | kv :: r => Forall_cons kv (pvalue_ind' (snd kv)) (go r)
                  end) fs)
  end.
End PInd.

Lemma wf_arr l : wf (PArr l) <-> Forall wf l.
Proof. exact (all_fix_Forall wf l). Qed.

Lemma wf_obj fs : wf (PObj fs) <-> NoDup (map fst fs) /\ Forall (fun kv => wf (snd kv)) fs.
Proof. cbn [wf]. now rewrite (all_fix_Forall_snd wf fs). Qed.

(* induction on a well-formed value: well-formedness is still at hand for the parts *)
Lemma wf_ind (P : pvalue -> Prop) :
  P PNull -> (forall b, P (PBool b)) -> (forall ds, wf (PNat ds) -> P (PNat ds)) -> (forall s, P (PStr s)) ->
  (forall l, Forall wf l -> Forall P l -> P (PArr l)) ->
  (forall fs, NoDup (map fst fs) -> Forall (fun kv => wf (snd kv)) fs -> Forall (fun kv => P (snd kv)) fs -> P (PObj fs)) ->
  forall p, wf p -> P p.
Proof.
  intros Hnull Hbool Hnat Hstr Harr Hobj.
  induction p as [|b|ds|s|l IH|fs IH] using pvalue_ind'; intros Hw; auto.
  - apply wf_arr in Hw. apply Harr; [exact Hw|].
    exact (Forall_impl _ (fun x H => proj1 H (proj2 H)) (Forall_and IH Hw)).
  - apply wf_obj in Hw. destruct Hw as [Hn Hw]. apply Hobj; [exact Hn|exact Hw|].
    exact (Forall_impl _ (fun x H => proj1 H (proj2 H)) (Forall_and IH Hw)).
Qed.

(* The statement proved for every printable value: on the text of [p], whatever the stack,
   [cost p] rounds of the outer loop bring the parser to its inner loop ([unwind]) with the
   value [embed p] in hand and the lexer standing after the text (and the whitespace after it). *)
Definition roundtrip_at (p : pvalue) : Prop :=
  forall f lx st rest, lx_rem lx = print p ++ rest -> follow_ok p rest ->
  exists lx', lx_rem lx' = drop_ws rest /\
    parse_loop (cost p + f) lx st = after f (unwind lx' st (embed p)).

(* a value that [start_value] reads in one step *)
Lemma roundtrip_scalar p : cost p = 1%nat ->
  (forall lx rest, lx_rem lx = print p ++ rest -> follow_ok p rest ->
     exists lx1, lx_rem lx1 = rest /\ start_value lx = Ok (SVValue (embed p) (skip_spaces lx1))) ->
  roundtrip_at p.
Proof.
  intros Hc Hs f lx st rest Hlx Hfo. destruct (Hs lx rest Hlx Hfo) as [lx1 [H1 E]].
  rewrite Hc. cbn [Nat.add]. rewrite (parse_loop_step f lx st _ E).
  exists (skip_spaces lx1). split; [now rewrite skip_spaces_rem, H1|reflexivity].
Qed.

Lemma start_string lx s rest : lx_rem lx = print_string s ++ rest ->
  exists lx1, lx_rem lx1 = rest /\ start_value lx = Ok (SVValue (JStr s) (skip_spaces lx1)).
Proof.
  destruct lx as [line col t]. cbn [lx_rem]. intros ->.
  destruct (lex_string_print_string s rest line col) as [col' E]. eexists. split; [|eapply start_value_quote; [|exact E]; reflexivity].
  reflexivity.
Qed.

Definition stops (rest : str) : Prop :=
  match rest with
  | [] => True
  | c :: _ => is_digit c = false /\ c <> 46 /\ c <> 101 /\ c <> 69
  end.

Definition push_digit (a : nacc) (c : N) : nacc :=
  {| na_neg := na_neg a; na_mant := na_mant a * 10 + (c - 48); na_nfrac := na_nfrac a;
     na_eneg := na_eneg a; na_exp := na_exp a; na_len := na_len a + 1 |}.

Lemma digit_neq c k : is_digit c = true -> is_digit k = false -> c <> k.
Proof. intros Hc Hk ->. congruence. Qed.

Lemma nupd_int st c a : (st = NStart \/ st = NIntPart) -> is_digit c = true -> nupd st c a = push_digit a c.
Proof.
  intros [->| ->] H; unfold nupd, push_digit; rewrite (proj2 (N.eqb_neq c 45) (digit_neq c 45 H eq_refl)), H; reflexivity.
Qed.

Lemma lex_num_stop st a rest : (st = NZero \/ st = NIntPart) -> stops rest ->
  lex_num st a rest = Some (a, rest).
Proof.
  intros Hst Hs. destruct rest as [|c t]; [destruct Hst as [->| ->]; reflexivity|].
  destruct Hs as [Hd [H46 [H101 H69]]].
  assert (E46 : (c =? 46) = false) by now apply N.eqb_neq.
  assert (Ee : is_e c = false) by (unfold is_e; apply orb_false_intro; now apply N.eqb_neq).
  destruct Hst as [->| ->]; cbn [lex_num nstep]; now rewrite Hd, E46, Ee.
Qed.

(* the accumulator after the integer digits [r] *)
Definition push_digits (a : nacc) (r : list N) : nacc :=
  {| na_neg := na_neg a; na_mant := dec_val r (na_mant a); na_nfrac := na_nfrac a;
     na_eneg := na_eneg a; na_exp := na_exp a; na_len := na_len a + N.of_nat (length r) |}.

Lemma lex_num_digits : forall r a rest, Forall (fun c => is_digit c = true) r -> stops rest ->
  lex_num NIntPart a (r ++ rest) = Some (push_digits a r, rest).
Proof.
  induction r as [|x r IH]; intros a rest Hr Hs.
  - cbn [app]. rewrite (lex_num_stop NIntPart a rest (or_intror eq_refl) Hs).
    destruct a as [a1 a2 a3 a4 a5 a6]. unfold push_digits. cbn [na_neg na_mant na_nfrac na_eneg na_exp na_len dec_val length N.of_nat].
    now rewrite N.add_0_r.
  - inversion Hr as [|? ? Hx Hr']; subst. cbn [app lex_num nstep]. rewrite Hx.
    rewrite (nupd_int NIntPart x a (or_intror eq_refl) Hx), (IH _ rest Hr' Hs).
    unfold push_digits, push_digit. cbn [na_neg na_mant na_nfrac na_eneg na_exp na_len dec_val length].
    do 3 f_equal. lia.
Qed.

Lemma lex_num_nat ds rest : digits_ok ds -> stops rest ->
  exists a, lex_num NStart nacc0 (ds ++ rest) = Some (a, rest) /\
            na_len a <> 0 /\ nacc_value a = dec_to_f64 false (dec_val ds 0) 0.
Proof.
  intros [->|[d [r [-> [Hd Hr]]]]] Hs.
  - exists (push_digit nacc0 48). split; [|split; [discriminate|reflexivity]].
    cbn [app lex_num nstep N.eqb Pos.eqb]. rewrite (nupd_int NStart 48 nacc0 (or_introl eq_refl) eq_refl).
    apply lex_num_stop; [now left|assumption].
  - destruct (digit19_digit d Hd) as [Hdd [H48 H45]].
    exists (push_digits (push_digit nacc0 d) r). split; [|split; [|reflexivity]].
    + cbn [app lex_num nstep]. rewrite H45, H48, Hd.
      rewrite (nupd_int NStart d nacc0 (or_introl eq_refl) Hdd). now apply lex_num_digits.
    + cbn [push_digits push_digit nacc0 na_len]. lia.
Qed.

Lemma digits_head ds : digits_ok ds -> exists d r, ds = d :: r /\ is_digit d = true.
Proof.
  intros [->|[d [r [-> [Hd _]]]]]; [exists 48, []; split; reflexivity|].
  exists d, r. split; [reflexivity|]. now destruct (digit19_digit d Hd).
Qed.

Lemma start_nat lx ds rest : wf (PNat ds) -> lx_rem lx = ds ++ rest -> stops rest ->
  exists lx1, lx_rem lx1 = rest /\
    start_value lx = Ok (SVValue (JNum (dec_to_f64 false (dec_val ds 0) 0)) (skip_spaces lx1)).
Proof.
  intros [Hd Hf] Hlx Hs. destruct (lex_num_nat ds rest Hd Hs) as [a [E [Hlen Hv]]].
  destruct (digits_head ds Hd) as [d [r [Eds Hdig]]].
  exists (advance lx (na_len a) rest). split; [reflexivity|].
  unfold start_value. rewrite Eds in Hlx.
  rewrite !(fun k p => eat_str_miss k p lx d (r ++ rest) Hlx) by (apply (digit_neq d _ Hdig); reflexivity).
  unfold lex_number. rewrite Hlx, <- Eds, E.
  apply N.eqb_neq in Hlen. rewrite Hlen, Hv, Hf. reflexivity.
Qed.

Lemma print_head p rest : wf p -> exists c t, print p ++ rest = c :: t /\ is_ws c = false /\ c <> 93.
Proof.
  destruct p as [|[|]|ds|s|l|fs]; intros Hw.
  4: { destruct Hw as [Hd _]. destruct (digits_head ds Hd) as [d [r [-> Hdig]]]. exists d, (r ++ rest).
       split; [reflexivity|]. split; [|apply (digit_neq d 93 Hdig); reflexivity].
       unfold is_ws. repeat (apply orb_false_intro); apply N.eqb_neq, (digit_neq d _ Hdig); reflexivity. }
  (* every other text starts with a fixed character *)
  all: eexists _, _; repeat split; discriminate.
Qed.

Lemma drop_ws_print p rest : wf p -> drop_ws (print p ++ rest) = print p ++ rest.
Proof. intros Hw. destruct (print_head p rest Hw) as [c [t [-> [Hc _]]]]. now apply drop_ws_nonws. Qed.

(* [start_value] on an opening bracket or brace: the literals, the number and the string do not apply *)
Lemma start_value_bracket lx s : lx_rem lx = 91 :: s ->
  start_value lx =
  let lx2 := skip_spaces (advance lx 1 s) in
  match eat_char 93 lx2 with
  | Some lx3 => Ok (SVValue (JArr []) (skip_spaces lx3))
  | None => Ok (SVPush (SArr []) lx2)
  end.
Proof. intros H. unfold start_value, eat_str, lex_number, lex_string, eat_char. rewrite H. reflexivity. Qed.

Lemma start_value_brace lx s : lx_rem lx = 123 :: s ->
  start_value lx =
  let lx2 := skip_spaces (advance lx 1 s) in
  match eat_char 125 lx2 with
  | Some lx3 => Ok (SVValue (JObj []) (skip_spaces lx3))
  | None => obind (lex_key lx2) (fun kl => Ok (SVPush (SObj [] (fst kl)) (snd kl)))
  end.
Proof. intros H. unfold start_value, eat_str, lex_number, lex_string, eat_char. rewrite H. reflexivity. Qed.

Lemma start_arr_open lx c t : lx_rem lx = 91 :: c :: t -> is_ws c = false -> c <> 93 ->
  exists lx1, lx_rem lx1 = c :: t /\ start_value lx = Ok (SVPush (SArr []) lx1).
Proof.
  intros H Hw Hc. rewrite (start_value_bracket lx _ H). cbv zeta.
  set (lx1 := advance lx 1 (c :: t)).
  rewrite (skip_spaces_nonws lx1 c t eq_refl Hw), (eat_char_miss 93 lx1 c t eq_refl Hc).
  exists lx1. split; reflexivity.
Qed.

Lemma lex_key_printed lx k s : lx_rem lx = print_string k ++ 58 :: s -> drop_ws s = s ->
  exists lx1, lx_rem lx1 = s /\ lex_key lx = Ok (k, lx1).
Proof.
  destruct lx as [line col t]. cbn [lx_rem]. intros -> Hs.
  destruct (lex_string_print_string k (58 :: s) line col) as [col1 E].
  unfold lex_key. rewrite E. cbn [obind].
  set (lx1 := {| lx_line := line; lx_col := col1; lx_rem := 58 :: s |}).
  rewrite (skip_spaces_nonws lx1 58 s eq_refl eq_refl), (eat_char_hit 58 lx1 s eq_refl).
  eexists. split; [|reflexivity]. rewrite skip_spaces_rem. exact Hs.
Qed.

Lemma start_obj_open lx k s : lx_rem lx = 123 :: print_string k ++ 58 :: s -> drop_ws s = s ->
  exists lx1, lx_rem lx1 = s /\ start_value lx = Ok (SVPush (SObj [] k) lx1).
Proof.
  intros H Hs. rewrite (start_value_brace lx _ H). cbv zeta.
  set (lx1 := advance lx 1 (print_string k ++ 58 :: s)).
  rewrite (skip_spaces_nonws lx1 34 _ eq_refl eq_refl), (eat_char_miss 125 lx1 34 _ eq_refl) by discriminate.
  destruct (lex_key_printed lx1 k s eq_refl Hs) as [lx2 [H2 ->]].
  exists lx2. split; [exact H2|reflexivity].
Qed.

Definition cost_list (l : list pvalue) : nat := fold_right (fun x n => (cost x + n)%nat) O l.
Definition cost_fields (fs : list (str * pvalue)) : nat := fold_right (fun kv n => (cost (snd kv) + n)%nat) O fs.

Lemma arr_rest_length r : (cost_list r <= length (arr_rest r))%nat ->  True.
Proof. trivial. Qed.

(* inside a container a value is followed by a comma or a closing bracket: any value may stand
   before these, and no whitespace is skipped *)
Definition sep_headed (s : str) : Prop := exists c t, s = c :: t /\ (c = 93 \/ c = 125 \/ c = 44).

Lemma arr_rest_head r rest : sep_headed (arr_rest r ++ rest).
Proof. destruct r as [|y r']; cbn [arr_rest app]; eexists; eexists; (split; [reflexivity|]); auto. Qed.
Lemma obj_rest_head r rest : sep_headed (obj_rest r ++ rest).
Proof. destruct r as [|[k y] r']; cbn [obj_rest app]; eexists; eexists; (split; [reflexivity|]); auto. Qed.

Lemma roundtrip_sep p : roundtrip_at p -> forall f lx st rest, lx_rem lx = print p ++ rest -> sep_headed rest ->
  exists lx', lx_rem lx' = rest /\ parse_loop (cost p + f) lx st = after f (unwind lx' st (embed p)).
Proof.
  intros Hp f lx st rest Hlx [c [t [-> Hc]]].
  destruct (Hp f lx st (c :: t) Hlx) as [lx' [Hlx' E]].
  - destruct p; try exact I. destruct Hc as [->|[->| ->]]; cbn; repeat split; discriminate.
  - exists lx'. split; [|exact E]. rewrite Hlx'. destruct Hc as [->|[->| ->]]; reflexivity.
Qed.

(* the remaining items of an array, sitting after one finished item *)
Lemma arr_tail : forall r, Forall wf r -> Forall roundtrip_at r ->
  forall acc v f lx st rest, lx_rem lx = arr_rest r ++ rest ->
  exists lx', lx_rem lx' = drop_ws rest /\
    after (cost_list r + f) (unwind lx (SArr acc :: st) v) =
    after f (unwind lx' st (JArr (rev acc ++ v :: map embed r))).
Proof.
  induction r as [|y r IH]; intros Hw Hr acc v f lx st rest Hlx.
  - cbn [arr_rest app] in Hlx. cbn [cost_list fold_right Nat.add map unwind].
    rewrite (eat_char_hit 93 lx rest Hlx).
    exists (skip_spaces (advance lx 1 rest)). split; [now rewrite skip_spaces_rem|reflexivity].
  - inversion Hw as [|? ? Hwy Hw']; inversion Hr as [|? ? Hy Hr']; subst.
    cbn [arr_rest] in Hlx. rewrite <- app_comm_cons, <- app_assoc in Hlx.
    cbn [unwind]. rewrite (eat_char_miss 93 lx 44 _ Hlx) by discriminate. rewrite (eat_char_hit 44 lx _ Hlx).
    cbn [after cost_list fold_right]. fold (cost_list r). rewrite <- Nat.add_assoc.
    destruct (roundtrip_sep y Hy (cost_list r + f)%nat (skip_spaces (advance lx 1 (print y ++ arr_rest r ++ rest)))
                (SArr (v :: acc) :: st) (arr_rest r ++ rest)) as [lx1 [Hlx1 ->]];
      [rewrite skip_spaces_rem; exact (drop_ws_print y _ Hwy)|apply arr_rest_head|].
    destruct (IH Hw' Hr' (v :: acc) (embed y) f lx1 st rest Hlx1) as [lx' [Hlx' ->]].
    exists lx'. split; [exact Hlx'|]. cbn [rev map]. rewrite <- app_assoc. reflexivity.
Qed.

Definition embed_field (kv : str * pvalue) : str * jvalue := (fst kv, embed (snd kv)).

Lemma fresh_key key fields l : NoDup (map fst fields ++ key :: l) -> has_key key fields = false.
Proof.
  intros Hnd. destruct (has_key key fields) eqn:E; [|reflexivity]. apply has_key_in in E.
  apply NoDup_remove_2 in Hnd. exfalso. apply Hnd. apply in_or_app. now left.
Qed.

(* the remaining fields of an object, sitting after one finished field value *)
Lemma obj_tail : forall r, Forall (fun kv => wf (snd kv)) r -> Forall (fun kv => roundtrip_at (snd kv)) r ->
  forall fields key v f lx st rest, lx_rem lx = obj_rest r ++ rest ->
  NoDup (map fst fields ++ key :: map fst r) ->
  exists lx', lx_rem lx' = drop_ws rest /\
    after (cost_fields r + f) (unwind lx (SObj fields key :: st) v) =
    after f (unwind lx' st (JObj (rev fields ++ (key, v) :: map embed_field r))).
Proof.
  induction r as [|[k' y] r IH]; intros Hw Hr fields key v f lx st rest Hlx Hnd;
    cbn [unwind]; rewrite (fresh_key key fields _ Hnd).
  - cbn [obj_rest app] in Hlx. cbn [cost_fields fold_right Nat.add map].
    rewrite (eat_char_hit 125 lx rest Hlx).
    exists (skip_spaces (advance lx 1 rest)). split; [now rewrite skip_spaces_rem|reflexivity].
  - inversion Hw as [|? ? Hwy Hw']; inversion Hr as [|? ? Hy Hr']; subst. cbn [snd] in Hwy, Hy.
    cbn [obj_rest] in Hlx. rewrite <- app_comm_cons, <- !app_assoc in Hlx. cbn [app] in Hlx. rewrite <- app_assoc in Hlx.
    rewrite (eat_char_miss 125 lx 44 _ Hlx) by discriminate. rewrite (eat_char_hit 44 lx _ Hlx).
    destruct (lex_key_printed (skip_spaces (advance lx 1 (print_string k' ++ 58 :: print y ++ obj_rest r ++ rest))) k'
                (print y ++ obj_rest r ++ rest)) as [lx0 [Hlx0 ->]];
      [rewrite skip_spaces_rem; reflexivity|exact (drop_ws_print y _ Hwy)|].
    cbn [after cost_fields fold_right snd]. fold (cost_fields r). rewrite <- Nat.add_assoc.
    destruct (roundtrip_sep y Hy (cost_fields r + f)%nat lx0 (SObj ((key, v) :: fields) k' :: st) (obj_rest r ++ rest) Hlx0
                (obj_rest_head r rest)) as [lx1 [Hlx1 ->]].
    destruct (IH Hw' Hr' ((key, v) :: fields) k' (embed y) f lx1 st rest Hlx1) as [lx' [Hlx' ->]].
    { cbn [map fst app] in *. apply NoDup_remove in Hnd as [Hnd Hin]. constructor; assumption. }
    exists lx'. split; [exact Hlx'|]. cbn [rev map]. rewrite <- app_assoc. reflexivity.
Qed.

Lemma roundtrip_arr l : Forall wf l -> Forall roundtrip_at l -> roundtrip_at (PArr l).
Proof.
  destruct l as [|x r]; intros Hw Hr.
  { apply roundtrip_scalar; [reflexivity|]. intros lx rest H _. rewrite (start_value_bracket lx _ H). cbv zeta.
    set (lx1 := advance lx 1 (93 :: rest)).
    rewrite (skip_spaces_nonws lx1 93 rest eq_refl eq_refl), (eat_char_hit 93 lx1 rest eq_refl).
    eexists. split; [|reflexivity]. reflexivity. }
  inversion Hw as [|? ? Hwx Hwr]; inversion Hr as [|? ? Hx Hrr]; subst.
  intros f lx st rest Hlx _. rewrite print_arr_cons in Hlx. cbn [app] in Hlx. rewrite <- app_assoc in Hlx.
  destruct (print_head x (arr_rest r ++ rest) Hwx) as [c [t [Ex [Hws H93]]]]. rewrite Ex in Hlx.
  destruct (start_arr_open lx c t Hlx Hws H93) as [lx0 [Hlx0 E]]. rewrite <- Ex in Hlx0.
  cbn [cost fold_right]. fold (cost_list r). cbn [Nat.add]. rewrite (parse_loop_step _ _ st _ E), <- Nat.add_assoc.
  destruct (roundtrip_sep x Hx (cost_list r + f)%nat lx0 (SArr [] :: st) _ Hlx0 (arr_rest_head r rest)) as [lx1 [Hlx1 ->]].
  exact (arr_tail r Hwr Hrr [] (embed x) f lx1 st rest Hlx1).
Qed.

Lemma roundtrip_obj fs : NoDup (map fst fs) -> Forall (fun kv => wf (snd kv)) fs ->
  Forall (fun kv => roundtrip_at (snd kv)) fs -> roundtrip_at (PObj fs).
Proof.
  destruct fs as [|[k x] r]; intros Hnd Hw Hr.
  { apply roundtrip_scalar; [reflexivity|]. intros lx rest H _. rewrite (start_value_brace lx _ H). cbv zeta.
    set (lx1 := advance lx 1 (125 :: rest)).
    rewrite (skip_spaces_nonws lx1 125 rest eq_refl eq_refl), (eat_char_hit 125 lx1 rest eq_refl).
    eexists. split; [|reflexivity]. reflexivity. }
  inversion Hw as [|? ? Hwx Hwr]; inversion Hr as [|? ? Hx Hrr]; subst. cbn [snd] in Hwx, Hx.
  intros f lx st rest Hlx _. rewrite print_obj_cons in Hlx. cbn [app] in Hlx.
  rewrite <- !app_assoc in Hlx. cbn [app] in Hlx. rewrite <- app_assoc in Hlx.
  destruct (start_obj_open lx k _ Hlx (drop_ws_print x _ Hwx)) as [lx0 [Hlx0 E]].
  cbn [cost fold_right snd]. fold (cost_fields r). cbn [Nat.add]. rewrite (parse_loop_step _ _ st _ E), <- Nat.add_assoc.
  destruct (roundtrip_sep x Hx (cost_fields r + f)%nat lx0 (SObj [] k :: st) _ Hlx0 (obj_rest_head r rest)) as [lx1 [Hlx1 ->]].
  exact (obj_tail r Hwr Hrr [] k (embed x) f lx1 st rest Hlx1 Hnd).
Qed.

Theorem roundtrip_all : forall p, wf p -> roundtrip_at p.
Proof.
  apply wf_ind.
  - apply roundtrip_scalar; [reflexivity|]. intros lx rest H _. exists (advance lx 4 rest).
    split; [reflexivity|]. unfold start_value, eat_str. rewrite H. reflexivity.
  - intros b. apply roundtrip_scalar; [reflexivity|]. intros lx rest H _.
    destruct b; [exists (advance lx 4 rest)|exists (advance lx 5 rest)];
      (split; [reflexivity|]); unfold start_value, eat_str; rewrite H; reflexivity.
  - intros ds Hw. apply roundtrip_scalar; [reflexivity|]. intros lx rest H Hfo. exact (start_nat lx ds rest Hw H Hfo).
  - intros s. apply roundtrip_scalar; [reflexivity|]. intros lx rest H _. exact (start_string lx s rest H).
  - exact roundtrip_arr.
  - exact roundtrip_obj.
Qed.

(* fuel: a printed value has at least as many characters as it has values *)
Lemma arr_rest_cost r : Forall (fun y => (cost y <= length (print y))%nat) r -> (cost_list r < length (arr_rest r))%nat.
Proof.
  induction 1 as [|y r Hy _ IH]; cbn [cost_list fold_right arr_rest length]; [lia|].
  rewrite app_length. fold (cost_list r). lia.
Qed.

Lemma obj_rest_cost r : Forall (fun kv => (cost (snd kv) <= length (print (snd kv)))%nat) r ->
  (cost_fields r < length (obj_rest r))%nat.
Proof.
  induction 1 as [|[k y] r Hy _ IH]; cbn [cost_fields fold_right obj_rest length snd] in *; [lia|].
  rewrite !app_length. cbn [length]. rewrite app_length. fold (cost_fields r). lia.
Qed.

Lemma cost_le_print : forall p, wf p -> (cost p <= length (print p))%nat.
Proof.
  apply wf_ind.
  - cbn. lia.
  - intros [|]; cbn; lia.
  - intros ds [Hd _]. destruct (digits_head ds Hd) as [d [r [-> _]]]. cbn. lia.
  - intros s. cbn. lia.
  - intros [|x r] _ H; [cbn; lia|]. inversion H as [|? ? Hx Hr]; subst. pose proof (arr_rest_cost r Hr).
    rewrite print_arr_cons. cbn [cost fold_right length]. fold (cost_list r). rewrite app_length. lia.
  - intros [|[k x] r] _ _ H; [cbn; lia|]. inversion H as [|? ? Hx Hr]; subst. cbn [snd] in Hx.
    pose proof (obj_rest_cost r Hr).
    rewrite print_obj_cons. cbn [cost fold_right length snd]. fold (cost_fields r).
    rewrite !app_length. cbn [length]. rewrite app_length. lia.
Qed.

Lemma parse_json_print p rest : wf p -> follow_ok p rest ->
  exists lx' f, lx_rem lx' = drop_ws rest /\ parse_json (print p ++ rest) = after f (unwind lx' [] (embed p)).
Proof.
  intros Hw Hfo. unfold parse_json. set (fuel := S (length (print p ++ rest))).
  pose proof (cost_le_print p Hw) as Hc.
  replace fuel with (cost p + (fuel - cost p))%nat by (unfold fuel; rewrite app_length; lia).
  destruct (roundtrip_all p Hw (fuel - cost p)%nat
              (skip_spaces {| lx_line := 0; lx_col := 0; lx_rem := print p ++ rest |}) [] rest) as [lx' [Hlx' E]];
    [rewrite skip_spaces_rem; exact (drop_ws_print p rest Hw)|exact Hfo|].
  exists lx', (fuel - cost p)%nat. split; assumption.
Qed.

(* parse_json inverts the printer *)
Theorem parse_print : forall p, wf p -> parse_json (print p) = Ok (embed p).
Proof.
  intros p Hw. destruct (parse_json_print p [] Hw) as [lx' [f [Hlx' E]]]; [destruct p; exact I|].
  rewrite app_nil_r in E. rewrite E. cbn [unwind]. rewrite Hlx'. reflexivity.
Qed.

(* and trailing data after a printed value is rejected *)
Theorem parse_print_trailing : forall p c t, wf p -> is_ws c = false -> follow_ok p (c :: t) ->
  exists line col, parse_json (print p ++ c :: t) = Err {| je_line := line; je_col := col; je_kind := EExpectedEof |}.
Proof.
  intros p c t Hw Hc Hfo. destruct (parse_json_print p (c :: t) Hw Hfo) as [lx' [f [Hlx' E]]].
  rewrite E. rewrite (drop_ws_nonws c t Hc) in Hlx'. cbn [unwind]. rewrite Hlx'. cbn [after].
  eexists. eexists. reflexivity.
Qed.
