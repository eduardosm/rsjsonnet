(* Proofs/Hash_proofs.v — the hash specifications of Model/Hash.v on the standards' test
   vectors (kernel-checked by vm_compute), and structural facts. *)
From RJ Require Import Base.Outcome Model.Utf8Codec Model.Hash.
From Coq Require Import Lia.
Local Open Scope N_scope.

Definition abc : list N := [97; 98; 99].
(* "abcdbcdecdefdefgefghfghighijhijkijkljklmklmnlmnomnopnopq" *)
Definition abcdbcde : list N :=
  [97;98;99;100; 98;99;100;101; 99;100;101;102; 100;101;102;103; 101;102;103;104; 102;103;104;105; 103;104;105;106;
   104;105;106;107; 105;106;107;108; 106;107;108;109; 107;108;109;110; 108;109;110;111; 109;110;111;112; 110;111;112;113].

Definition hex (s : list N) : list N := hex_of_bytes s.

Definition ascii_hex (l : list N) : list N := l.

(* Beside the standards' own vectors: the longest message whose padding still fits its block,
   the first that needs a further block, and a whole block (55, 56, 64 bytes for the 64-byte
   blocks with an 8-byte length field; 111, 112, 128 for SHA-512; 71, 72, 73, 144 for the
   72-byte rate of SHA3-512, whose padding takes at least one byte). *)
Example md5_vectors :
  be_word (md5 []) = 0xd41d8cd98f00b204e9800998ecf8427e /\
  be_word (md5 abc) = 0x900150983cd24fb0d6963f7d28e17f72 /\
  be_word (md5 abcdbcde) = 0x8215ef0796a20bcaaae116d3876c664a /\
  be_word (md5 (repeat 97 55)) = 0xef1772b6dff9a122358552954ad0df65 /\
  be_word (md5 (repeat 97 56)) = 0x3b0c8ac703f828b04c6c197006d17218 /\
  be_word (md5 (repeat 97 64)) = 0x014842d480b571495a4a0363793f7367.
Proof. vm_compute. repeat split; reflexivity. Qed.

Example sha1_vectors :
  be_word (sha1 []) = 0xda39a3ee5e6b4b0d3255bfef95601890afd80709 /\
  be_word (sha1 abc) = 0xa9993e364706816aba3e25717850c26c9cd0d89d /\
  be_word (sha1 abcdbcde) = 0x84983e441c3bd26ebaae4aa1f95129e5e54670f1 /\
  be_word (sha1 (repeat 97 55)) = 0xc1c8bbdc22796e28c0e15163d20899b65621d65a /\
  be_word (sha1 (repeat 97 56)) = 0xc2db330f6083854c99d4b5bfb6e8f29f201be699 /\
  be_word (sha1 (repeat 97 64)) = 0x0098ba824b5c16427bd7a1122a5a442a25ec644d.
Proof. vm_compute. repeat split; reflexivity. Qed.

Example sha256_vectors :
  be_word (sha256 []) = 0xe3b0c44298fc1c149afbf4c8996fb92427ae41e4649b934ca495991b7852b855 /\
  be_word (sha256 abc) = 0xba7816bf8f01cfea414140de5dae2223b00361a396177a9cb410ff61f20015ad /\
  be_word (sha256 abcdbcde) = 0x248d6a61d20638b8e5c026930c3e6039a33ce45964ff2167f6ecedd419db06c1 /\
  be_word (sha256 (repeat 97 55)) = 0x9f4390f8d30c2dd92ec9f095b65e2b9ae9b0a925a5258e241c9f1e910f734318 /\
  be_word (sha256 (repeat 97 56)) = 0xb35439a4ac6f0948b6d6f9e3c6af0f5f590ce20f1bde7090ef7970686ec6738a /\
  be_word (sha256 (repeat 97 64)) = 0xffe054fe7ae0cb6dc65c3af9b61d5209f439851db43d0ba5997337df154668eb.
Proof. vm_compute. repeat split; reflexivity. Qed.

Example sha512_vectors :
  be_word (sha512 []) = 0xcf83e1357eefb8bdf1542850d66d8007d620e4050b5715dc83f4a921d36ce9ce47d0d13c5d85f2b0ff8318d2877eec2f63b931bd47417a81a538327af927da3e /\
  be_word (sha512 abc) = 0xddaf35a193617abacc417349ae20413112e6fa4e89a97ea20a9eeee64b55d39a2192992a274fc1a836ba3c23a3feebbd454d4423643ce80e2a9ac94fa54ca49f /\
  be_word (sha512 abcdbcde) = 0x204a8fc6dda82f0a0ced7beb8e08a41657c16ef468b228a8279be331a703c33596fd15c13b1b07f9aa1d3bea57789ca031ad85c7a71dd70354ec631238ca3445 /\
  be_word (sha512 (repeat 97 111)) = 0xfa9121c7b32b9e01733d034cfc78cbf67f926c7ed83e82200ef86818196921760b4beff48404df811b953828274461673c68d04e297b0eb7b2b4d60fc6b566a2 /\
  be_word (sha512 (repeat 97 112)) = 0xc01d080efd492776a1c43bd23dd99d0a2e626d481e16782e75d54c2503b5dc32bd05f0f1ba33e568b88fd2d970929b719ecbb152f58f130a407c8830604b70ca /\
  be_word (sha512 (repeat 97 128)) = 0xb73d1929aa615934e61a871596b3f3b33359f42b8175602e89f7e06e5f658a243667807ed300314b95cacdd579f3e33abdfbe351909519a846d465c59582f321.
Proof. vm_compute. repeat split; reflexivity. Qed.

Example sha3_512_vectors :
  be_word (sha3_512 []) = 0xa69f73cca23a9ac5c8b567dc185a756e97c982164fe25859e0d1dcc1475c80a615b2123af1f5f94c11e3e9402c3ac558f500199d95b6d3e301758586281dcd26 /\
  be_word (sha3_512 abc) = 0xb751850b1a57168a5693cd924b6b096e08f621827444f70d884f5d0240d2712e10e116e9192af3c91a7ec57647e3934057340b4cf408d5a56592f8274eec53f0 /\
  be_word (sha3_512 abcdbcde) = 0x04a371e84ecfb5b8b77cb48610fca8182dd457ce6f326a0fd3d7ec2f1e91636dee691fbe0c985302ba1b0d8dc78c086346b533b49c030d99a27daf1139d6e75e /\
  be_word (sha3_512 (repeat 97 71)) = 0x070faf98d2a8fddf8ed886408744dc06456096c2e045f26f3c7b010530e6bbb3db535a54d636856f4e0e1e982461cb9a7e8e57ff8895cff1619af9f0e486e28c /\
  be_word (sha3_512 (repeat 97 72)) = 0xa8ae722a78e10cbbc413886c02eb5b369a03f6560084aff566bd597bb7ad8c1ccd86e81296852359bf2faddb5153c0a7445722987875e74287adac21adebe952 /\
  be_word (sha3_512 (repeat 97 73)) = 0x23e6a8815f8201dbbf6a5463be8dcadb1acea9df5f8998954e59ac9565cf6d29b17aa27a5e8b0fc06343db6122d6e544d27583ddc78504d08203217e7e65b6bd /\
  be_word (sha3_512 (repeat 97 144)) = 0x446cd4d7ba19510dcc776b21045bc68d424b5b840e14685e149bb238b5f473c0356b69e04f0f5785eefce20ff09e678b080d8aac64568c5edf001cd32b2ed7a8.
Proof. vm_compute. repeat split; reflexivity. Qed.

Lemma be_bytes_length n x : length (be_bytes n x) = n.
Proof. revert x. induction n as [|n IH]; intros x; [reflexivity|]. cbn [be_bytes]. rewrite app_length, IH. cbn. lia. Qed.
Lemma le_bytes_length n x : length (le_bytes n x) = n.
Proof. revert x. induction n as [|n IH]; intros x; [reflexivity|]. cbn [le_bytes length]. now rewrite IH. Qed.

Theorem md_pad_length : forall block lenbytes be msg, (0 < block)%nat ->
  (length (md_pad block lenbytes be msg) mod block = 0)%nat /\
  (length msg + 1 + lenbytes <= length (md_pad block lenbytes be msg))%nat.
Proof.
  intros block lenbytes be msg Hb. unfold md_pad. rewrite !app_length, repeat_length. cbn [length].
  assert (El : length (if be then be_bytes lenbytes (8 * N.of_nat (length msg)) else le_bytes lenbytes (8 * N.of_nat (length msg))) = lenbytes)
    by (destruct be; [apply be_bytes_length|apply le_bytes_length]).
  rewrite El. set (T := (length msg + 1 + lenbytes)%nat).
  replace (length msg + (1 + ((block - T mod block) mod block + lenbytes)))%nat with (T + (block - T mod block) mod block)%nat by (unfold T; lia).
  split; [|lia].
  (* T + (block - T mod block) is T mod block + (block - T mod block) = block, modulo block *)
  pose proof (Nat.mod_upper_bound T block ltac:(lia)) as Hr.
  rewrite Nat.add_mod_idemp_r, <- Nat.add_mod_idemp_l by lia.
  replace (T mod block + (block - T mod block))%nat with block by lia. apply Nat.mod_same. lia.
Qed.

Lemma fold_round_length {A} (f : list N -> A -> list N) (n : nat) :
  (forall st a, length st = n -> length (f st a) = n) ->
  forall l st, length st = n -> length (fold_left f l st) = n.
Proof. intros Hf. induction l as [|a l IH]; intros st H; [exact H|]. cbn [fold_left]. apply IH, Hf, H. Qed.

Lemma flat_map_bytes_length n (f : N -> list N) : (forall x, length (f x) = n) ->
  forall l, length (flat_map f l) = (n * length l)%nat.
Proof. intros Hf. induction l as [|x l IH]; [cbn; lia|]. cbn [flat_map]. rewrite app_length, Hf, IH. cbn [length]. lia. Qed.

(* the shape MD5, SHA-1 and SHA-2 share: rounds that keep the number of state words, the
   outcome added word by word to the chaining value, and at the end every word serialised *)
Lemma compress_length {A} (round : list N -> A -> list N) (g : N * N -> N) (n : nat) l h :
  (forall st a, length st = n -> length (round st a) = n) -> length h = n ->
  length (map g (combine h (fold_left round l h))) = n.
Proof.
  intros Hr H. rewrite map_length, combine_length, (fold_round_length round n Hr), H by exact H.
  apply Nat.min_id.
Qed.

Lemma digest_length (compress : list N -> list N -> list N) (ser : N -> list N) (n k : nat) blocks h0 :
  (forall h b, length h = n -> length (compress h b) = n) -> (forall x, length (ser x) = k) ->
  length h0 = n -> length (flat_map ser (fold_left compress blocks h0)) = (k * n)%nat.
Proof. intros Hc Hs H. now rewrite (flat_map_bytes_length k), (fold_round_length compress n). Qed.

Lemma s2_round_length P st kw : length st = 8%nat -> length (s2_round P st kw) = 8%nat.
Proof. intros H. do 9 (destruct st as [|? st]; try discriminate). reflexivity. Qed.

Lemma s2_compress_length P h block : length h = 8%nat -> length (s2_compress P h block) = 8%nat.
Proof. apply compress_length, s2_round_length. Qed.

Theorem sha2_length P msg : length (s2_h P) = 8%nat -> length (sha2 P msg) = (s2_wbytes P * 8)%nat.
Proof. intros H. apply digest_length; [apply s2_compress_length | apply be_bytes_length | exact H]. Qed.
Theorem sha256_length : forall msg, length (sha256 msg) = 32%nat.
Proof. intros msg. now apply (sha2_length sha256_params). Qed.
Theorem sha512_length : forall msg, length (sha512 msg) = 64%nat.
Proof. intros msg. now apply (sha2_length sha512_params). Qed.

Lemma sha1_round_length st tw : length st = 5%nat -> length (sha1_round st tw) = 5%nat.
Proof. intros H. do 6 (destruct st as [|? st]; try discriminate). reflexivity. Qed.
Theorem sha1_length : forall msg, length (sha1 msg) = 20%nat.
Proof.
  intros msg. apply (digest_length sha1_compress _ 5 4); [|apply be_bytes_length|reflexivity].
  intros h b. apply compress_length, sha1_round_length.
Qed.

Lemma md5_round_length m st i : length st = 4%nat -> length (md5_round m st i) = 4%nat.
Proof. intros H. do 5 (destruct st as [|? st]; try discriminate). reflexivity. Qed.
Theorem md5_length : forall msg, length (md5 msg) = 16%nat.
Proof.
  intros msg. apply (digest_length md5_compress _ 4 4); [|apply le_bytes_length|reflexivity].
  intros h b. apply compress_length, md5_round_length.
Qed.

Lemma keccak_round_length st rc : length (keccak_round st rc) = 25%nat.
Proof. unfold keccak_round. cbn [seq map]. reflexivity. Qed.
Theorem sha3_512_length : forall msg, length (sha3_512 msg) = 64%nat.
Proof.
  intros msg. unfold sha3_512. rewrite firstn_length, (flat_map_bytes_length 8) by apply le_bytes_length.
  rewrite (fold_round_length sha3_absorb 25); [reflexivity| |reflexivity].
  intros st a _. apply (fold_round_length keccak_round 25); [intros; apply keccak_round_length | reflexivity].
Qed.

(* the builtins print 2 hexadecimal digits per byte *)
Lemma hex_of_bytes_length bs : length (hex_of_bytes bs) = (2 * length bs)%nat.
Proof. unfold hex_of_bytes. now rewrite (flat_map_bytes_length 2). Qed.

Theorem std_hash_lengths : forall s,
  length (std_md5 s) = 32%nat /\ length (std_sha1 s) = 40%nat /\ length (std_sha256 s) = 64%nat /\
  length (std_sha512 s) = 128%nat /\ length (std_sha3 s) = 128%nat.
Proof.
  intros s. unfold std_md5, std_sha1, std_sha256, std_sha512, std_sha3.
  rewrite !hex_of_bytes_length, md5_length, sha1_length, sha256_length, sha512_length, sha3_512_length.
  repeat split; reflexivity.
Qed.

(* std.sha256 hashes the UTF-8 bytes of the string: "é" is hashed as C3 A9 *)
Example std_sha256_hex : std_sha256 [233] = hex_of_bytes (sha256 [195; 169]) /\ length (std_sha256 abc) = 64%nat /\
  firstn 8 (std_sha256 abc) = [98; 97; 55; 56; 49; 54; 98; 102].
Proof.
  split; [|split].
  - unfold std_sha256. do 2 f_equal.
  - (* [apply std_hash_lengths] would first try the md5 conjunct and unfold both digests to compare them *)
    exact (proj1 (proj2 (proj2 (std_hash_lengths abc)))).
  - vm_compute. reflexivity.
Qed.
