(* Proofs/Format_proofs.v — lemmas about Model/Format.v (std.format / %): first what the
   conversions render (padding and decoration, integers, %f, %e, %g, Display), then the
   format-string parser, the array and object machines, and the absence of panics. *)
From RJ Require Import Base.Outcome Base.F64 Model.Format.
From Coq Require Import Lia Floats.SpecFloat.
Local Open Scope N_scope.

Arguments N.add : simpl never.
Arguments N.sub : simpl never.
Arguments N.mul : simpl never.
Arguments N.div : simpl never.
Arguments N.modulo : simpl never.
Arguments N.ltb : simpl never.
Arguments N.leb : simpl never.
Arguments N.eqb : simpl never.
Arguments N.max : simpl never.
Arguments N.min : simpl never.
Arguments N.pow : simpl never.
Arguments Z.mul : simpl never.
Arguments Z.add : simpl never.
Arguments Z.sub : simpl never.
Arguments Z.pow : simpl never.
Arguments Z.div : simpl never.
Arguments Z.modulo : simpl never.

Lemma lenN_app {A} (a b : list A) : lenN (a ++ b) = lenN a + lenN b.
Proof. unfold lenN. rewrite app_length. lia. Qed.

Lemma lenN_cons {A} (x : A) l : lenN (x :: l) = 1 + lenN l.
Proof. unfold lenN. cbn [length]. lia. Qed.

Lemma lenN_nil {A} : lenN (@nil A) = 0.
Proof. reflexivity. Qed.

Lemma repeatN_succ c n : repeatN c (N.succ n) = c :: repeatN c n.
Proof. unfold repeatN. rewrite N.iter_succ. reflexivity. Qed.

Lemma repeatN_0 c : repeatN c 0 = [].
Proof. reflexivity. Qed.

Lemma lenN_repeatN c n : lenN (repeatN c n) = n.
Proof.
  induction n as [|n IH] using N.peano_ind.
  - reflexivity.
  - rewrite repeatN_succ, lenN_cons, IH. lia.
Qed.

Lemma repeatN_add c a b : repeatN c (a + b) = repeatN c a ++ repeatN c b.
Proof.
  induction a as [|a IH] using N.peano_ind.
  - reflexivity.
  - replace (N.succ a + b) with (N.succ (a + b)) by lia.
    rewrite !repeatN_succ, IH. reflexivity.
Qed.

Lemma repeatN_all c n : Forall (fun x => x = c) (repeatN c n).
Proof.
  induction n as [|n IH] using N.peano_ind.
  - constructor.
  - rewrite repeatN_succ. constructor; auto.
Qed.

Lemma pad_length s w l : lenN (field_pad s w l) = N.max w (lenN s).
Proof.
  unfold field_pad. destruct (lenN s <? w) eqn:H.
  - apply N.ltb_lt in H. destruct l; rewrite lenN_app, lenN_repeatN; lia.
  - apply N.ltb_ge in H. lia.
Qed.

Lemma pad_reaches_width s w l : w <= lenN (field_pad s w l).
Proof. rewrite pad_length. lia. Qed.

(* before /repo 0ba7637 the test was on the BYTE length, the padding on the character count *)
Definition field_pad_bytes (s : str) (fwv : N) (left : bool) : str :=
  if utf8_len s <? fwv then
    let pad_len := fwv - lenN s in
    if left then s ++ repeatN 32 pad_len else repeatN 32 pad_len ++ s
  else s.

Lemma pad_reaches_width_refuted : exists s w l, lenN (field_pad_bytes s w l) < w.
Proof. exists [26085; 26412], 5, true. vm_compute. reflexivity. Qed.

Lemma lenN_sign_prefix n p b : lenN (sign_prefix n p b) <= 1.
Proof. unfold sign_prefix. destruct n, p, b; cbn; lia. Qed.

Lemma decorate_min_width digits neg mc md sg bl :
  mc <= lenN (decorate_digits digits neg mc md sg bl) /\
  lenN (sign_prefix neg sg bl) + md <= lenN (decorate_digits digits neg mc md sg bl) /\
  exists pad, decorate_digits digits neg mc md sg bl = sign_prefix neg sg bl ++ repeatN 48 pad ++ digits.
Proof.
  unfold decorate_digits. rewrite !lenN_app, lenN_repeatN.
  repeat split; try lia. eexists. reflexivity.
Qed.

Lemma render_int_min_width neg mag mc md bl pl radix zp :
  mc <= lenN (render_int neg mag mc md bl pl radix zp) /\
  lenN (sign_prefix neg pl bl) + md <= lenN (render_int neg mag mc md bl pl radix zp).
Proof. unfold render_int. rewrite !lenN_app, lenN_repeatN. split; lia. Qed.

Lemma render_hex_min_width neg mag mc md bl pl zx cap :
  mc <= lenN (render_hex neg mag mc md bl pl zx cap) /\
  lenN (sign_prefix neg pl bl) + md <= lenN (render_hex neg mag mc md bl pl zx cap).
Proof. unfold render_hex. rewrite !lenN_app, lenN_repeatN. split; lia. Qed.

(* the number denoted by a digit list, most significant first *)
Definition digits_value (r : N) (ds : list N) : N := fold_left (fun a d => a * r + d) ds 0.

Lemma fold_value_app r l1 l2 a :
  fold_left (fun a d => a * r + d) (l1 ++ l2) a =
  fold_left (fun a d => a * r + d) l2 (fold_left (fun a d => a * r + d) l1 a).
Proof. apply fold_left_app. Qed.

Lemma digits_value_snoc r l d : digits_value r (l ++ [d]) = digits_value r l * r + d.
Proof. unfold digits_value. rewrite fold_left_app. reflexivity. Qed.

Lemma fold_value_acc r l a :
  fold_left (fun x d => x * r + d) l a = a * r ^ lenN l + digits_value r l.
Proof.
  revert a. induction l as [|d t IH]; intros a.
  - cbn. rewrite N.pow_0_r. lia.
  - cbn [fold_left]. unfold digits_value. cbn [fold_left]. rewrite IH, (IH (0 * r + d)).
    rewrite lenN_cons. replace (1 + lenN t) with (N.succ (lenN t)) by lia. rewrite N.pow_succ_r'. lia.
Qed.

Lemma digits_value_lt r l : Forall (fun d => d < r) l -> digits_value r l < r ^ lenN l.
Proof.
  induction l as [|d t IH] using rev_ind; intros H.
  - cbn. lia.
  - apply Forall_app in H. destruct H as [Ht Hd]. inversion Hd; subst.
    rewrite digits_value_snoc, lenN_app. change (lenN [d]) with 1. rewrite N.pow_add_r, N.pow_1_r.
    specialize (IH Ht). nia.
Qed.

Lemma digits_value_ge r d t : 0 < d -> r ^ lenN t <= digits_value r (d :: t).
Proof.
  intros Hd. unfold digits_value. cbn [fold_left]. rewrite fold_value_acc. nia.
Qed.

Lemma size_nat_bound n : n < 2 ^ N.of_nat (N.size_nat n).
Proof.
  destruct n as [|p]; [reflexivity|]. cbn [N.size_nat].
  induction p as [p IH|p IH|]; cbn [Pos.size_nat].
  - rewrite Nat2N.inj_succ, N.pow_succ_r'. change (N.pos p~1) with (2 * N.pos p + 1). lia.
  - rewrite Nat2N.inj_succ, N.pow_succ_r'. change (N.pos p~0) with (2 * N.pos p). lia.
  - reflexivity.
Qed.

(* what the loop prepends to [acc]; a first digit 0 would mean the loop ran on n = 0 *)
Lemma radix_loop_spec r (Hr : 2 <= r) : forall fuel n acc,
  n < 2 ^ N.of_nat fuel ->
  exists pre, radix_loop fuel r n acc = pre ++ acc /\
              digits_value r pre = n /\
              Forall (fun d => d < r) pre /\
              (forall t, pre <> 0 :: t).
Proof.
  induction fuel as [|f IH]; intros n acc Hn; cbn [radix_loop].
  - exists []. repeat split; [cbn in *; lia|constructor|discriminate].
  - destruct (N.eqb_spec n 0) as [->|E].
    + exists []. repeat split; [constructor|discriminate].
    + assert (Hdiv : n / r < 2 ^ N.of_nat f).
      { rewrite Nat2N.inj_succ, N.pow_succ_r' in Hn. apply N.div_lt_upper_bound; nia. }
      destruct (IH (n / r) (n mod r :: acc) Hdiv) as (pre & Heq & Hval & Hall & Hnz).
      pose proof (N.div_mod n r ltac:(lia)) as Hdm.
      exists (pre ++ [n mod r]). repeat split.
      * rewrite Heq, <- app_assoc. reflexivity.
      * rewrite digits_value_snoc, Hval. lia.
      * apply Forall_app. split; [exact Hall|]. constructor; [|constructor].
        apply N.mod_lt. lia.
      * intros t Ht. destruct pre as [|d pre]; inversion Ht; subst.
        -- cbn in Hval. lia.
        -- exact (Hnz pre eq_refl).
Qed.

Lemma radix_digits_value r n : 2 <= r ->
  digits_value r (radix_digits r n) = n /\
  Forall (fun d => d < r) (radix_digits r n) /\
  (0 < n -> exists d t, radix_digits r n = d :: t /\ 0 < d).
Proof.
  intros Hr. unfold radix_digits.
  assert (Hn : n < 2 ^ N.of_nat (S (N.size_nat n))).
  { rewrite Nat2N.inj_succ, N.pow_succ_r'. pose proof (size_nat_bound n). lia. }
  destruct (radix_loop_spec r Hr _ n [] Hn) as (pre & -> & Hval & Hall & Hnz).
  rewrite app_nil_r. repeat split; [exact Hval|exact Hall|intros Hpos].
  destruct pre as [|d t]; [cbn in Hval; lia|]. exists d, t. split; [reflexivity|].
  destruct (N.eq_dec d 0) as [->|]; [destruct (Hnz t eq_refl)|lia].
Qed.

(* %o %x %X: sign, zero padding, then (prefix and) the radix digits of the exact magnitude *)
Lemma render_int_digits neg mag mc md bl pl radix zp :
  exists pad,
    render_int neg mag mc md bl pl radix zp =
    sign_prefix neg pl bl ++ repeatN 48 pad ++
      (if mag =? 0 then [48] else zp ++ map (fun d => 48 + d) (radix_digits radix mag)).
Proof. unfold render_int. eexists. reflexivity. Qed.

Lemma render_hex_digits neg mag mc md bl pl zx cap :
  exists pad,
    render_hex neg mag mc md bl pl zx cap =
    (sign_prefix neg pl bl ++ (if zx then (if cap then [48; 88] else [48; 120]) else [])) ++
      repeatN 48 pad ++
      (if mag =? 0 then [48] else map (hex_numeral cap) (radix_digits 16 mag)).
Proof. unfold render_hex. eexists. reflexivity. Qed.

(* %d %i %u below 2^53: the digits are the exact integer *)
Lemma decimal_exact_below_2p53 lf c fwv precv x n :
  ctype c = CDecimal -> trunc_mag x = Some n -> n < 2 ^ 53 ->
  do_format_code lf c fwv precv (VNum x) =
  Ok (decorate_digits (dec_digits n) (is_neg_trunc x)
        (if fl_zero (flags c) && negb (fl_left (flags c)) then fwv else 0)
        (match prec c with Some _ => precv | None => 0 end)
        (fl_plus (flags c)) (fl_blank (flags c))).
Proof.
  intros Hc Ht Hn. unfold do_format_code. cbv zeta. rewrite Hc. cbn [need_num obind].
  rewrite Ht. unfold display_int.
  replace (n <? 2 ^ 53) with true by (symmetry; apply N.ltb_lt; exact Hn).
  destruct (prec c); reflexivity.
Qed.

Definition str_value (s : str) : N := digits_value 10 (map (fun c => c - 48) s).
Definition all_digits (s : str) : Prop := Forall (fun c => 48 <= c <= 57) s.

Lemma str_value_snoc a c : str_value (a ++ [c]) = str_value a * 10 + (c - 48).
Proof. unfold str_value. rewrite map_app. apply digits_value_snoc. Qed.

Lemma str_value_dec_digits n : str_value (dec_digits n) = n /\ all_digits (dec_digits n) /\ 1 <= lenN (dec_digits n).
Proof.
  unfold dec_digits. destruct (n =? 0) eqn:E.
  - apply N.eqb_eq in E. subst. repeat split; [repeat constructor; lia|cbn; lia].
  - apply N.eqb_neq in E.
    destruct (radix_digits_value 10 n ltac:(lia)) as (Hv & Hall & Hnz).
    repeat split.
    + unfold str_value. rewrite map_map.
      rewrite (map_ext _ (fun d => d)); [rewrite map_id; exact Hv|]. intros; lia.
    + unfold all_digits. apply Forall_map. eapply Forall_impl; [|exact Hall]. cbn; intros; lia.
    + destruct (Hnz ltac:(lia)) as (d & t & Hd & _). rewrite Hd. cbn [map]. rewrite lenN_cons. lia.
Qed.

Lemma dec_digits_len n k : 10 ^ k <= n < 10 ^ (k + 1) -> lenN (dec_digits n) = k + 1.
Proof.
  intros [Hlo Hhi].
  assert (Hn : 0 < n) by (pose proof (N.pow_nonzero 10 k ltac:(lia)); lia).
  unfold dec_digits. replace (n =? 0) with false by (symmetry; apply N.eqb_neq; lia).
  destruct (radix_digits_value 10 n ltac:(lia)) as (Hv & Hall & Hnz).
  destruct (Hnz Hn) as (d & t & Hd & Hdpos).
  unfold lenN. rewrite map_length. fold (lenN (radix_digits 10 n)).
  pose proof (digits_value_lt 10 _ Hall) as Hup. rewrite Hv in Hup.
  rewrite Hd in *. pose proof (digits_value_ge 10 d t Hdpos) as Hdn. rewrite Hv in Hdn.
  rewrite lenN_cons in *.
  assert (lenN t < k + 1).
  { apply (N.pow_lt_mono_r_iff 10); lia. }
  assert (k < 1 + lenN t).
  { apply (N.pow_lt_mono_r_iff 10); lia. }
  lia.
Qed.

Lemma str_value_lead_zeros k s : str_value (repeatN 48 k ++ s) = str_value s.
Proof.
  induction k as [|k IH] using N.peano_ind; [reflexivity|].
  rewrite repeatN_succ. cbn [app]. unfold str_value, digits_value in *. cbn [map fold_left].
  exact IH.
Qed.

Lemma str_value_trail_zeros s k : str_value (s ++ repeatN 48 k) = str_value s * 10 ^ k.
Proof.
  induction k as [|k IH] using N.peano_ind.
  - rewrite repeatN_0, app_nil_r. cbn. lia.
  - replace (N.succ k) with (k + 1) by lia. rewrite repeatN_add, app_assoc.
    change (repeatN 48 1) with [48]. rewrite str_value_snoc, IH, N.pow_add_r. cbn. lia.
Qed.

Lemma all_digits_app a b : all_digits a -> all_digits b -> all_digits (a ++ b).
Proof. intros; apply Forall_app; auto. Qed.

Lemma all_digits_zeros k : all_digits (repeatN 48 k).
Proof. eapply Forall_impl; [|apply repeatN_all]. cbn; intros; lia. Qed.

Local Open Scope Z_scope.

(* D is num/den rounded to the nearest integer, ties to even *)
Definition is_rhe (D num den : Z) : Prop :=
  2 * Z.abs (D * den - num) <= den /\
  (2 * Z.abs (D * den - num) = den -> Z.even D = true).

Lemma rhe_correct num den : 0 <= num -> 0 < den -> is_rhe (rhe num den) num den /\ 0 <= rhe num den.
Proof.
  intros Hn Hd. unfold rhe, is_rhe.
  pose proof (Z.div_mod num den ltac:(lia)) as Hdm.
  pose proof (Z.mod_pos_bound num den Hd) as Hr.
  pose proof (Z.div_pos num den Hn Hd) as Hq.
  set (q := num / den) in *. set (r := num mod den) in *.
  destruct (Z.compare_spec (2 * r) den) as [E|E|E].
  - destruct (Z.even q) eqn:Ev.
    + replace (q * den - num) with (- r) by lia. rewrite Z.abs_opp, Z.abs_eq by lia.
      repeat split; auto; lia.
    + replace ((q + 1) * den - num) with (den - r) by lia. rewrite Z.abs_eq by lia.
      repeat split; try lia. intros _. rewrite Z.even_add, Ev. reflexivity.
  - replace (q * den - num) with (- r) by lia. rewrite Z.abs_opp, Z.abs_eq by lia.
    repeat split; try lia.
  - replace ((q + 1) * den - num) with (den - r) by lia. rewrite Z.abs_eq by lia.
    repeat split; try lia.
Qed.

Lemma rhe_exact a den : 0 < den -> rhe (a * den) den = a.
Proof.
  intros Hd. unfold rhe. rewrite Z.div_mul, Z.mod_mul by lia.
  destruct (Z.compare_spec (2 * 0) den); lia.
Qed.

Lemma rhe_bounds num den a b : 0 <= num -> 0 < den ->
  a * den <= num -> num <= b * den -> a <= rhe num den <= b.
Proof.
  intros Hn Hd Ha Hb. destruct (rhe_correct num den Hn Hd) as ((Herr & _) & _).
  set (D := rhe num den) in *. split.
  - destruct (Z.lt_ge_cases D a) as [Hlt|]; [exfalso|lia].
    assert (D * den <= a * den - den) by nia. lia.
  - destruct (Z.lt_ge_cases b D) as [Hlt|]; [exfalso|lia].
    assert (b * den + den <= D * den) by nia. lia.
Qed.

Lemma pow10_pos k : 0 <= k -> 0 < 10 ^ k.
Proof. intros. apply Z.pow_pos_nonneg; lia. Qed.
Lemma pow2_pos k : 0 <= k -> 0 < 2 ^ k.
Proof. intros. apply Z.pow_pos_nonneg; lia. Qed.

Lemma scaled_rhe_nonneg_k m e k : 0 <= k ->
  scaled_rhe m e k = rhe (m * 2 ^ (Z.max e 0) * 10 ^ k) (2 ^ (Z.max (- e) 0)).
Proof.
  intros Hk. unfold scaled_rhe. rewrite (Z.max_l k 0), (Z.max_r (- k) 0) by lia.
  rewrite Z.pow_0_r, Z.mul_1_r. reflexivity.
Qed.

Lemma scaled_rhe_is_rhe m e k : 0 <= m -> 0 <= k ->
  is_rhe (scaled_rhe m e k) (m * 2 ^ (Z.max e 0) * 10 ^ k) (2 ^ (Z.max (- e) 0)) /\
  0 <= scaled_rhe m e k.
Proof.
  intros Hm Hk. rewrite scaled_rhe_nonneg_k by exact Hk. apply rhe_correct.
  - apply Z.mul_nonneg_nonneg; [apply Z.mul_nonneg_nonneg; [lia|]|];
      apply Z.lt_le_incl; [apply pow2_pos; lia|apply pow10_pos; lia].
  - apply pow2_pos; lia.
Qed.

(* once every fraction digit of the binary value is out, further digits are zeros:
   10^k is a multiple of the denominator 2^max(-e,0) *)
Lemma scaled_rhe_beyond m e k z : Z.max (- e) 0 <= k -> 0 <= z ->
  scaled_rhe m e (k + z) = scaled_rhe m e k * 10 ^ z.
Proof.
  intros Hk Hz. rewrite !scaled_rhe_nonneg_k by lia.
  set (d := Z.max (- e) 0) in *.
  assert (H10 : forall n, d <= n -> 10 ^ n = (5 ^ d * 10 ^ (n - d)) * 2 ^ d).
  { intros n Hn. replace n with (d + (n - d)) at 1 by lia. rewrite Z.pow_add_r by lia.
    change 10 with (5 * 2) at 1. rewrite Z.pow_mul_l. ring. }
  rewrite (H10 (k + z)), (H10 k), !Z.mul_assoc, !rhe_exact by (try apply pow2_pos; lia).
  replace (k + z - d) with (k - d + z) by lia. rewrite Z.pow_add_r by lia. ring.
Qed.

(* the formatters compute at precision min p c, c the point where the zeros begin
   (counted from position [off]), and pad *)
Lemma scaled_rhe_capped m e off (c p : N) : Z.max (- e) 0 <= Z.of_N c - off ->
  scaled_rhe m e (Z.of_N p - off) =
  scaled_rhe m e (Z.of_N (N.min p c) - off) * 10 ^ Z.of_N (p - N.min p c).
Proof.
  intros Hc. destruct (N.le_gt_cases p c).
  - replace (N.min p c) with p by lia. rewrite N.sub_diag. apply eq_sym, Z.mul_1_r.
  - replace (N.min p c) with c by lia. rewrite <- scaled_rhe_beyond by lia. f_equal. lia.
Qed.

Lemma split_last {A} (l : list A) (p : N) : (p <= lenN l)%N ->
  let k := N.to_nat (lenN l - p) in
  firstn k l ++ skipn k l = l /\ lenN (firstn k l) = (lenN l - p)%N /\ lenN (skipn k l) = p.
Proof.
  intros H. cbv zeta. split; [apply firstn_skipn|].
  unfold lenN in *. rewrite firstn_length, skipn_length. lia.
Qed.

(* the digits of %f, point removed, denote  m * 2^e * 10^p  rounded half-even: computed at
   the capped precision p', the rest is zeros (scaled_rhe_capped) *)
Lemma fixed_parts_correct m e p : 0 <= m ->
  let '(ip, fp) := fixed_parts m e p in
  lenN fp = p /\ (1 <= lenN ip)%N /\ all_digits (ip ++ fp) /\
  Z.of_N (str_value (ip ++ fp)) = scaled_rhe m e (Z.of_N p).
Proof.
  intros Hm. unfold fixed_parts, ch_0. cbv zeta.
  pose proof (scaled_rhe_capped m e 0 (Z.to_N (Z.max (- e) 0)) p ltac:(lia)) as Hcap.
  rewrite !Z.sub_0_r in Hcap.
  set (p' := N.min p (Z.to_N (Z.max (- e) 0))) in *.
  assert (Hpp : (p' <= p)%N) by apply N.le_min_l. clearbody p'.
  destruct (scaled_rhe_is_rhe m e (Z.of_N p') Hm ltac:(lia)) as (_ & HD).
  set (D := Z.to_N (scaled_rhe m e (Z.of_N p'))).
  destruct (str_value_dec_digits D) as (Hv & Hall & Hlen).
  set (ds0 := dec_digits D) in *.
  set (ds := repeatN 48 (p' + 1 - lenN ds0) ++ ds0).
  assert (Hlds : (p' + 1 <= lenN ds)%N).
  { unfold ds. rewrite lenN_app, lenN_repeatN. lia. }
  destruct (split_last ds p' ltac:(lia)) as (Hsplit & Hip & Hfp).
  repeat split.
  - rewrite lenN_app, Hfp, lenN_repeatN. lia.
  - lia.
  - rewrite app_assoc, Hsplit. apply all_digits_app; [|apply all_digits_zeros].
    unfold ds. apply all_digits_app; [apply all_digits_zeros|exact Hall].
  - rewrite app_assoc, Hsplit, str_value_trail_zeros. unfold ds.
    rewrite str_value_lead_zeros, Hv, Hcap, N2Z.inj_mul, N2Z.inj_pow. unfold D.
    rewrite Z2N.id by exact HD. reflexivity.
Qed.

Local Open Scope N_scope.
Local Open Scope outcome_scope.

(* core::fmt refuses precisions above u16::MAX: the reason for /repo a32ed0a *)
Lemma fmt_prec_limit : exists x p, is_panic (fmt_fixed x p) = true /\ is_panic (fmt_exp x p) = true.
Proof. exists (f_of_Z 1), 70000. vm_compute. split; reflexivity. Qed.

(* the digit string render_float_def builds: the formatter at a capped precision,
   then zeros (as /repo a32ed0a does) *)
Definition capped_fixed (x : f64) (prec : N) : res str :=
  let fmt_prec := N.min prec fmt_prec_max in
  do d <- fmt_fixed x fmt_prec; Ok (d ++ repeatN 48 (prec - fmt_prec)).

(* the formatter is never asked for more than it accepts *)
Lemma prec_cap_ok prec :
  (fmt_prec_max <? N.min prec fmt_prec_max) = false /\
  (fmt_prec_max <=? N.min prec (fmt_prec_max - 1)) = false.
Proof. split; [apply N.ltb_ge|apply N.leb_gt; unfold fmt_prec_max]; lia. Qed.

(* capping at c what is capped at q <= c anyway: the same cap, the same padding in all *)
Lemma min_min_cap (p c q : N) : q <= c ->
  N.min (N.min p c) q = N.min p q /\ N.min p c - N.min p q + (p - N.min p c) = p - N.min p q.
Proof. lia. Qed.

Lemma fixed_parts_cap m e p cmax : (Z.max (- e) 0 <= Z.of_N cmax)%Z ->
  let c := N.min p cmax in
  fixed_parts m e p = (fst (fixed_parts m e c), snd (fixed_parts m e c) ++ repeatN 48 (p - c)).
Proof.
  intros Hc. unfold fixed_parts, ch_0. cbv zeta.
  destruct (min_min_cap p cmax (Z.to_N (Z.max (- e) 0)) ltac:(lia)) as [-> Hz].
  cbn [fst snd]. rewrite <- app_assoc, <- repeatN_add, Hz. reflexivity.
Qed.

Lemma fixed_string_cap m e prec : (- 65535 <= e)%Z ->
  fixed_string m e (N.min prec fmt_prec_max) ++ repeatN 48 (prec - N.min prec fmt_prec_max) =
  fixed_string m e prec.
Proof.
  intros He. unfold fixed_string.
  rewrite (fixed_parts_cap m e prec fmt_prec_max) by (unfold fmt_prec_max; lia). cbv zeta.
  destruct (fixed_parts m e (N.min prec fmt_prec_max)) as [ip fp]. cbn [fst snd].
  destruct (N.eqb_spec prec 0) as [->|Hp]; [apply app_nil_r|].
  replace (N.min prec fmt_prec_max =? 0) with false by (symmetry; apply N.eqb_neq; unfold fmt_prec_max; lia).
  rewrite <- app_assoc. reflexivity.
Qed.

Lemma capped_fixed_finite s m e prec : (- 65535 <= e)%Z ->
  capped_fixed (S754_finite s m e) prec = Ok (fixed_string (Z.pos m) e prec).
Proof.
  intros He. unfold capped_fixed, fmt_fixed. cbv zeta. rewrite (proj1 (prec_cap_ok prec)).
  cbn [obind]. f_equal. apply fixed_string_cap. exact He.
Qed.

Lemma capped_fixed_zero s prec :
  capped_fixed (S754_zero s) prec = Ok (fixed_string 0 0 prec).
Proof.
  unfold capped_fixed, fmt_fixed. cbv zeta. rewrite (proj1 (prec_cap_ok prec)).
  cbn [obind]. f_equal. apply fixed_string_cap. lia.
Qed.

Lemma render_float_def_digits value prec zp plus blank ensure_pt trim :
  render_float_def value prec zp plus blank ensure_pt trim =
  do d <- capped_fixed (f_abs value) prec;
  Ok (decorate_digits
        (if (prec =? 0) && ensure_pt then d ++ [46]
         else if negb (prec =? 0) && trim then
                (if ensure_pt then trim_end_zeros d else strip_dot_suffix (trim_end_zeros d))
              else d)
        (is_neg value) zp 0 plus blank).
Proof.
  unfold render_float_def, capped_fixed. cbv zeta.
  destruct (fmt_fixed (f_abs value) (N.min prec fmt_prec_max)); reflexivity.
Qed.

(* %f digits: for every finite double (any exponent a binary64 can have) and EVERY
   precision, the digit string is ip[.fp] with exactly prec fraction digits and
   ip.fp is the exact binary value rounded half-even at that precision *)
Lemma fixed_digits_correct s m e prec : (- 65535 <= e)%Z ->
  exists ip fp,
    capped_fixed (S754_finite s m e) prec = Ok (if prec =? 0 then ip else ip ++ 46 :: fp) /\
    lenN fp = prec /\ 1 <= lenN ip /\ all_digits (ip ++ fp) /\
    is_rhe (Z.of_N (str_value (ip ++ fp)))
           (Z.pos m * 2 ^ (Z.max e 0) * 10 ^ (Z.of_N prec)) (2 ^ (Z.max (- e) 0)).
Proof.
  intros He. rewrite capped_fixed_finite by exact He. unfold fixed_string.
  pose proof (fixed_parts_correct (Z.pos m) e prec ltac:(lia)) as H.
  destruct (fixed_parts (Z.pos m) e prec) as [ip fp].
  destruct H as (H1 & H2 & H3 & H4).
  exists ip, fp. rewrite H4. repeat (split; [assumption || reflexivity|]).
  apply scaled_rhe_is_rhe; lia.
Qed.

Lemma render_float_def_shape x prec zp pl bl en tr :
  f_is_finite x = true ->
  exists d, render_float_def x prec zp pl bl en tr = Ok (decorate_digits d (is_neg x) zp 0 pl bl).
Proof.
  intros Hf. rewrite render_float_def_digits. unfold capped_fixed, fmt_fixed. cbv zeta.
  rewrite (proj1 (prec_cap_ok prec)).
  destruct x; cbn in Hf; try discriminate; cbn [f_abs SFabs obind]; eexists; reflexivity.
Qed.

Local Open Scope Z_scope.

(* 10^j as a fraction pa j / pb j, for any integer j *)
Definition pa (j : Z) : Z := 10 ^ (Z.max j 0).
Definition pb (j : Z) : Z := 10 ^ (Z.max (- j) 0).

Lemma pa_pos j : 0 < pa j. Proof. apply pow10_pos; lia. Qed.
Lemma pb_pos j : 0 < pb j. Proof. apply pow10_pos; lia. Qed.

(* 10^(i+j) = 10^i * 10^j, on fractions *)
Lemma pab_law i j : pa (i + j) * pb i * pb j = pa i * pa j * pb (i + j).
Proof. unfold pa, pb. rewrite <- !Z.pow_add_r by lia. f_equal. lia. Qed.

Lemma pa_nonneg j : 0 <= j -> pa j = 10 ^ j /\ pb j = 1.
Proof. intros. unfold pa, pb. rewrite Z.max_l, Z.max_r by lia. split; reflexivity. Qed.

(* 10^j <= num/den   and   num/den < 10^j *)
Definition le_p10 (j num den : Z) : Prop := pa j * den <= num * pb j.
Definition lt_p10 (num den j : Z) : Prop := num * pb j < pa j * den.
Definition bracket (E num den : Z) : Prop := le_p10 E num den /\ lt_p10 num den (E + 1).

Lemma bracket_nonneg r num den : 0 <= r ->
  bracket r num den <-> 10 ^ r * den <= num < 10 ^ (r + 1) * den.
Proof.
  intros Hr. unfold bracket, le_p10, lt_p10.
  destruct (pa_nonneg r Hr) as (-> & ->). destruct (pa_nonneg (r + 1) ltac:(lia)) as (-> & ->).
  rewrite !Z.mul_1_r. reflexivity.
Qed.

Lemma pow_2_le_10 a : 0 <= a -> 2 ^ a <= 10 ^ a.
Proof. intros. apply Z.pow_le_mono_l. lia. Qed.

Lemma search_up_spec : forall fuel n pw k,
  0 <= k -> pw = 10 ^ k -> pw <= n -> n < 10 ^ (k + Z.of_nat fuel) ->
  let r := search_up fuel n pw k in k <= r /\ 10 ^ r <= n < 10 ^ (r + 1).
Proof.
  induction fuel as [|f IH]; intros n pw k Hk Hpw Hle Hlt; cbn [search_up].
  - cbn in Hlt. rewrite Z.add_0_r in Hlt. lia.
  - destruct (n <? pw * 10) eqn:E.
    + apply Z.ltb_lt in E. subst pw. rewrite Z.pow_add_r, Z.pow_1_r by lia. lia.
    + apply Z.ltb_ge in E.
      assert (H10 : pw * 10 = 10 ^ (k + 1)) by (subst pw; rewrite Z.pow_add_r, Z.pow_1_r by lia; reflexivity).
      specialize (IH n (pw * 10) (k + 1) ltac:(lia) H10 E).
      replace (k + 1 + Z.of_nat f) with (k + Z.of_nat (S f)) in IH by lia.
      specialize (IH Hlt). cbv zeta in IH. lia.
Qed.

Lemma search_up_top n : 1 <= n ->
  let r := search_up (S (Z.to_nat (Z.log2 n))) n 1 0 in 0 <= r /\ 10 ^ r <= n < 10 ^ (r + 1).
Proof.
  intros Hn. apply search_up_spec; try lia; try reflexivity.
  rewrite Z.add_0_l, Nat2Z.inj_succ, Z2Nat.id by apply Z.log2_nonneg.
  pose proof (Z.log2_spec n ltac:(lia)) as [_ H].
  pose proof (pow_2_le_10 (Z.succ (Z.log2 n)) ltac:(pose proof (Z.log2_nonneg n); lia)). lia.
Qed.

Lemma search_dn_spec : forall fuel mm q k,
  0 <= k -> 0 < mm -> mm < q -> q <= mm * 10 ^ Z.of_nat fuel ->
  let r := search_dn fuel mm q k in
  exists j, r = k + j /\ 1 <= j /\ mm * 10 ^ (j - 1) < q <= mm * 10 ^ j.
Proof.
  induction fuel as [|f IH]; intros mm q k Hk Hm Hlt Hq; cbn [search_dn].
  - cbn in Hq. lia.
  - destruct (q <=? mm * 10) eqn:E.
    + apply Z.leb_le in E. exists 1. cbn. lia.
    + apply Z.leb_gt in E.
      assert (Hq' : q <= mm * 10 * 10 ^ Z.of_nat f).
      { rewrite Nat2Z.inj_succ, Z.pow_succ_r in Hq by lia. lia. }
      destruct (IH (mm * 10) q (k + 1) ltac:(lia) ltac:(lia) E Hq') as (j & Hr & Hj & Hb).
      exists (j + 1). split; [cbv zeta in Hr; lia|]. split; [lia|].
      replace (j + 1 - 1) with (1 + (j - 1)) by lia. replace (j + 1) with (1 + j) by lia.
      rewrite !Z.pow_add_r, Z.pow_1_r by lia. lia.
Qed.

(* the decimal exponent found by the model is THE integer E with 10^E <= m*2^e < 10^(E+1) *)
Lemma ilog10_bracket m e : 0 < m ->
  bracket (ilog10 m e) (m * 2 ^ Z.max e 0) (2 ^ Z.max (- e) 0).
Proof.
  intros Hm. unfold ilog10.
  destruct (0 <=? e) eqn:He.
  - apply Z.leb_le in He. rewrite (Z.max_l e 0), (Z.max_r (- e) 0) by lia.
    rewrite Z.pow_0_r. cbv zeta.
    assert (Hn : 1 <= m * 2 ^ e) by (pose proof (pow2_pos e He); nia).
    destruct (search_up_top _ Hn) as (Hr & Hb). apply bracket_nonneg; [exact Hr|]. lia.
  - apply Z.leb_gt in He. rewrite (Z.max_r e 0), (Z.max_l (- e) 0) by lia.
    rewrite Z.pow_0_r, Z.mul_1_r. cbv zeta.
    assert (Hq : 0 < 2 ^ (- e)) by (apply pow2_pos; lia). set (q := 2 ^ (- e)) in *.
    destruct (q <=? m) eqn:Hqm.
    + apply Z.leb_le in Hqm.
      assert (Hn : 1 <= m / q) by (apply Z.div_le_lower_bound; lia).
      destruct (search_up_top _ Hn) as (Hr & Hb). apply bracket_nonneg; [exact Hr|].
      set (r := search_up _ _ _ _) in *.
      pose proof (Z.div_mod m q ltac:(lia)) as Hdm. pose proof (Z.mod_pos_bound m q Hq) as Hmod.
      split; nia.
    + apply Z.leb_gt in Hqm.
      assert (Hfuel : q <= m * 10 ^ Z.of_nat (Z.to_nat (- e))).
      { rewrite Z2Nat.id by lia. pose proof (pow_2_le_10 (- e) ltac:(lia)).
        pose proof (pow10_pos (- e) ltac:(lia)). unfold q. nia. }
      destruct (search_dn_spec _ m q 0 ltac:(lia) Hm Hqm Hfuel) as (j & Hr & Hj & Hb).
      cbv zeta in Hr. rewrite Hr. replace (0 + j) with j by lia.
      unfold bracket, le_p10, lt_p10, pa, pb.
      rewrite (Z.max_r (- j) 0), (Z.max_l (- - j) 0), (Z.max_r (- j + 1) 0), (Z.max_l (- (- j + 1)) 0) by lia.
      rewrite Z.pow_0_r. replace (- - j) with j by lia. replace (- (- j + 1)) with (j - 1) by lia. lia.
Qed.

Lemma pab_mono i j : i <= j -> pa i * pb j <= pa j * pb i.
Proof.
  intros H. unfold pa, pb. rewrite <- !Z.pow_add_r by lia.
  apply Z.pow_le_mono_r; lia.
Qed.

Lemma bracket_unique E1 E2 num den : 0 < den -> bracket E1 num den -> bracket E2 num den -> E1 = E2.
Proof.
  assert (H : forall a b, 0 < den -> le_p10 b num den -> lt_p10 num den (a + 1) -> b < a + 1).
  { intros a b Hd Hle Hlt. destruct (Z.lt_ge_cases b (a + 1)) as [|Hge]; [assumption|exfalso].
    unfold le_p10, lt_p10 in *.
    pose proof (pab_mono (a + 1) b Hge) as Hm.
    pose proof (pa_pos b). pose proof (pb_pos b). pose proof (pa_pos (a + 1)). pose proof (pb_pos (a + 1)).
    assert (num * pb (a + 1) * pb b < pa (a + 1) * den * pb b) by nia.
    assert (pa (a + 1) * pb b * den <= pa b * pb (a + 1) * den) by nia.
    assert (pa b * den * pb (a + 1) <= num * pb b * pb (a + 1)) by nia.
    nia. }
  intros Hd [L1 U1] [L2 U2].
  pose proof (H E1 E2 Hd L2 U1). pose proof (H E2 E1 Hd L1 U2). lia.
Qed.

(* ds (p+1 digits, first one non-zero) and E are the scientific rendering of m*2^e at
   precision p: the integer ds is (m*2^e) / 10^(E-p) rounded to nearest, ties to even *)
Definition exp_correct (m e : Z) (p : N) (ds : str) (E : Z) : Prop :=
  lenN ds = (p + 1)%N /\ all_digits ds /\
  10 ^ Z.of_N p <= Z.of_N (str_value ds) < 10 ^ (Z.of_N p + 1) /\
  is_rhe (Z.of_N (str_value ds))
         (m * 2 ^ Z.max e 0 * pa (Z.of_N p - E)) (2 ^ Z.max (- e) 0 * pb (Z.of_N p - E)).

Lemma scaled_rhe_pab m e k :
  scaled_rhe m e k = rhe (m * 2 ^ Z.max e 0 * pa k) (2 ^ Z.max (- e) 0 * pb k).
Proof. reflexivity. Qed.

Lemma digits_then_zeros D q z :
  10 ^ Z.of_N q <= D < 10 ^ (Z.of_N q + 1) ->
  let ds := dec_digits (Z.to_N D) ++ repeatN 48 z in
  lenN ds = (q + z + 1)%N /\ all_digits ds /\ Z.of_N (str_value ds) = D * 10 ^ Z.of_N z /\
  10 ^ Z.of_N (q + z) <= Z.of_N (str_value ds) < 10 ^ (Z.of_N (q + z) + 1).
Proof.
  intros [Hlo Hhi]. cbv zeta.
  assert (HD : 0 <= D) by (pose proof (pow10_pos (Z.of_N q) ltac:(lia)); lia).
  destruct (str_value_dec_digits (Z.to_N D)) as (Hv & Hall & _).
  assert (Hlen : lenN (dec_digits (Z.to_N D)) = (q + 1)%N).
  { apply dec_digits_len. split.
    - apply N2Z.inj_le. rewrite N2Z.inj_pow, Z2N.id by lia. exact Hlo.
    - apply N2Z.inj_lt. rewrite N2Z.inj_pow, Z2N.id, N2Z.inj_add by lia. exact Hhi. }
  assert (Hval : Z.of_N (str_value (dec_digits (Z.to_N D) ++ repeatN 48 z)) = D * 10 ^ Z.of_N z).
  { rewrite str_value_trail_zeros, Hv, N2Z.inj_mul, N2Z.inj_pow, Z2N.id by lia. reflexivity. }
  pose proof (pow10_pos (Z.of_N z) ltac:(lia)) as Hz.
  repeat split.
  - rewrite lenN_app, lenN_repeatN, Hlen. lia.
  - apply all_digits_app; [exact Hall|apply all_digits_zeros].
  - exact Hval.
  - rewrite Hval, N2Z.inj_add, Z.pow_add_r by lia. apply Z.mul_le_mono_pos_r; assumption.
  - rewrite Hval, N2Z.inj_add, (Z.add_shuffle0 _ _ 1), Z.pow_add_r by lia.
    apply Z.mul_lt_mono_pos_r; assumption.
Qed.

(* scaling numerator and denominator by 10^j moves the exponent by j *)
Lemma le_p10_scale i j num den : le_p10 (i + j) (num * pa j) (den * pb j) <-> le_p10 i num den.
Proof.
  unfold le_p10.
  pose proof (pa_pos j). pose proof (pb_pos i). pose proof (pb_pos (i + j)).
  rewrite (Z.mul_le_mono_pos_r (pa i * den) _ (pa j * pb (i + j))) by lia.
  rewrite (Z.mul_le_mono_pos_r (pa (i + j) * _) _ (pb i)) by assumption.
  replace (pa (i + j) * (den * pb j) * pb i) with (pa (i + j) * pb i * pb j * den) by ring.
  rewrite pab_law.
  replace (pa i * pa j * pb (i + j) * den) with (pa i * den * (pa j * pb (i + j))) by ring.
  replace (num * pa j * pb (i + j) * pb i) with (num * pb i * (pa j * pb (i + j))) by ring.
  reflexivity.
Qed.

Lemma bracket_scale E j num den : bracket E num den -> bracket (E + j) (num * pa j) (den * pb j).
Proof.
  unfold bracket, lt_p10. rewrite <- !Z.nle_gt. fold (le_p10 (E + 1) num den).
  fold (le_p10 (E + j + 1) (num * pa j) (den * pb j)).
  replace (E + j + 1) with (E + 1 + j) by lia. rewrite !le_p10_scale. auto.
Qed.

(* a value within half a unit of 10*D, one digit further on, is within a twentieth of D *)
Lemma is_rhe_tenth D n d n' d' : 0 < d -> 0 < d' -> n * d' = 10 * n' * d ->
  2 * Z.abs (10 * D * d - n) <= d -> is_rhe D n' d'.
Proof.
  intros Hd Hd' Hfrac Herr.
  assert (E : 10 * (D * d' - n') * d = (10 * D * d - n) * d') by lia.
  apply (f_equal Z.abs) in E. rewrite !Z.abs_mul, (Z.abs_eq d), (Z.abs_eq d') in E by lia.
  change (Z.abs 10) with 10 in E.
  assert (H : 20 * Z.abs (D * d' - n') <= d').
  { apply (Z.mul_le_mono_pos_r _ _ d Hd). nia. }
  unfold is_rhe. split; [lia|intros; exfalso; lia].
Qed.

(* x = num/den in [10^E, 10^(E+1)), shown with q+1 significant digits *)
Lemma round_sci E num den q : 0 < num -> 0 < den -> 0 <= q -> bracket E num den ->
  let D := rhe (num * pa (q - E)) (den * pb (q - E)) in
  10 ^ q <= D <= 10 ^ (q + 1) /\
  is_rhe D (num * pa (q - E)) (den * pb (q - E)) /\
  (D = 10 ^ (q + 1) -> is_rhe (10 ^ q) (num * pa (q - (E + 1))) (den * pb (q - (E + 1)))).
Proof.
  intros Hn Hd Hq HB. cbv zeta. set (k := q - E).
  pose proof (pa_pos k). pose proof (pb_pos k).
  assert (HN : 0 <= num * pa k) by nia. assert (HD : 0 < den * pb k) by nia.
  destruct (rhe_correct _ _ HN HD) as (Hrhe & _).
  pose proof (bracket_scale E k num den HB) as HB'. replace (E + k) with q in HB' by (unfold k; lia).
  apply bracket_nonneg in HB' as [L U]; [|exact Hq].
  split; [apply rhe_bounds; lia|]. split; [exact Hrhe|].
  intros HDeq. destruct Hrhe as [Herr _]. rewrite HDeq in Herr.
  replace (q - (E + 1)) with (k - 1) by (unfold k; lia).
  pose proof (pb_pos (k - 1)).
  apply (is_rhe_tenth _ (num * pa k) (den * pb k)); [assumption|nia| |].
  - pose proof (pab_law (k - 1) 1) as P. replace (k - 1 + 1) with k in P by lia.
    change (pb 1) with 1 in P. change (pa 1) with 10 in P. nia.
  - rewrite Z.pow_add_r, Z.pow_1_r in Herr by lia.
    replace (10 * 10 ^ q * (den * pb k)) with (10 ^ q * 10 * (den * pb k)) by ring. exact Herr.
Qed.

(* computed at the capped precision p' and padded with z zeros, the digits are the rounding
   at p = p' + z itself (scaled_rhe_capped); round_sci at p' gives the range of D0 and so
   the carry test, at p the statement; the exponent moves only with a carry *)
Lemma exp_parts_spec m e p : 0 < m ->
  let '(ds, E) := exp_parts m e p in
  exp_correct m e p ds E /\
  (E = ilog10 m e \/ (E = ilog10 m e + 1 /\ Z.of_N (str_value ds) = 10 ^ Z.of_N p)).
Proof.
  intros Hm. unfold exp_parts, ch_0, exp_correct. cbv zeta.
  pose proof (ilog10_bracket m e Hm) as HB. set (E0 := ilog10 m e) in *.
  set (cap := Z.to_N (Z.max (E0 + Z.max (- e) 0) 0)).
  pose proof (scaled_rhe_capped m e E0 cap p ltac:(lia)) as Hcap.
  set (p' := N.min p cap) in *. set (z := (p - p')%N) in *.
  assert (Hp : p = (p' + z)%N) by (unfold z, p'; rewrite N.add_comm; symmetry; apply N.sub_add, N.le_min_l).
  clearbody z p'. subst p.
  assert (Hnum : 0 < m * 2 ^ Z.max e 0) by (apply Z.mul_pos_pos; [exact Hm|apply pow2_pos; lia]).
  assert (Hden : 0 < 2 ^ Z.max (- e) 0) by (apply pow2_pos; lia).
  destruct (round_sci E0 _ _ (Z.of_N p') Hnum Hden (N2Z.is_nonneg _) HB) as ([Hlo Hhi] & _ & _).
  destruct (round_sci E0 _ _ (Z.of_N (p' + z)) Hnum Hden (N2Z.is_nonneg _) HB) as (_ & Hr & Hc).
  rewrite <- scaled_rhe_pab in *. rewrite Hcap in Hr, Hc.
  set (D0 := scaled_rhe m e (Z.of_N p' - E0)) in *.
  destruct (Z.leb_spec (10 ^ (Z.of_N p' + 1)) D0) as [Hcarry|Hcarry].
  - (* D0 = 10^(p'+1), shown as 1 0...0 with the exponent one up *)
    destruct (digits_then_zeros (10 ^ Z.of_N p') p' z) as (L1 & L2 & L3 & L4).
    { split; [reflexivity|apply Z.pow_lt_mono_r; lia]. }
    rewrite L3, <- Z.pow_add_r, <- N2Z.inj_add in * by apply N2Z.is_nonneg.
    split; [|right; split; reflexivity]. refine (conj L1 (conj L2 (conj L4 _))). apply Hc.
    replace D0 with (10 ^ (Z.of_N p' + 1)) by lia. rewrite <- Z.pow_add_r by lia. f_equal. lia.
  - destruct (digits_then_zeros D0 p' z (conj Hlo Hcarry)) as (L1 & L2 & L3 & L4).
    split; [|left; reflexivity]. refine (conj L1 (conj L2 (conj L4 _))). rewrite L3. exact Hr.
Qed.

Local Open Scope N_scope.

(* the (digits, exponent) render_float_exp works with: the formatter at a capped
   precision, then zeros appended to the mantissa digits (/repo a32ed0a + 913b069) *)
Definition capped_exp (x : f64) (prec : N) : res (str * Z) :=
  let fmt_prec := N.min prec (fmt_prec_max - 1) in
  do de <- fmt_exp x fmt_prec; Ok (fst de ++ repeatN 48 (prec - fmt_prec), snd de).

Lemma exp_parts_cap m e p cmax :
  (Z.max (ilog10 m e + Z.max (- e) 0) 0 <= Z.of_N cmax)%Z ->
  let c := N.min p cmax in
  exp_parts m e p = (fst (exp_parts m e c) ++ repeatN 48 (p - c), snd (exp_parts m e c)).
Proof.
  intros Hc. unfold exp_parts, ch_0. cbv zeta.
  set (q := Z.to_N (Z.max (ilog10 m e + Z.max (- e) 0) 0)).
  destruct (min_min_cap p cmax q ltac:(lia)) as [-> Hz].
  destruct (10 ^ (Z.of_N (N.min p q) + 1) <=? scaled_rhe m e (Z.of_N (N.min p q) - ilog10 m e))%Z;
    cbn [fst snd]; rewrite <- app_assoc, <- repeatN_add, Hz; reflexivity.
Qed.

Lemma ilog10_upper m e : (0 < m < 2 ^ 53)%Z -> (ilog10 m e < 53 + Z.max e 0)%Z.
Proof.
  intros [Hm Hm53]. pose proof (ilog10_bracket m e Hm) as HB.
  set (E := ilog10 m e) in *.
  destruct (Z.lt_ge_cases E (53 + Z.max e 0)) as [|Hge]; [assumption|exfalso].
  apply bracket_nonneg in HB as [HB _]; [|lia].
  assert (H1 : (10 ^ (53 + Z.max e 0) <= 10 ^ E)%Z) by (apply Z.pow_le_mono_r; lia).
  assert (H2 : (2 ^ (53 + Z.max e 0) <= 10 ^ (53 + Z.max e 0))%Z) by (apply pow_2_le_10; lia).
  rewrite Z.pow_add_r in H2 by lia.
  pose proof (pow2_pos (Z.max e 0) ltac:(lia)). pose proof (pow2_pos (Z.max (- e) 0) ltac:(lia)).
  assert (m * 2 ^ Z.max e 0 < 2 ^ 53 * 2 ^ Z.max e 0)%Z by (apply Z.mul_lt_mono_pos_r; lia).
  assert (10 ^ E <= 10 ^ E * 2 ^ Z.max (- e) 0)%Z by (apply Z.le_mul_diag_r; [apply pow10_pos|]; lia).
  lia.
Qed.

Lemma capped_exp_finite s m e prec :
  (Z.pos m < 2 ^ 53)%Z -> (- 65000 <= e <= 65000)%Z ->
  capped_exp (S754_finite s m e) prec = Ok (exp_parts (Z.pos m) e prec).
Proof.
  intros Hm He. unfold capped_exp, fmt_exp. cbv zeta. rewrite (proj2 (prec_cap_ok prec)).
  cbn [obind]. f_equal. symmetry. apply exp_parts_cap.
  pose proof (ilog10_upper (Z.pos m) e ltac:(lia)). unfold fmt_prec_max. lia.
Qed.

Lemma render_float_exp_digits value prec zp plus blank ensure_pt trim uppercase :
  render_float_exp value prec zp plus blank ensure_pt trim uppercase =
  do de <- capped_exp (f_abs value) prec;
  let ds := fst de in
  let mant := match ds with d0 :: rest => if prec =? 0 then [d0] else d0 :: 46 :: rest | [] => [] end in
  let mant := if negb (prec =? 0) && trim
              then (if ensure_pt then trim_end_zeros mant else strip_dot_suffix (trim_end_zeros mant))
              else mant in
  Ok (decorate_digits
        (mant ++ (if (prec =? 0) && ensure_pt then [46] else []) ++
         (if uppercase then 69 else 101) :: exp_suffix (snd de))
        (is_neg value) zp 0 plus blank).
Proof.
  unfold render_float_exp, capped_exp. cbv zeta.
  destruct (fmt_exp (f_abs value) (N.min prec (fmt_prec_max - 1))) as [[ds E]| | |]; reflexivity.
Qed.

(* %e digits: for every binary64 value m*2^e > 0 and EVERY precision, the p+1 digits and
   the exponent E handed to the decoration are the correctly rounded (half-even)
   scientific rendering: 10^p <= ds < 10^(p+1) and ds = m*2^e / 10^(E-p) rounded *)
Lemma exp_digits_correct s m e prec :
  (Z.pos m < 2 ^ 53)%Z -> (- 65000 <= e <= 65000)%Z ->
  exists ds E, capped_exp (S754_finite s m e) prec = Ok (ds, E) /\ exp_correct (Z.pos m) e prec ds E.
Proof.
  intros Hm He. rewrite (capped_exp_finite s m e prec Hm He).
  pose proof (exp_parts_spec (Z.pos m) e prec ltac:(lia)) as H.
  destruct (exp_parts (Z.pos m) e prec) as [ds E]. exists ds, E. split; [reflexivity|apply H].
Qed.

(* and the exponent: before rounding, E0 = ilog10 is the unique integer with
   10^E0 <= m*2^e < 10^(E0+1); the rendered E is E0, or E0+1 exactly when the digits
   round up to 10^(p+1) (then ds = 10^p) *)
Lemma exp_exponent_after_carry m e p : (0 < m)%Z ->
  let '(ds, E) := exp_parts m e p in
  let E0 := ilog10 m e in
  bracket E0 (m * 2 ^ Z.max e 0) (2 ^ Z.max (- e) 0) /\
  (E = E0 \/ (E = E0 + 1 /\ Z.of_N (str_value ds) = 10 ^ Z.of_N p))%Z.
Proof.
  intros Hm. pose proof (exp_parts_spec m e p Hm) as H.
  destruct (exp_parts m e p) as [ds E]. split; [apply ilog10_bracket; exact Hm|apply H].
Qed.

Lemma render_float_exp_shape x prec zp pl bl en tr up :
  f_is_finite x = true ->
  exists d, render_float_exp x prec zp pl bl en tr up = Ok (decorate_digits d (is_neg x) zp 0 pl bl).
Proof.
  intros Hf. rewrite render_float_exp_digits. unfold capped_exp, fmt_exp. cbv zeta.
  rewrite (proj2 (prec_cap_ok prec)).
  destruct x; cbn in Hf; try discriminate; cbn [f_abs SFabs obind]; eexists; reflexivity.
Qed.

(* which rendering %g / %G selects, as coded: P = the precision (6 when absent),
   X = 0 for zero, else floor(libm log10 |x|); the %e renderer with precision
   max(P,1)-1 when X < -4 or 0 <= X /\ P <= X, else the %f renderer with precision
   P -. (1 if |x| < 1 else the number of digits of trunc|x|); trailing zeros (and a
   bare point) are dropped unless # is given, and # forces the point *)
Lemma g_selects lf c fwv precv x :
  (ctype c = CGLower \/ ctype c = CGUpper) ->
  let fl := flags c in
  let P := match prec c with Some _ => precv | None => 6 end in
  let X := if f_is_zero x then 0%Z else lf (f_abs x) in
  let zp := if fl_zero fl && negb (fl_left fl) then fwv else 0 in
  do_format_code lf c fwv precv (VNum x) =
  if (X <? -4)%Z || ((0 <=? X)%Z && (Z.of_N P <=? X)%Z) then
    render_float_exp x (N.max P 1 - 1) zp (fl_plus fl) (fl_blank fl) (fl_alt fl) (negb (fl_alt fl))
                     (conv_eqb (ctype c) CGUpper)
  else
    render_float_def x
      (P - (if f_ltb (f_abs x) f_one then 1
            else match trunc_mag x with
                 | Some mag => lenN (display_int mag)
                 | None => lenN (display_abs (f_abs x)) end))
      zp (fl_plus fl) (fl_blank fl) (fl_alt fl) (negb (fl_alt fl)).
Proof.
  intros Hc. cbv zeta. unfold do_format_code. cbv zeta.
  destruct Hc as [Hc|Hc]; rewrite Hc; cbn [need_num obind]; destruct (prec c); reflexivity.
Qed.

(* %g %G, whatever libm's log10 says: the result is a decorated digit string — sign
   only for negative non-zero values, and never shorter than the zero-pad width — of
   the %e renderer (precision max(P,1)-1) when the exponent is < -4 or >= P, else of
   the %f renderer (precision P minus the digits before the point) *)
Lemma g_shape lf c fwv precv x :
  (ctype c = CGLower \/ ctype c = CGUpper) -> f_is_finite x = true ->
  exists d, do_format_code lf c fwv precv (VNum x) =
            Ok (decorate_digits d (is_neg x)
                  (if fl_zero (flags c) && negb (fl_left (flags c)) then fwv else 0) 0
                  (fl_plus (flags c)) (fl_blank (flags c))).
Proof.
  intros Hc Hf. pose proof (g_selects lf c fwv precv x Hc) as H. cbv zeta in H. rewrite H.
  destruct (_ || _); [apply render_float_exp_shape|apply render_float_def_shape]; exact Hf.
Qed.

Lemma trim_end_zeros_spec s : exists k, s = trim_end_zeros s ++ repeatN 48 k.
Proof.
  induction s as [|c r IH]; [exists 0; reflexivity|].
  destruct IH as (k & Hk). cbn [trim_end_zeros].
  destruct (trim_end_zeros r) as [|t0 t] eqn:Et.
  - cbn [app] in Hk. destruct (c =? 48) eqn:Ec.
    + apply N.eqb_eq in Ec. subst c. exists (N.succ k). rewrite repeatN_succ, <- Hk. reflexivity.
    + exists k. cbn [app]. rewrite <- Hk. reflexivity.
  - exists k. cbn [app]. rewrite Hk at 1. reflexivity.
Qed.

Lemma trim_point ip fp : trim_end_zeros (ip ++ 46 :: fp) = ip ++ 46 :: trim_end_zeros fp.
Proof.
  induction ip as [|a ip IH]; cbn [app trim_end_zeros].
  - destruct (trim_end_zeros fp); reflexivity.
  - rewrite IH. destruct ip; reflexivity.
Qed.

Lemma strip_dot_cons a r : r <> [] -> strip_dot_suffix (a :: r) = a :: strip_dot_suffix r.
Proof. destruct r; [contradiction|reflexivity]. Qed.

Lemma strip_dot_snoc s c : strip_dot_suffix (s ++ [c]) = if c =? 46 then s else s ++ [c].
Proof.
  induction s as [|a s IH]; [reflexivity|].
  cbn [app]. rewrite strip_dot_cons by (destruct s; discriminate). rewrite IH.
  destruct (c =? 46); reflexivity.
Qed.

(* what %g (without #) shows of a fixed rendering ip.fp: the fraction without its trailing
   zeros, no point when nothing is left — the number denoted is unchanged *)
Lemma g_trim_keeps_value ip fp : all_digits fp ->
  exists fp' k,
    fp = fp' ++ repeatN 48 k /\
    strip_dot_suffix (trim_end_zeros (ip ++ 46 :: fp)) =
      (match fp' with [] => ip | _ => ip ++ 46 :: fp' end) /\
    str_value (ip ++ fp) = str_value (ip ++ fp') * 10 ^ k.
Proof.
  intros Hall. destruct (trim_end_zeros_spec fp) as (k & Hk).
  exists (trim_end_zeros fp), k. split; [exact Hk|]. split.
  - rewrite trim_point.
    destruct (trim_end_zeros fp) as [|t0 t] eqn:Et.
    + apply (strip_dot_snoc ip 46).
    + destruct (@exists_last _ (t0 :: t) ltac:(discriminate)) as (f & c & Hf). rewrite Hf.
      change (ip ++ 46 :: f ++ [c]) with (ip ++ (46 :: f) ++ [c]). rewrite app_assoc, strip_dot_snoc.
      (* the last character left is a digit, not the point *)
      rewrite Hk, Hf in Hall. apply Forall_app, proj1, Forall_app, proj2 in Hall. inversion Hall; subst.
      replace (c =? 46) with false by (symmetry; apply N.eqb_neq; lia). reflexivity.
  - rewrite Hk at 1. rewrite app_assoc. apply str_value_trail_zeros.
Qed.

(* where the code deviates from C's %g (the implementation answers the same; Python gives
   "5", "1e+03", "0.000123456"): precision 0 is not treated as 1; the exponent is that of
   the unrounded value; below 1 the fraction keeps P-1 digits, not P significant ones *)
Lemma g_deviations :
  format_run [37; 46; 48; 103] (ASingle (VNum (f_of_Z 5))) = Ok [53; 101; 43; 48; 48] /\
  format_run [37; 46; 51; 103] (ASingle (VNum (f_of_bits 0x408f3f3333333333))) = Ok [49; 48; 48; 48] /\
  format_run [37; 103] (ASingle (VNum (f_of_bits 0x3f202e7ef70994dd))) = Ok [48; 46; 48; 48; 48; 49; 50].
Proof. vm_compute. repeat split. Qed.

Local Open Scope Z_scope.

(* the candidates tried at digit count n *)
Definition cand_lo (m e E n : Z) : Z :=
  (m * 2 ^ (Z.max e 0) * 10 ^ (Z.max (- (E - n + 1)) 0)) / (2 ^ (Z.max (- e) 0) * 10 ^ (Z.max (E - n + 1) 0)).

(* when both neighbours are inside, the closer one, an exact tie going UP (Rust's flt2dec) *)
Lemma shortest_tie_rule f m e E b n :
  let k := E - n + 1 in
  let lo := cand_lo m e E n in
  in_interval m e b lo k = true -> in_interval m e b (lo + 1) k = true ->
  shortest_search (S f) m e E b n =
  if dist m e lo k <? dist m e (lo + 1) k then (lo, k) else (lo + 1, k).
Proof.
  cbv zeta. intros Hlo Hhi. cbn [shortest_search]. fold (cand_lo m e E n).
  rewrite Hlo, Hhi. cbn [andb]. unfold Z.ltb.
  destruct (dist m e (cand_lo m e E n) (E - n + 1) ?= dist m e (cand_lo m e E n + 1) (E - n + 1)); reflexivity.
Qed.

(* the rule implemented: first digit count with a candidate inside the rounding interval
   (i.e. reading back as the same double).
   soundness: unless the 17-digit budget runs out, the digits returned lie inside the
   rounding interval of the double, and no shorter digit string tried before did *)
Lemma shortest_search_sound : forall fuel m e E b n,
  let '(d, k) := shortest_search fuel m e E b n in
  (in_interval m e b d k = true /\
   exists n', n <= n' /\ k = E - n' + 1 /\
     forall j, n <= j < n' ->
       in_interval m e b (cand_lo m e E j) (E - j + 1) = false /\
       in_interval m e b (cand_lo m e E j + 1) (E - j + 1) = false)
  \/ k = E - (n + Z.of_nat fuel) + 1.
Proof.
  induction fuel as [|f IH]; intros m e E b n.
  - cbn [shortest_search]. right. cbn. lia.
  - cbn [shortest_search]. fold (cand_lo m e E n).
    destruct (in_interval m e b (cand_lo m e E n) (E - n + 1)) eqn:Hlo;
    destruct (in_interval m e b (cand_lo m e E n + 1) (E - n + 1)) eqn:Hhi; cbn [andb].
    + destruct (dist m e (cand_lo m e E n) (E - n + 1) ?= dist m e (cand_lo m e E n + 1) (E - n + 1));
        left; (split; [assumption|exists n; repeat split; try lia]).
    + left. split; [assumption|exists n; repeat split; try lia].
    + left. split; [assumption|exists n; repeat split; try lia].
    + specialize (IH m e E b (n + 1)). destruct (shortest_search f m e E b (n + 1)) as [d k].
      destruct IH as [(Hin & n' & Hn' & Hk & Hmin)|Hk].
      * left. split; [assumption|]. exists n'. repeat split; try lia.
        -- destruct (Z.eq_dec j n) as [->|]; [assumption|apply Hmin; lia].
        -- destruct (Z.eq_dec j n) as [->|]; [assumption|apply Hmin; lia].
      * right. lia.
Qed.

(* the tie that raised a false alarm: 10^15 + 1/4 has two 17-digit neighbours at the same
   distance; Rust prints ...000.3 *)
Lemma display_tie_up :
  display (f_of_bits 0x430c6bf526340002) = [49; 48; 48; 48; 48; 48; 48; 48; 48; 48; 48; 48; 48; 48; 48; 48; 46; 51]%N.
Proof. vm_compute. reflexivity. Qed.

Local Open Scope N_scope.

Definition is_parse_err (e : ferr) : bool :=
  match e with
  | ETruncated | EWidthTooLarge | EPrecTooLarge | EMissingPrecDigits | EBadConv _ => true
  | _ => false
  end.

(* a sub-parser result: Ok with a remainder no longer than [n], or a format-string error *)
Definition good {A} (n : nat) (r : res (A * str)) : Prop :=
  match r with
  | Ok (_, t) => (length t <= n)%nat
  | Err e => is_parse_err e = true
  | _ => False
  end.

Lemma find_char_len c s b t : find_char c s = Some (b, t) -> (length t < length s)%nat.
Proof.
  revert b t. induction s as [|a r IH]; intros b t H; cbn [find_char] in H; [discriminate|].
  destruct (a =? c).
  - inversion H; subst. cbn. lia.
  - destruct (find_char c r) as [[b' t']|] eqn:E; [|discriminate].
    inversion H; subst. specialize (IH _ _ eq_refl). cbn. lia.
Qed.

Lemma starts_with_len c s r : starts_with c s = Some r -> (length r < length s)%nat.
Proof.
  destruct s as [|a t]; cbn; [discriminate|]. destruct (a =? c); [|discriminate].
  intros H; inversion H; subst. lia.
Qed.

Lemma parse_mkey_good rem : good (length rem) (parse_mkey rem).
Proof.
  unfold parse_mkey. destruct rem as [|a r]; cbn [good]; [lia|].
  destruct (a =? 40).
  - destruct (find_char 41 r) as [[k t]|] eqn:E; cbn [good]; [|reflexivity].
    apply find_char_len in E. cbn. lia.
  - cbn. lia.
Qed.

Lemma parse_cflags_len fl rem : (length (snd (parse_cflags fl rem)) <= length rem)%nat.
Proof.
  revert fl. induction rem as [|a r IH]; intros fl; cbn [parse_cflags]; [cbn; lia|].
  repeat (match goal with |- context [if ?b then _ else _] => destruct b end;
          [etransitivity; [apply IH|cbn; lia]|]).
  cbn. lia.
Qed.

Lemma take_digits_len rem : (length (snd (take_digits rem)) <= length rem)%nat.
Proof.
  induction rem as [|a r IH]; cbn [take_digits]; [cbn; lia|].
  destruct (is_digit a); [|cbn; lia].
  destruct (take_digits r) as [d t]. cbn in *. lia.
Qed.

Lemma parse_field_width_good rem : good (length rem) (parse_field_width rem).
Proof.
  unfold parse_field_width. destruct (starts_with 42 rem) as [r|] eqn:E.
  - apply starts_with_len in E. cbn. lia.
  - pose proof (take_digits_len rem) as H. destruct (take_digits rem) as [ds t]. cbn [snd] in H.
    destruct ds; [cbn; lia|].
    destruct (u32_max <? _); cbn; [reflexivity|exact H].
Qed.

Lemma parse_prec_good rem : good (length rem) (parse_prec rem).
Proof.
  unfold parse_prec. destruct (starts_with 46 rem) as [rc|] eqn:E; [|cbn; lia].
  apply starts_with_len in E.
  destruct (starts_with 42 rc) as [r|] eqn:E2.
  - apply starts_with_len in E2. cbn. lia.
  - pose proof (take_digits_len rc) as H. destruct (take_digits rc) as [ds t]. cbn [snd] in H.
    destruct ds.
    + destruct rc; cbn; reflexivity.
    + destruct (u32_max <? _); cbn; [reflexivity|lia].
Qed.

Lemma parse_len_mod_len rem : (length (snd (parse_len_mod rem)) <= length rem)%nat.
Proof.
  unfold parse_len_mod.
  destruct (starts_with 104 rem) eqn:E1; [apply starts_with_len in E1; cbn; lia|].
  destruct (starts_with 108 rem) eqn:E2; [apply starts_with_len in E2; cbn; lia|].
  destruct (starts_with 76 rem) eqn:E3; [apply starts_with_len in E3; cbn; lia|].
  cbn. lia.
Qed.

Lemma parse_conv_type_good rem : good (length rem) (parse_conv_type rem).
Proof.
  unfold parse_conv_type. destruct rem as [|c r]; [reflexivity|].
  destruct (conv_of_char c); cbn; [lia|reflexivity].
Qed.

(* sequencing: what follows a good sub-parser sees a remainder no longer than the input *)
Lemma good_bind {A B} n k (x : res (A * str)) (f : A * str -> res (B * str)) :
  good k x -> (k <= n)%nat -> (forall a t, (length t <= k)%nat -> good n (f (a, t))) -> good n (obind x f).
Proof. destruct x as [[a t]|e| |]; cbn; auto; contradiction. Qed.

Lemma parse_code_good rem : good (length rem) (parse_code rem).
Proof.
  unfold parse_code.
  eapply good_bind; [apply parse_mkey_good|lia|intros mk r1 H1].
  pose proof (parse_cflags_len no_flags r1) as H2. destruct (parse_cflags no_flags r1) as [fl r2]. cbn [snd] in H2.
  eapply good_bind; [apply parse_field_width_good|lia|intros w r3 H3].
  eapply good_bind; [apply parse_prec_good|lia|intros p r4 H4].
  pose proof (parse_len_mod_len r4) as H5. destruct (parse_len_mod r4) as [lm r5]. cbn [snd] in H5.
  eapply good_bind; [apply parse_conv_type_good|lia|intros ct r6 H6].
  cbn. lia.
Qed.

Definition parse_outcome_ok (r : res (list part)) : Prop :=
  match r with
  | Ok _ => True
  | Err e => is_parse_err e = true
  | _ => False
  end.

Lemma parse_codes_total : forall fuel rem, (length rem < fuel)%nat -> parse_outcome_ok (parse_codes fuel rem).
Proof.
  induction fuel as [|f IH]; intros rem Hlen; [lia|].
  cbn [parse_codes]. destruct rem as [|a r0] eqn:Erem; [exact I|]. rewrite <- Erem in *.
  destruct (find_char 37 rem) as [[lit r]|] eqn:E; [|exact I].
  apply find_char_len in E.
  pose proof (parse_code_good r) as Hg.
  destruct (parse_code r) as [[c r']|e| |]; cbn [obind good] in *; try assumption.
  assert (Hr' : (length r' < f)%nat) by lia.
  specialize (IH r' Hr').
  destruct (parse_codes f r') as [rest|e| |]; cbn [obind parse_outcome_ok] in *; assumption.
Qed.

(* every format string yields codes or one of the five format-string errors; never a
   panic, never out of fuel *)
Lemma format_parse_total fmt : parse_outcome_ok (parse_format_codes fmt).
Proof. unfold parse_format_codes. apply parse_codes_total. lia. Qed.

Section Machines.
Variable lf : f64 -> Z.

Definition code_needs (c : code) : N :=
  (match fw c with Some FExternal => 1 | _ => 0 end) +
  (match prec c with Some FExternal => 1 | _ => 0 end) +
  (if conv_eqb (ctype c) CPercent then 0 else 1).

Fixpoint needed (parts : list part) : N :=
  match parts with
  | [] => 0
  | PLit _ :: ps => needed ps
  | PCode c :: ps => code_needs c + needed ps
  end.

(* a width or precision slot takes one item of the array when it is a star, else none *)
Lemma take_width_spec w rest used wt rest' used' :
  take_width w rest used = Ok (wt, rest', used') ->
  let k := match w with Some FExternal => 1 | _ => 0 end in
  (exists pre, rest = pre ++ rest' /\ lenN pre = k) /\ used' = used + k.
Proof.
  unfold take_width. destruct w as [[v|]|]; [|destruct rest as [|t r]; [discriminate|]|];
    intros H; inversion H; subst; cbv zeta.
  - split; [exists []; split; reflexivity|lia].
  - split; [exists [t]; split; reflexivity|reflexivity].
  - split; [exists []; split; reflexivity|lia].
Qed.

(* the width a field is padded to: the inline one, or the number the star took *)
Lemma width_slot_value c rest used fwt r1 u1 fwv :
  take_width (fw c) rest used = Ok (fwt, r1, u1) ->
  match fw c with Some _ => eval_width fwt EWidthNotNumber EBadWidthValue | None => Ok 0 end = Ok fwv ->
  (forall v, fw c = Some (FInline v) -> fwv = v) /\
  (forall x t v, fw c = Some FExternal -> rest = VNum x :: t -> try_to_u32 x = Some v -> fwv = v).
Proof.
  unfold take_width. intros H EF. destruct (fw c) as [[w|]|].
  - inversion H; subst. cbn in EF. split; [congruence|discriminate].
  - split; [discriminate|]. intros x t v _ -> Hv. inversion H; subst. cbn in EF. rewrite Hv in EF. congruence.
  - split; discriminate.
Qed.

(* one directive: the items it takes are a prefix of the array, one per * and one for the
   conversion, and its field is at least as wide as the width *)
Lemma array_code_spec c rest used s rest' used' :
  array_code lf c rest used = Ok (s, rest', used') ->
  (exists pre, rest = pre ++ rest' /\ lenN pre = code_needs c) /\ used' = used + code_needs c /\
  (forall v, fw c = Some (FInline v) -> v <= lenN s) /\
  (forall x t v, fw c = Some FExternal -> rest = VNum x :: t -> try_to_u32 x = Some v -> v <= lenN s).
Proof.
  unfold array_code, code_needs. intros H.
  apply obind_ok_inv in H as ([[fwt r1] u1] & E1 & H). apply obind_ok_inv in H as ([[prt r2] u2] & E2 & H).
  apply obind_ok_inv in H as (precv & _ & H). apply obind_ok_inv in H as (fwv & EF & H).
  destruct (width_slot_value _ _ _ _ _ _ _ E1 EF) as (W1 & W2).
  apply take_width_spec in E1 as ((pre1 & R1 & L1) & U1).
  apply take_width_spec in E2 as ((pre2 & R2 & L2) & U2). cbv zeta in *.
  enough (Hs : (exists pre, rest = pre ++ rest' /\ lenN pre = code_needs c) /\ used' = used + code_needs c /\
               exists body, s = field_pad body fwv (fl_left (flags c))).
  { destruct Hs as (Hpre & Hu & body & ->). repeat split; try assumption.
    - intros v Hv. rewrite <- (W1 v Hv). apply pad_reaches_width.
    - intros x t v Hx Hr Hv. rewrite <- (W2 x t v Hx Hr Hv). apply pad_reaches_width. }
  unfold code_needs. destruct (conv_eqb (ctype c) CPercent).
  - inversion H; subst s rest' used'.
    split; [exists (pre1 ++ pre2); rewrite R1, R2, app_assoc, lenN_app; split; [reflexivity|lia]|].
    split; [lia|eexists; reflexivity].
  - destruct r2 as [|item r3]; [discriminate|].
    apply obind_ok_inv in H as (body & _ & H). inversion H; subst s rest' used'.
    split; [exists (pre1 ++ pre2 ++ [item]); rewrite R1, R2, <- !app_assoc, !lenN_app; split; [reflexivity|cbn; lia]|].
    split; [lia|eexists; reflexivity].
Qed.

(* std.format on an array succeeds only when the array has exactly as many items as the
   directives consume (one per conversion other than %%, one per * width, one per * precision) *)
Lemma format_array_count : forall parts rest used s,
  format_array lf parts rest used = Ok s -> lenN rest = needed parts.
Proof.
  induction parts as [|[l|c] ps IH]; intros rest used s H; cbn [format_array needed] in *.
  - destruct rest; [reflexivity|discriminate].
  - apply obind_ok_inv in H as (t & E & _). exact (IH _ _ _ E).
  - apply obind_ok_inv in H as ([[s1 r1] u1] & E1 & H). apply obind_ok_inv in H as (t & E2 & _).
    apply array_code_spec in E1 as ((pre & -> & Hpre) & _).
    apply IH in E2. rewrite lenN_app. lia.
Qed.

(* too many items is reported as such, with the number the directives expected *)
Lemma format_array_too_many : forall parts rest used s,
  format_array lf parts rest used <> Ok s \/ lenN rest = needed parts.
Proof. intros. destruct (format_array lf parts rest used) eqn:E; try (left; congruence). right. eapply format_array_count; eauto. Qed.

Lemma object_code_width c fs s v :
  object_code lf c fs = Ok s -> fw c = Some (FInline v) -> v <= lenN s.
Proof.
  unfold object_code. intros H Hv. rewrite Hv in H. cbn [obind] in H.
  apply obind_ok_inv in H as (pv & _ & H).
  destruct (conv_eqb (ctype c) CPercent).
  - inversion H; subst. apply pad_reaches_width.
  - destruct (mkey c) as [k|]; [|discriminate]. destruct (find_field k fs) as [item|]; [|discriminate].
    apply obind_ok_inv in H as (body & _ & H). inversion H; subst. apply pad_reaches_width.
Qed.

End Machines.

Definition finite_val (v : fval) : Prop :=
  match v with VNum x => f_is_finite x = true | _ => True end.

Definition no_crash {A} (r : res A) : Prop :=
  match r with Ok _ | Err _ => True | _ => False end.

Lemma no_crash_bind {A B} (x : res A) (f : A -> res B) :
  no_crash x -> (forall a, x = Ok a -> no_crash (f a)) -> no_crash (obind x f).
Proof. destruct x; cbn; intros; auto. Qed.

Lemma render_float_def_no_crash x prec zp pl bl en tr :
  f_is_finite x = true -> no_crash (render_float_def x prec zp pl bl en tr).
Proof. intros Hf. destruct (render_float_def_shape x prec zp pl bl en tr Hf) as (d & ->). exact I. Qed.

Lemma render_float_exp_no_crash x prec zp pl bl en tr up :
  f_is_finite x = true -> no_crash (render_float_exp x prec zp pl bl en tr up).
Proof. intros Hf. destruct (render_float_exp_shape x prec zp pl bl en tr up Hf) as (d & ->). exact I. Qed.

Lemma trunc_mag_finite x : f_is_finite x = true -> exists n, trunc_mag x = Some n.
Proof. destruct x; cbn; try discriminate; intros _; eexists; reflexivity. Qed.

(* a numeric conversion rejects what is not a number, and goes on with a finite one *)
Lemma need_num_no_crash {B} k v (f : f64 -> res B) :
  finite_val v -> (forall x, f_is_finite x = true -> no_crash (f x)) -> no_crash (obind (need_num k v) f).
Proof. destruct v; cbn; auto. Qed.

Section NoCrash.
Variable lf : f64 -> Z.

Lemma do_format_code_no_crash c fwv precv v :
  conv_eqb (ctype c) CPercent = false -> finite_val v -> no_crash (do_format_code lf c fwv precv v).
Proof.
  intros Hc Hv. unfold do_format_code. cbv zeta.
  destruct (ctype c); try discriminate Hc; try (apply need_num_no_crash; [exact Hv|intros x Hx]).
  - (* d *) exact I.
  (* o x X: the digit loop ends, the magnitude being that of a finite number *)
  - destruct (trunc_mag_finite x Hx) as (n & ->). exact I.
  - destruct (trunc_mag_finite x Hx) as (n & ->). exact I.
  - destruct (trunc_mag_finite x Hx) as (n & ->). exact I.
  (* e E f F *)
  - apply render_float_exp_no_crash, Hx.
  - apply render_float_exp_no_crash, Hx.
  - apply render_float_def_no_crash, Hx.
  - apply render_float_def_no_crash, Hx.
  (* g G: one of the two, whatever the exponent *)
  - destruct (_ || _); [apply render_float_exp_no_crash|apply render_float_def_no_crash]; exact Hx.
  - destruct (_ || _); [apply render_float_exp_no_crash|apply render_float_def_no_crash]; exact Hx.
  - (* c *) destruct v as [x|s|t sh]; [destruct (try_to_u32 x) as [n|]; [destruct (is_scalar n)|]|destruct (lenN s =? 1)|]; exact I.
  - (* s *) destruct v; exact I.
Qed.

Lemma take_width_no_crash w rest used : no_crash (take_width w rest used).
Proof. unfold take_width. destruct w as [[|]|]; try exact I. destruct rest; exact I. Qed.

Lemma eval_width_no_crash w f b : no_crash (eval_width w f b).
Proof.
  unfold eval_width. destruct w as [|v|[x|s|t sh]]; try exact I.
  destruct (try_to_u32 x); exact I.
Qed.

Lemma array_code_no_crash c rest used :
  Forall finite_val rest -> no_crash (array_code lf c rest used).
Proof.
  intros Hf. unfold array_code.
  apply no_crash_bind; [apply take_width_no_crash|intros [[fwt r1] u1] E1].
  apply no_crash_bind; [apply take_width_no_crash|intros [[prt r2] u2] E2].
  destruct (proj1 (take_width_spec _ _ _ _ _ _ E1)) as (pre1 & -> & _).
  destruct (proj1 (take_width_spec _ _ _ _ _ _ E2)) as (pre2 & -> & _).
  apply Forall_app, proj2, Forall_app, proj2 in Hf.
  apply no_crash_bind; [|intros precv _].
  { destruct (prec c); [destruct (uses_prec (ctype c)); [apply eval_width_no_crash|exact I]|exact I]. }
  apply no_crash_bind; [destruct (fw c); [apply eval_width_no_crash|exact I]|intros fwv _].
  destruct (conv_eqb (ctype c) CPercent) eqn:EC; [exact I|].
  destruct r2 as [|item r3]; [exact I|]. inversion Hf; subst.
  apply no_crash_bind; [apply do_format_code_no_crash; assumption|intros; exact I].
Qed.

Lemma format_array_no_crash : forall parts rest used,
  Forall finite_val rest -> no_crash (format_array lf parts rest used).
Proof.
  induction parts as [|p ps IH]; intros rest used Hf; cbn [format_array].
  - destruct rest; exact I.
  - destruct p as [l|c].
    + apply no_crash_bind; [apply IH; exact Hf|intros; exact I].
    + apply no_crash_bind; [apply array_code_no_crash; exact Hf|intros [[s1 r1] u1] E1].
      destruct (proj1 (array_code_spec lf _ _ _ _ _ _ E1)) as (pre & -> & _).
      apply no_crash_bind; [apply IH; apply Forall_app in Hf; apply Hf|intros; exact I].
Qed.

Lemma find_field_finite k fs v :
  Forall (fun kv => finite_val (snd kv)) fs -> find_field k fs = Some v -> finite_val v.
Proof.
  induction fs as [|[k' v'] r IH]; cbn [find_field]; intros Hf H; [discriminate|].
  inversion Hf; subst. destruct (str_eqb k k'); [inversion H; subst; assumption|auto].
Qed.

Lemma object_code_no_crash c fs :
  Forall (fun kv => finite_val (snd kv)) fs -> no_crash (object_code lf c fs).
Proof.
  intros Hf. unfold object_code.
  apply no_crash_bind; [destruct (fw c) as [[|]|]; exact I|intros fwv _].
  apply no_crash_bind; [destruct (prec c) as [[|]|]; exact I|intros pv _].
  destruct (conv_eqb (ctype c) CPercent) eqn:EC; [exact I|].
  destruct (mkey c) as [k|]; [|exact I]. destruct (find_field k fs) as [item|] eqn:EF; [|exact I].
  apply no_crash_bind; [|intros; exact I].
  apply do_format_code_no_crash; [exact EC|eapply find_field_finite; eauto].
Qed.

Lemma format_object_no_crash : forall parts fs,
  Forall (fun kv => finite_val (snd kv)) fs -> no_crash (format_object lf parts fs).
Proof.
  induction parts as [|p ps IH]; intros fs Hf; cbn [format_object]; [exact I|].
  destruct p as [l|c].
  - apply no_crash_bind; [apply IH; exact Hf|intros; exact I].
  - apply no_crash_bind; [apply object_code_no_crash; exact Hf|intros].
    apply no_crash_bind; [apply IH; exact Hf|intros; exact I].
Qed.

Definition finite_args (a : fargs) : Prop :=
  match a with
  | AArray l => Forall finite_val l
  | AObject fs => Forall (fun kv => finite_val (snd kv)) fs
  | ASingle v => finite_val v
  end.

(* std.format never panics and never loops: for every format string, every argument
   value (numbers finite, C06) and whatever libm's log10 returns, the outcome is a
   string or one of the listed errors *)
Lemma format_no_crash fmt a : finite_args a -> no_crash (format lf fmt a).
Proof.
  intros Hf. unfold format.
  pose proof (format_parse_total fmt) as HP.
  destruct (parse_format_codes fmt) as [parts|e| |]; cbn [obind parse_outcome_ok no_crash] in *; try exact I; try contradiction.
  destruct a as [l|fs|v]; cbn [finite_args] in Hf.
  - apply format_array_no_crash; exact Hf.
  - apply format_object_no_crash; exact Hf.
  - apply format_array_no_crash. constructor; [exact Hf|constructor].
Qed.

End NoCrash.
