(* Proofs/RefScope_defs.v — C02/C09: run-time scope soundness of the reference interpreter, part 1.

   [closed vs io x]: the core expression x mentions only variables of vs, and self / super occur
   only where an object is in scope (io) — the scoping discipline of the evaluator's frames.
   [wf_value / wf_thunk / wf_env / wf_layer]: every expression stored in a run-time structure is
   closed with respect to the environment stored next to it.
   From Forall_app_intro on: facts about lists and about the model's slicing, binding and builtin
   parameter functions that do not depend on the invariant; the no-panic pass (RefNoPanic_*.v)
   reads them with its own. *)
From RJ Require Import Base.Outcome Base.F64 Model.Token Model.Ast Model.RefCore Model.RefValue Model.RefEval.
From RJ Require Import Proofs.RefSem_params.
From Coq Require Import Lia.
Local Open Scope N_scope.

Fixpoint dom (en : env) : list str :=
  match en with
  | [] => []
  | FVars b r :: rest => map fst b ++ map fst r ++ dom rest
  | FObj _ _ _ :: rest => dom rest
  end.

Definition hasobj (en : env) : bool := match lookup_obj en with Some _ => true | None => false end.

Inductive closed : list str -> bool -> cexpr -> Prop :=
| CL_Null vs io : closed vs io CNull
| CL_Bool vs io b : closed vs io (CBool b)
| CL_Num vs io f : closed vs io (CNum f)
| CL_Str vs io s : closed vs io (CStr s)
| CL_Self vs : closed vs true CSelf
| CL_Var vs io x : In x vs -> closed vs io (CVar x)
| CL_Object vs io locals asserts fields :
    Forall (fun p => closed (map fst locals ++ vs) true (snd p)) locals ->
    Forall (fun a => closed (map fst locals ++ vs) true (fst a) /\ closed_opt (map fst locals ++ vs) true (snd a)) asserts ->
    Forall (closed_field vs io (map fst locals ++ vs)) fields ->
    closed vs io (CObject locals asserts fields)
| CL_ObjComp vs io locals name plus body specs vs' :
    closed_specs vs io specs vs' ->
    closed vs' io name ->
    Forall (fun p => closed (map fst locals ++ vs') true (snd p)) locals ->
    closed (map fst locals ++ vs') true body ->
    closed vs io (CObjComp locals name plus body specs)
| CL_Array vs io items : Forall (closed vs io) items -> closed vs io (CArray items)
| CL_ArrComp vs io body specs vs' :
    closed_specs vs io specs vs' -> closed vs' io body -> closed vs io (CArrComp body specs)
| CL_Field vs io e n : closed vs io e -> closed vs io (CField e n)
| CL_Index vs io e i : closed vs io e -> closed vs io i -> closed vs io (CIndex e i)
| CL_Slice vs io e a b c :
    closed vs io e -> closed_opt vs io a -> closed_opt vs io b -> closed_opt vs io c ->
    closed vs io (CSlice e a b c)
| CL_SuperField vs n : closed vs true (CSuperField n)
| CL_SuperIndex vs i : closed vs true i -> closed vs true (CSuperIndex i)
| CL_InSuper vs e : closed vs true e -> closed vs true (CInSuper e)
| CL_Call vs io f pos named ts tl :
    closed vs io f -> Forall (closed vs io) pos -> Forall (fun p => closed vs io (snd p)) named ->
    closed vs io (CCall f pos named ts tl)
| CL_Local vs io binds body :
    Forall (fun p => closed (map fst binds ++ vs) io (snd p)) binds ->
    closed (map fst binds ++ vs) io body ->
    closed vs io (CLocal binds body)
| CL_Ite vs io c t e : closed vs io c -> closed vs io t -> closed vs io e -> closed vs io (CIte c t e)
| CL_Bin vs io op l r : closed vs io l -> closed vs io r -> closed vs io (CBin op l r)
| CL_Un vs io op e : closed vs io e -> closed vs io (CUn op e)
(* a function body is closed in every scope that extends the definition scope and binds all the
   parameters (the argument frame holds them in binding order, not in declaration order) *)
| CL_Func vs io params body :
    (forall vs', incl vs vs' -> incl (map fst params) vs' ->
       Forall (fun p => closed_opt vs' io (snd p)) params /\ closed vs' io body) ->
    closed vs io (CFunc params body)
| CL_Error vs io e : closed vs io e -> closed vs io (CError e)
| CL_Assert vs io c m body : closed vs io c -> closed_opt vs io m -> closed vs io body -> closed vs io (CAssert c m body)
| CL_Builtin vs io b : closed vs io (CBuiltin b)
| CL_Unsupported vs io w : closed vs io (CUnsupported w)
with closed_opt : list str -> bool -> option cexpr -> Prop :=
| CO_None vs io : closed_opt vs io None
| CO_Some vs io e : closed vs io e -> closed_opt vs io (Some e)
with closed_field : list str -> bool -> list str -> cfield -> Prop :=
| CF_Fix vs io inner s plus vis body : closed inner true body -> closed_field vs io inner (CFld (CFix s) plus vis body)
| CF_Dyn vs io inner e plus vis body :
    closed vs io e -> closed inner true body -> closed_field vs io inner (CFld (CDyn e) plus vis body)
with closed_specs : list str -> bool -> list cspec -> list str -> Prop :=
| CS_Nil vs io : closed_specs vs io [] vs
| CS_For vs io x e rest out : closed vs io e -> closed_specs (x :: vs) io rest out -> closed_specs vs io (CSFor x e :: rest) out
| CS_If vs io e rest out : closed vs io e -> closed_specs vs io rest out -> closed_specs vs io (CSIf e :: rest) out.

Inductive wf_value : value -> Prop :=
| WV_null : wf_value VNull
| WV_bool b : wf_value (VBool b)
| WV_num f : wf_value (VNum f)
| WV_str s : wf_value (VStr s)
| WV_arr items : Forall wf_thunk items -> wf_value (VArr items)
| WV_obj ls c : Forall wf_layer ls -> wf_value (VObj ls c)
| WV_fun ps body fenv : wf_env fenv -> closed (dom fenv) (hasobj fenv) (CFunc ps body) -> wf_value (VFun ps body fenv)
| WV_builtin b : wf_value (VBuiltin b)
with wf_thunk : thunk -> Prop :=
| WT_th e en : wf_env en -> closed (dom en) (hasobj en) e -> wf_thunk (Th e en)
| WT_tv v : wf_value v -> wf_thunk (Tv v)
| WT_call f args : wf_value f -> Forall wf_thunk args -> wf_thunk (TCall f args)
with wf_env : list frame -> Prop :=
| WE_nil : wf_env []
| WE_vars b r rest :
    Forall (fun p => wf_thunk (snd p)) b ->
    Forall (fun p => closed (dom (FVars b r :: rest)) (hasobj rest) (snd p)) r ->
    wf_env rest -> wf_env (FVars b r :: rest)
| WE_obj ls i c rest : Forall wf_layer ls -> wf_env rest -> wf_env (FObj ls i c :: rest)
with wf_layer : layer -> Prop :=
| WL_intro locals asserts fields en std :
    Forall (fun a => wf_scope locals en (fst a) /\ (forall m, snd a = Some m -> wf_scope locals en m)) asserts ->
    Forall (fun nf => wf_scope locals (match f_fenv (snd nf) with Some fe => fe | None => en end) (f_body (snd nf))) fields ->
    wf_layer (MkLayer locals asserts fields en std)
(* [wf_scope locals base x]: x — an assert or a field body of a layer with these object locals —
   and the locals themselves are closed over  locals + base + self *)
with wf_scope : list (str * cexpr) -> list frame -> cexpr -> Prop :=
| WS_intro locals base x :
    wf_env base ->
    Forall (fun p => closed (map fst locals ++ dom base) true (snd p)) locals ->
    closed (map fst locals ++ dom base) true x ->
    wf_scope locals base x.

Definition wf_layers (ls : list layer) : Prop := Forall wf_layer ls.
Definition wf_vars (v : list (str * thunk)) : Prop := Forall (fun p => wf_thunk (snd p)) v.

Lemma hasobj_vars b r rest : hasobj (FVars b r :: rest) = hasobj rest.
Proof. reflexivity. Qed.

Lemma hasobj_obj ls i c rest : hasobj (FObj ls i c :: rest) = true.
Proof. reflexivity. Qed.

Lemma in_assoc_in {A} x (l : list (str * A)) a : assoc x l = Some a -> In (x, a) l.
Proof.
  induction l as [|[y b] r IH]; simpl; [discriminate|].
  destruct (str_eqb x y) eqn:E; intros H.
  - apply str_eqb_eq in E. injection H as ->. subst. left. reflexivity.
  - right. auto.
Qed.

Lemma lookup_var_in : forall x en, In x (dom en) -> lookup_var x en <> None.
Proof.
  intros x en. induction en as [|fr rest IH]; simpl; [tauto|].
  destruct fr as [b r | ls i c]; [|exact IH].
  intros H. apply in_app_or in H. destruct H as [H | H].
  - pose proof (in_assoc_some x b H). destruct (assoc x b); [discriminate | congruence].
  - destruct (assoc x b); [discriminate|]. apply in_app_or in H. destruct H as [H | H].
    + pose proof (in_assoc_some x r H). destruct (assoc x r); [discriminate | congruence].
    + destruct (assoc x r); [discriminate | auto].
Qed.

Lemma lookup_var_wf : forall x en t, wf_env en -> lookup_var x en = Some t -> wf_thunk t.
Proof.
  intros x en. induction en as [|fr rest IH]; intros t Hwf H; simpl in H; [discriminate|].
  destruct fr as [b r | ls i c].
  - inversion Hwf as [| b' r' rest' Hb Hr Hrest |]; subst.
    destruct (assoc x b) as [t0|] eqn:Eb.
    + injection H as <-. apply in_assoc_in in Eb. rewrite Forall_forall in Hb. apply (Hb _ Eb).
    + destruct (assoc x r) as [ex|] eqn:Er.
      * injection H as <-. apply in_assoc_in in Er. rewrite Forall_forall in Hr.
        constructor; [exact Hwf | apply (Hr _ Er)].
      * apply IH; assumption.
  - inversion Hwf; subst. apply IH; assumption.
Qed.

Lemma lookup_obj_wf : forall en ls i c, wf_env en -> lookup_obj en = Some (ls, i, c) -> wf_layers ls.
Proof.
  induction en as [|fr rest IH]; intros ls i c Hwf H; simpl in H; [discriminate|].
  destruct fr as [b r | ls' i' c'].
  - inversion Hwf; subst. eapply IH; eassumption.
  - injection H as <- <- <-. inversion Hwf; subst. assumption.
Qed.

Lemma hasobj_lookup : forall en, hasobj en = true -> exists ls i c, lookup_obj en = Some (ls, i, c).
Proof.
  intros en H. unfold hasobj in H. destruct (lookup_obj en) as [[[ls i] c]|]; [eauto | discriminate].
Qed.

Lemma nthN_in {A} : forall (l : list A) i x, nthN l i = Some x -> In x l.
Proof.
  induction l as [|y r IH]; intros i x H; simpl in H; [discriminate|].
  destruct (i =? 0); [injection H as ->; left; reflexivity | right; eapply IH; eassumption].
Qed.

Lemma dropN_incl {A} : forall (l : list A) i x, In x (dropN l i) -> In x l.
Proof.
  induction l as [|y r IH]; intros i x H; simpl in H; [tauto|].
  destruct (i =? 0); [exact H | right; eapply IH; eassumption].
Qed.

Lemma find_field_in_sound : forall rest k name i f,
  find_field_in rest k name = Some (i, f) -> exists l, In l rest /\ assoc name (l_fields l) = Some f /\ nthN rest (i - k) = Some l /\ k <= i.
Proof.
  induction rest as [|l r IH]; intros k name i f H; simpl in H; [discriminate|].
  destruct (assoc name (l_fields l)) as [f0|] eqn:E.
  - injection H as <- <-. exists l. simpl. replace (k - k) with 0 by lia. simpl. repeat split; auto. lia.
  - destruct (IH _ _ _ _ H) as (l' & Hin & Ha & Hn & Hle). exists l'. simpl. repeat split; auto; try lia.
    destruct (i - k =? 0) eqn:E0; [apply N.eqb_eq in E0; lia|]. replace (i - k - 1) with (i - (k + 1)) by lia. exact Hn.
Qed.

Lemma nthN_dropN {A} : forall (l : list A) from j, nthN (dropN l from) j = nthN l (from + j).
Proof.
  induction l as [|y r IH]; intros from j; simpl; [reflexivity|].
  destruct (from =? 0) eqn:E.
  - apply N.eqb_eq in E. subst. reflexivity.
  - rewrite IH. apply N.eqb_neq in E. destruct (from + j =? 0) eqn:E2; [apply N.eqb_eq in E2; lia|].
    f_equal. lia.
Qed.

(* the index [find_field] returns is inside the list, and the field is one of that layer's *)
Lemma find_field_sound ls from name i f :
  find_field ls from name = Some (i, f) -> exists l, nthN ls i = Some l /\ In l ls /\ In (name, f) (l_fields l).
Proof.
  intros H. unfold find_field in H.
  destruct (find_field_in_sound _ _ _ _ _ H) as (l & _ & Ha & Hn & Hle).
  rewrite nthN_dropN in Hn. replace (from + (i - from)) with i in Hn by lia.
  exists l. repeat split; [exact Hn | eapply nthN_in; exact Hn | apply in_assoc_in; exact Ha].
Qed.

Lemma layer_env_wf : forall ls i l base x,
  wf_layers ls -> wf_scope (l_locals l) base x ->
  wf_env (layer_env ls i l base) /\ closed (dom (layer_env ls i l base)) (hasobj (layer_env ls i l base)) x.
Proof.
  intros ls i l base x Hls Hs. inversion Hs as [locals base' x' Hb Hl Hx]; subst. unfold layer_env. split.
  - constructor; [constructor | | constructor; assumption]. simpl. exact Hl.
  - simpl. exact Hx.
Qed.

Lemma closed_func_inv vs io ps body : closed vs io (CFunc ps body) ->
  forall vs', incl vs vs' -> incl (map fst ps) vs' -> Forall (fun p => closed_opt vs' io (snd p)) ps /\ closed vs' io body.
Proof. inversion 1; assumption. Qed.

Lemma closed_specs_inv vs io specs out : closed_specs vs io specs out ->
  match specs with
  | [] => out = vs
  | CSFor y e :: rest => closed vs io e /\ closed_specs (y :: vs) io rest out
  | CSIf e :: rest => closed vs io e /\ closed_specs vs io rest out
  end.
Proof. destruct 1; auto. Qed.

Lemma wf_arr_inv items : wf_value (VArr items) -> Forall wf_thunk items.
Proof. inversion 1; assumption. Qed.
Lemma wf_obj_inv ls c : wf_value (VObj ls c) -> Forall wf_layer ls.
Proof. inversion 1; assumption. Qed.

Lemma Forall_app_intro {A} (P : A -> Prop) l1 l2 : Forall P l1 -> Forall P l2 -> Forall P (l1 ++ l2).
Proof. intros. apply Forall_app. split; assumption. Qed.

Lemma Forall_concat {A} (P : A -> Prop) (ll : list (list A)) : Forall (Forall P) ll -> Forall P (concat ll).
Proof. induction 1; simpl; [constructor | apply Forall_app_intro; assumption]. Qed.

Lemma Forall_map_intro {A B} (P : B -> Prop) (f : A -> B) l : (forall a, In a l -> P (f a)) -> Forall P (map f l).
Proof. intros H. rewrite Forall_forall. intros b Hb. apply in_map_iff in Hb. destruct Hb as (a & <- & Ha). auto. Qed.

Lemma Forall_in {A} (P : A -> Prop) l x : Forall P l -> In x l -> P x.
Proof. intros H. rewrite Forall_forall in H. apply H. Qed.

Lemma combine_in_r {A B} : forall (l1 : list A) (l2 : list B) p, In p (combine l1 l2) -> In (snd p) l2.
Proof.
  induction l1 as [|a r IH]; intros l2 p H; simpl in H; [destruct H|]. destruct l2 as [|b r2]; [destruct H|].
  destruct H as [<- | H]; [left; reflexivity | right; apply IH; exact H].
Qed.

Lemma take_step_incl {A} : forall (l : list A) n step k x, In x (take_step l n step k) -> In x l.
Proof.
  induction l as [|y r IH]; intros n step k x H; simpl in H; [tauto|].
  destruct (n =? 0); [destruct H|]. destruct (k =? 0).
  - destruct H as [-> | H]; [left; reflexivity | right; eapply IH; eassumption].
  - right. eapply IH; eassumption.
Qed.

Lemma slice_list_forall {A} (P : A -> Prop) l a b c : Forall P l -> Forall P (slice_list l a b c).
Proof.
  intros H. rewrite Forall_forall in *. intros x Hx. apply H. unfold slice_list in Hx.
  apply take_step_incl in Hx. eapply dropN_incl. exact Hx.
Qed.

(* case analysis on a computation that treats two numbers apart from every other pair of operands *)
Lemma num_or_case (S : M value -> Prop) (m : M value) (k : f64 -> f64 -> M value) l r :
  S m -> (forall a b, S (k a b)) -> S (match l, r with VNum a, VNum b => k a b | _, _ => m end).
Proof. intros Hm Hk. destruct l; try exact Hm. destruct r; try exact Hm. apply Hk. Qed.

(* parameter binding only moves the argument thunks around: whatever holds of all of them holds of
   every bound one, and the defaults left to evaluate are defaults of the parameter list *)
Section Binding.
  Variable P : thunk -> Prop.
  Lemma bind_positional_all : forall ps pos b rest,
    bind_positional ps pos = Some (b, rest) -> Forall P pos -> Forall (fun p => P (snd p)) b /\ incl rest ps.
  Proof.
    intros ps pos. revert ps. induction pos as [|t pr IH]; intros ps b rest H Hp.
    - destruct ps; simpl in H; injection H as <- <-; (split; [constructor | apply incl_refl]).
    - destruct ps as [|[x d] psr]; simpl in H; [discriminate|].
      destruct (bind_positional psr pr) as [[b' rest']|] eqn:E; [|discriminate].
      injection H as <- <-. inversion Hp; subst. destruct (IH _ _ _ E H2) as [Hb Hr]. split.
      + constructor; assumption.
      + apply incl_tl. exact Hr.
  Qed.

  Lemma fill_rest_all : forall rest named b ds,
    fill_rest rest named = Ok (b, ds) -> Forall (fun p => P (snd p)) named ->
    Forall (fun p => P (snd p)) b /\ (forall x de, In (x, de) ds -> In (x, Some de) rest).
  Proof.
    induction rest as [|[x0 d] r IH]; intros named b ds H Hn; simpl in H.
    - injection H as <- <-. split; [constructor | intros ? ? []].
    - destruct (fill_rest r named) as [[b' ds'] | e | s |] eqn:E; try discriminate.
      destruct (IH _ _ _ E Hn) as [Hb Hd].
      destruct (assoc x0 named) as [t|] eqn:En.
      + injection H as <- <-. split.
        * constructor; [|exact Hb]. apply in_assoc_in in En. exact (Forall_in _ _ _ Hn En).
        * intros x de Hin. right. auto.
      + destruct d as [de0|]; [|discriminate]. injection H as <- <-. split; [exact Hb|].
        intros x de [Hin | Hin]; [injection Hin as <- <-; left; reflexivity | right; auto].
  Qed.

  Lemma bind_args_all ps pos named b ds :
    bind_args ps pos named = Ok (b, ds) -> Forall P pos -> Forall (fun p => P (snd p)) named ->
    Forall (fun p => P (snd p)) b /\ (forall x de, In (x, de) ds -> In (x, Some de) ps).
  Proof.
    intros H Hp Hn. unfold bind_args in H.
    destruct (bind_positional ps pos) as [[bpos rest]|] eqn:Ep; [|discriminate].
    destruct (check_named rest bpos named []); [discriminate|].
    destruct (fill_rest rest named) as [[b' ds'] | e | s |] eqn:Ef; try discriminate.
    injection H as <- <-. destruct (bind_positional_all _ _ _ _ Ep Hp) as [Hb1 Hr]. destruct (fill_rest_all _ _ _ _ Ef Hn) as [Hb2 Hd].
    split; [apply Forall_app_intro; assumption|]. intros x de Hin. apply Hr, Hd, Hin.
  Qed.

  Lemma arg_thunks_all ps fr : (forall x t, lookup_var x fr = Some t -> P t) -> Forall P (arg_thunks ps fr).
  Proof.
    intros Hf. unfold arg_thunks. induction ps as [|p r IH]; simpl; [constructor|].
    apply Forall_app_intro; [|exact IH]. destruct (lookup_var (fst p) fr) eqn:E; constructor; eauto.
  Qed.
End Binding.

Lemma arg_thunks_length ps fr :
  (forall x, In x (map fst ps) -> lookup_var x fr <> None) -> length (arg_thunks ps fr) = length ps.
Proof.
  unfold arg_thunks. induction ps as [|p r IH]; intros H; simpl; [reflexivity|].
  rewrite app_length, IH by (intros x Hx; apply H; right; exact Hx).
  destruct (lookup_var (fst p) fr) eqn:E; [reflexivity|]. exfalso. apply (H (fst p)); [left; reflexivity|exact E].
Qed.

(* bind_args is a pure function, and every failure it reports is a diagnosed call error *)
Lemma check_named_kind : forall rest bpos named seen e, check_named rest bpos named seen = Some e -> exists s, e = EKind s.
Proof.
  intros rest bpos. induction named as [|[x t] r IH]; intros seen e H; simpl in H; [discriminate|].
  destruct (assoc x rest).
  - destruct (mem_str x seen); [injection H as <-; eauto | eapply IH; eassumption].
  - destruct (assoc x bpos); injection H as <-; eauto.
Qed.

Definition call_error {A} (o : outcome A err) : Prop :=
  match o with Ok _ => True | Err e => exists s, e = EKind s | _ => False end.

Lemma fill_rest_fails : forall rest named, call_error (fill_rest rest named).
Proof.
  induction rest as [|[x0 d] r IH]; intros named; simpl; [exact I|].
  specialize (IH named). destruct (fill_rest r named) as [[b ds] | e | s |]; try exact IH.
  destruct (assoc x0 named); [exact I|]. destruct d; simpl; eauto.
Qed.

Lemma bind_args_fails ps pos named : call_error (bind_args ps pos named).
Proof.
  unfold bind_args. destruct (bind_positional ps pos) as [[bpos rest]|]; [|simpl; eauto].
  destruct (check_named rest bpos named []) as [e|] eqn:Ec; [exact (check_named_kind _ _ _ _ _ Ec)|].
  pose proof (fill_rest_fails rest named) as H. destruct (fill_rest rest named) as [[b ds] | e | s |]; exact H.
Qed.

(* a builtin has no default arguments: binding leaves nothing to fill in *)
Lemma builtin_params_no_default bi : forall x de, ~ In (x, Some de) (builtin_params bi).
Proof.
  intros x de H. unfold builtin_params in H. destruct (find _ builtin_table) as [r|]; [|exact H].
  apply in_map_iff in H. destruct H as (p & Hp & _). discriminate Hp.
Qed.
