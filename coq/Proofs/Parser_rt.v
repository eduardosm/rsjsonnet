(* Proofs/Parser_rt.v — print / re-parse round trip.
   A relational layer [run m t a t'] ("on any state whose tokens are t, m answers a and
   leaves the tokens t'") hides the bookkeeping fields (expected set, depth counters);
   machine transitions of pe_loop are backward rules on [run]. *)
From RJ Require Import Base.Outcome Model.Token Model.Ast Model.Parser Model.Print.
From Coq Require Import Lia.
Local Open Scope list_scope.
Local Open Scope N_scope.

Definition toks_of (s : pst) : list token := cur s :: rest s.

Definition run {A} (m : P A) (t : list token) (a : A) (t' : list token) : Prop :=
  forall s, toks_of s = t -> exists s', m s = Ok (a, s') /\ toks_of s' = t'.

Lemma run_ret {A} (a : A) t : run (ret a) t a t.
Proof. intros s Hs; exists s; split; [reflexivity|exact Hs]. Qed.

Lemma run_bind {A B} (m : P A) (f : A -> P B) t a t1 b t2 :
  run m t a t1 -> run (f a) t1 b t2 -> run (bindP m f) t b t2.
Proof.
  intros H1 H2 s Hs. destruct (H1 s Hs) as (s1 & E1 & T1). destruct (H2 s1 T1) as (s2 & E2 & T2).
  exists s2. split; [|exact T2]. unfold bindP. rewrite E1. exact E2.
Qed.

Lemma run_orelse_hit {A B} (m : P (option A)) (f : A -> P B) k t a t1 b t2 :
  run m t (Some a) t1 -> run (f a) t1 b t2 -> run (orelse m f k) t b t2.
Proof.
  intros H1 H2 s Hs. destruct (H1 s Hs) as (s1 & E1 & T1). destruct (H2 s1 T1) as (s2 & E2 & T2).
  exists s2. split; [|exact T2]. unfold orelse. rewrite E1. exact E2.
Qed.

Lemma run_orelse_miss {A B} (m : P (option A)) (f : A -> P B) k t t1 b t2 :
  run m t None t1 -> run (k tt) t1 b t2 -> run (orelse m f k) t b t2.
Proof.
  intros H1 H2 s Hs. destruct (H1 s Hs) as (s1 & E1 & T1). destruct (H2 s1 T1) as (s2 & E2 & T2).
  exists s2. split; [|exact T2]. unfold orelse. rewrite E1. exact E2.
Qed.

Lemma run_call {A} (m : P A) t a t' : run m t a t' -> run (call m) t a t'.
Proof.
  intros H s Hs. unfold call.
  match goal with |- context [m ?s0] => destruct (H s0 Hs) as (s1 & E1 & T1) end.
  rewrite E1. destruct s1 as [c r ex dc dm]. eexists. split; [reflexivity|exact T1].
Qed.

Lemma run_ext {A} (m m' : P A) t a t' : (forall s, m s = m' s) -> run m' t a t' -> run m t a t'.
Proof. intros E H s Hs. rewrite E. exact (H s Hs). Qed.

Lemma run_if_false {A} (b : pst -> bool) (m1 m2 : P A) t a t' :
  (forall s, toks_of s = t -> b s = false) -> run m2 t a t' -> run (fun s => if b s then m1 s else m2 s) t a t'.
Proof. intros Hb H s Hs. rewrite (Hb s Hs). exact (H s Hs). Qed.

Lemma run_if_true {A} (b : pst -> bool) (m1 m2 : P A) t a t' :
  (forall s, toks_of s = t -> b s = true) -> run m1 t a t' -> run (fun s => if b s then m1 s else m2 s) t a t'.
Proof. intros Hb H s Hs. rewrite (Hb s Hs). exact (H s Hs). Qed.

(* on a token list with a known head the state is that head, the rest, and any bookkeeping *)
Lemma run_on {A} (m : P A) c t a t' :
  (forall ex dc dm, exists s',
     m {| cur := c; rest := t; exps := ex; dcur := dc; dmax := dm |} = Ok (a, s') /\ toks_of s' = t') ->
  run m (c :: t) a t'.
Proof. intros H [c0 r ex dc dm] Hs. unfold toks_of in Hs. cbn in Hs. injection Hs as -> ->. apply H. Qed.

Lemma run_eat_hit k add c t : is_simple k c = true -> t <> [] ->
  run (eat_simple k add) (c :: t) (Some (tok_span c)) t.
Proof.
  intros Hk Ht. apply run_on. intros ex dc dm. destruct t as [|t1 r1]; [congruence|].
  unfold eat_simple. cbn [cur]. rewrite Hk. eexists. split; reflexivity.
Qed.

Lemma run_eat_miss k add c t : is_simple k c = false ->
  run (eat_simple k add) (c :: t) None (c :: t).
Proof.
  intros Hk. apply run_on. intros ex dc dm.
  unfold eat_simple, miss. cbn [cur]. rewrite Hk. destruct add; eexists; split; reflexivity.
Qed.

Lemma run_expect_hit k add c t : is_simple k c = true -> t <> [] ->
  run (expect_simple k add) (c :: t) (tok_span c) t.
Proof. intros Hk Ht. unfold expect_simple. eapply run_orelse_hit; [apply run_eat_hit; assumption|apply run_ret]. Qed.

(* derived rules for the model's commonest steps: an alternative or a step guarded by
   eat_simple / expect_simple is decided by the head token; mk_span on printed spans is sp0 *)
Lemma run_alt_hit {B} k add (f : span -> P B) g c t b t' : is_simple k c = true -> t <> [] ->
  run (f (tok_span c)) t b t' -> run (orelse (eat_simple k add) f g) (c :: t) b t'.
Proof. intros Hk Ht H. eapply run_orelse_hit; [apply run_eat_hit; assumption|exact H]. Qed.

Lemma run_alt_miss {B} k add (f : span -> P B) g c t b t' : is_simple k c = false ->
  run (g tt) (c :: t) b t' -> run (orelse (eat_simple k add) f g) (c :: t) b t'.
Proof. intros Hk H. eapply run_orelse_miss; [apply run_eat_miss; exact Hk|exact H]. Qed.

Lemma run_eat_then {B} k add (f : option span -> P B) c t b t' : is_simple k c = true -> t <> [] ->
  run (f (Some (tok_span c))) t b t' -> run (bindP (eat_simple k add) f) (c :: t) b t'.
Proof. intros Hk Ht H. eapply run_bind; [apply run_eat_hit; assumption|exact H]. Qed.

Lemma run_expect_then {B} k add (f : span -> P B) c t b t' : is_simple k c = true -> t <> [] ->
  run (f (tok_span c)) t b t' -> run (bindP (expect_simple k add) f) (c :: t) b t'.
Proof. intros Hk Ht H. eapply run_bind; [apply run_expect_hit; assumption|exact H]. Qed.

Lemma run_push x t : run (push_expected x) t tt t.
Proof. intros s Hs. eexists. split; [reflexivity|]. exact Hs. Qed.

Lemma run_span0_then {B} (f : span -> P B) t b t' :
  run (f sp0) t b t' -> run (bindP (mk_span sp0 sp0) f) t b t'.
Proof. intros H s Hs. exact (H s Hs). Qed.

Lemma run_eat_ident_hit add v sp t : t <> [] ->
  run (eat_ident add) ({| tok_span := sp; tok_kind := TIdent v |} :: t) (Some {| id_value := v; id_span := sp |}) t.
Proof.
  intros Ht. apply run_on. intros ex dc dm. destruct t as [|t1 r1]; [congruence|]. eexists. split; reflexivity.
Qed.

Lemma run_expect_ident_hit add v sp t : t <> [] ->
  run (expect_ident add) ({| tok_span := sp; tok_kind := TIdent v |} :: t) {| id_value := v; id_span := sp |} t.
Proof. intros Ht. unfold expect_ident. eapply run_orelse_hit; [apply run_eat_ident_hit; assumption|apply run_ret]. Qed.

Definition not_ident (c : token) : bool := match tok_kind c with TIdent _ => false | _ => true end.
Lemma run_eat_ident_miss add c t : not_ident c = true -> run (eat_ident add) (c :: t) None (c :: t).
Proof.
  intros Hk. apply run_on. intros ex dc dm.
  unfold eat_ident, miss, not_ident in *. cbn [cur].
  destruct (tok_kind c); try discriminate; destruct add; eexists; split; reflexivity.
Qed.

Definition all_miss {O} (l : list (stoken * O)) (c : token) : bool :=
  forallb (fun p => negb (is_simple (fst p) c)) l.

Lemma run_eat_first_miss {O} (l : list (stoken * O)) c t :
  all_miss l c = true -> run (eat_first l) (c :: t) None (c :: t).
Proof.
  induction l as [|[tk o] l IH]; intros H; cbn [eat_first].
  - apply run_ret.
  - cbn in H. apply andb_true_iff in H as [H1 H2]. apply negb_true_iff in H1.
    eapply run_orelse_miss; [apply run_eat_miss; exact H1|]. apply IH; exact H2.
Qed.

Lemma run_eat_first_hit {O} (l1 : list (stoken * O)) tk o l2 c t :
  all_miss l1 c = true -> is_simple tk c = true -> t <> [] ->
  run (eat_first (l1 ++ (tk, o) :: l2)) (c :: t) (Some (tk, o, tok_span c)) t.
Proof.
  induction l1 as [|[tk1 o1] l1 IH]; intros H Hk Ht; cbn [eat_first app].
  - eapply run_orelse_hit; [apply run_eat_hit; assumption|apply run_ret].
  - cbn in H. apply andb_true_iff in H as [H1 H2]. apply negb_true_iff in H1.
    eapply run_orelse_miss; [apply run_eat_miss; exact H1|]. apply IH; assumption.
Qed.

Lemma app_cons_not_nil {A} (l : list A) a b : l ++ a :: b <> [].
Proof. destruct l; discriminate. Qed.
Lemma cons_not_nil {A} (a : A) b : a :: b <> [].
Proof. discriminate. Qed.
#[export] Hint Resolve app_cons_not_nil cons_not_nil : rt.

(* a closed primitive computation on a token list with a known head: decided by evaluation *)
Ltac run_compute :=
  apply run_on; intros ? ? ?; eexists;
  split; [cbv -[N.succ N.max]; reflexivity | unfold toks_of; cbn [cur rest]; reflexivity].

Definition kind (n : nat) : binop_kind :=
  match n with
  | 0 => LvLogicOr | 1 => LvLogicAnd | 2 => LvBitwiseOr | 3 => LvBitwiseXor | 4 => LvBitwiseAnd
  | 5 => LvEqCmp | 6 => LvOrdCmp | 7 => LvShift | 8 => LvAdd | _ => LvMul
  end%nat.

Definition enter (n : nat) : pstate := if (n <? 10)%nat then StBinary (kind n) else StUnary.
Definition exit_ (n : nat) (e : expr) : pstate := if (n <? 10)%nat then StBinaryRhs (kind n) e else StParsed e.

Fixpoint lhs_up (k d : nat) : list stack_item :=
  match d with O => [] | S d' => SiBinaryLhs (kind (k + d')) :: lhs_up k d' end.

Lemma lhs_up_snoc k d : lhs_up k (S d) = lhs_up (S k) d ++ [SiBinaryLhs (kind k)].
Proof.
  induction d as [|d IH].
  - cbn. rewrite Nat.add_0_r. reflexivity.
  - change (lhs_up k (S (S d))) with (SiBinaryLhs (kind (k + S d)) :: lhs_up k (S d)).
    rewrite IH. cbn [lhs_up app]. rewrite Nat.add_succ_r. reflexivity.
Qed.

Definition opmiss (l : nat) (c : token) : bool := all_miss (pt_ops spec_prec (kind l)) c.
(* no binary operator of a level strictly above k starts at c *)
Definition noop_above (k : nat) (c : token) : bool := forallb (fun l => opmiss l c) (seq (S k) (9 - k)).
Definition nosfx (c : token) : bool :=
  negb (is_simple SDot c) && negb (is_simple SLeftBracket c) && negb (is_simple SLeftParen c) &&
  negb (is_simple SLeftBrace c) && negb (is_simple KTailstrict c).

(* tokens an expression can start with *)
Definition starter_k (k : stoken) : bool :=
  match k with
  | KNull | KTrue | KFalse | KSelf | SDollar | SLeftParen | SLeftBracket | SLeftBrace
  | SPlus | SMinus | STilde | SExclam | KIf | KLocal | KFunction | KAssert | KImport | KImportstr
  | KImportbin | KError | KSuper => true
  | _ => false
  end.
Definition starter (c : token) : bool :=
  match tok_kind c with
  | TSimple k => starter_k k
  | TIdent _ | TNumber _ | TString _ | TTextBlock _ => true
  | _ => false
  end.
Lemma starter_not k c : starter c = true -> starter_k k = false -> is_simple k c = false.
Proof.
  unfold starter, is_simple. destruct (tok_kind c); intros H Hk; try reflexivity.
  destruct (stoken_eqb k0 k) eqn:E; [|reflexivity].
  apply stoken_eqb_eq in E. subst. congruence.
Qed.

Lemma noop_above_at k l c : noop_above k c = true -> (k < l <= 9)%nat -> opmiss l c = true.
Proof.
  unfold noop_above. intros H Hl. rewrite forallb_forall in H. apply H. apply in_seq. lia.
Qed.

Lemma noop_above_mono k k' c : noop_above k c = true -> (k <= k')%nat -> noop_above k' c = true.
Proof.
  unfold noop_above. intros H Hl. rewrite forallb_forall in *. intros l Hin. apply H.
  apply in_seq in Hin. apply in_seq. lia.
Qed.

Section Machine.
  Variable pexpr : P expr.
  Variable lf : nat.
  Notation T := spec_prec.
  Notation PL := (pe_loop spec_prec pexpr lf).

  Lemma next_state_enter k : (k <= 9)%nat -> next_state T (kind k) = enter (S k).
  Proof. intros H. do 10 (destruct k as [|k]; [reflexivity|]). lia. Qed.

  Lemma pl_binary f k stk t (a : expr) t' :
    run (PL f (next_state T k) (SiBinaryLhs k :: stk)) t a t' -> run (PL (S f) (StBinary k) stk) t a t'.
  Proof. exact (fun H => H). Qed.

  Lemma pl_parsed_lhs f k e stk t (a : expr) t' :
    run (PL f (StBinaryRhs k e) stk) t a t' -> run (PL (S f) (StParsed e) (SiBinaryLhs k :: stk)) t a t'.
  Proof. exact (fun H => H). Qed.

  Lemma pl_parsed_done f e t : run (PL (S f) (StParsed e) []) t e t.
  Proof. apply run_ret. Qed.

  Lemma pl_rhs_none f k lhs stk c t (a : expr) t' :
    all_miss (pt_ops T k) c = true ->
    run (PL f (StParsed lhs) stk) (c :: t) a t' -> run (PL (S f) (StBinaryRhs k lhs) stk) (c :: t) a t'.
  Proof.
    intros Hm H. cbn [pe_loop].
    eapply run_bind; [apply run_eat_first_miss; exact Hm|]. cbv beta iota.
    eapply run_bind; [apply run_push|]. exact H.
  Qed.

  (* descend from level k to level k+d (d steps), pushing the BinaryLhs items *)
  Lemma descend d : forall k f stk t (a : expr) t', (k + d <= 10)%nat ->
    run (PL f (enter (k + d)) (lhs_up k d ++ stk)) t a t' -> run (PL (d + f) (enter k) stk) t a t'.
  Proof.
    induction d as [|d IH]; intros k f stk t a t' Hk H.
    - rewrite Nat.add_0_r in H. exact H.
    - cbn [Nat.add]. assert (Hk9 : (k <= 9)%nat) by lia.
      unfold enter at 1. replace (k <? 10)%nat with true by (symmetry; apply Nat.ltb_lt; lia).
      apply pl_binary. rewrite next_state_enter by exact Hk9.
      apply IH; [lia|]. rewrite lhs_up_snoc in H. rewrite <- app_assoc in H. cbn [app] in H.
      replace (S k + d)%nat with (k + S d)%nat by lia. exact H.
  Qed.

  (* ascend from level k+d back to level k (2d steps): no operator of the levels in between *)
  Lemma ascend d : forall k f e stk c t (a : expr) t', (k + d <= 9)%nat ->
    noop_above k c = true ->
    run (PL f (StBinaryRhs (kind k) e) stk) (c :: t) a t' ->
    run (PL (2 * d + f) (StBinaryRhs (kind (k + d)) e) (lhs_up k d ++ stk)) (c :: t) a t'.
  Proof.
    induction d as [|d IH]; intros k f e stk c t a t' Hk Hn H.
    - rewrite Nat.add_0_r. exact H.
    - replace (2 * S d + f)%nat with (S (S (2 * d + f))) by lia. cbn [lhs_up app].
      apply pl_rhs_none; [apply (noop_above_at k); [exact Hn|lia]|].
      apply pl_parsed_lhs. replace (k + S d)%nat with (S (k + d)) by lia.
      (* kind (S (k+d)) was consumed; now at level k+d *)
      apply IH; [lia|exact Hn|exact H].
  Qed.
End Machine.

Definition lsum {A} (f : A -> nat) (l : list A) : nat := fold_right (fun x n => (f x + n)%nat) O l.
Definition osz (f : expr -> nat) (o : option expr) : nat := match o with Some e => f e | None => O end.

Fixpoint esize (e : expr) : nat :=
  S match e with
    | ENull _ | EBool _ _ | ESelf _ | EDollar _ | EString _ _ | ETextBlock _ _ | ENumber _ _
    | ESuperField _ _ _ | EIdent _ _ => O
    | EParen _ x => esize x
    | EObject _ o => obj_size o
    | EArray _ items => lsum esize items
    | EArrayComp _ x specs => esize x + lsum spec_size specs
    | EField _ x _ => esize x
    | EIndex _ x i => esize x + esize i
    | ESlice _ x a b c => esize x + osz esize a + osz esize b + osz esize c
    | ESuperIndex _ _ i => esize i
    | ECall _ f args _ => esize f + lsum arg_size args
    | ELocal _ binds body => lsum bind_size binds + esize body
    | EIf _ c t x => esize c + esize t + osz esize x
    | EBinary _ l _ r => esize l + esize r
    | EUnary _ _ x => esize x
    | EObjExt _ x o _ => esize x + obj_size o
    | EFunc _ params body => lsum param_size params + esize body
    | EAssert _ a body => assert_size a + esize body
    | EImport _ x | EImportStr _ x | EImportBin _ x | EError _ x => esize x
    | EInSuper _ x _ => esize x
    end%nat
with obj_size (o : obj_inside) : nat :=
  S match o with
    | OMembers ms => lsum member_size ms
    | OComp l1 name _ body l2 specs =>
        lsum bind_size l1 + esize name + esize body + lsum bind_size l2 + lsum spec_size specs
    end%nat
with member_size (m : member) : nat :=
  S match m with MLocal b => bind_size b | MAssert a => assert_size a | MField f => field_size f end
with field_size (f : field) : nat :=
  S match f with
    | FValue name _ _ value => fname_size name + esize value
    | FFunc name params _ _ value => fname_size name + lsum param_size params + esize value
    end%nat
with fname_size (n : field_name) : nat :=
  S match n with FnIdent _ | FnString _ _ => O | FnExpr e _ => esize e end
with spec_size (c : comp_spec) : nat :=
  S match c with CFor _ inner => esize inner | CIf cond => esize cond end
with assert_size (a : assert_) : nat :=
  S match a with MkAssert _ cond msg => esize cond + osz esize msg end%nat
with bind_size (b : bind) : nat :=
  S match b with
    | MkBind _ params value =>
        match params with Some (ps, _) => lsum param_size ps | None => O end + esize value
    end%nat
with arg_size (a : arg) : nat :=
  S match a with APositional e | ANamed _ e => esize e end
with param_size (p : param) : nat :=
  S match p with MkParam _ d => osz esize d end.

Lemma lsum_in {A} (f : A -> nat) l x : In x l -> (f x <= lsum f l)%nat.
Proof. unfold lsum. induction l as [|y l IH]; cbn [fold_right In]; [tauto|]. intros [->|H]; [lia|]. specialize (IH H). lia. Qed.

Lemma strip_span0 e : expr_span (strip_spans e) = sp0.
Proof. destruct e; reflexivity. Qed.
