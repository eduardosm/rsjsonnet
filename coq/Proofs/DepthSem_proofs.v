(* Proofs/DepthSem_proofs.v — limit monotonicity, depth bound, in-progress
   discipline and cycle detection for Model/DepthSem.v. *)
From RJ Require Import Base.Outcome Model.DepthSem.
From Coq Require Import Lia.
Local Open Scope N_scope.

Arguments N.add : simpl never.
Arguments N.sub : simpl never.
Arguments N.max : simpl never.
Arguments N.ltb : simpl never.
Arguments tostring_frames : simpl never.

Lemma enter_cases : forall L d st,
  (enter L d st = Err StackOverflow /\ L < d + 1) \/
  (enter L d st = Ok {| cells := cells st; peak := N.max (peak st) (d + 1) |} /\ d + 1 <= L).
Proof.
  intros L d st. unfold enter. destruct (L <? d + 1) eqn:E.
  - left. apply N.ltb_lt in E. auto.
  - right. apply N.ltb_ge in E. auto.
Qed.

(* [x'] is [x] unless [x] is the overflow: how a computation under a larger limit relates to the same
   computation under the smaller one *)
Definition upto_overflow {A} (x x' : res A) : Prop := x <> Err StackOverflow -> x' = x.

Lemma upto_refl {A} (x : res A) : upto_overflow x x.
Proof. intros _. reflexivity. Qed.

Lemma upto_obind {A B} (x x' : res A) (k k' : A -> res B) :
  upto_overflow x x' -> (forall a, upto_overflow (k a) (k' a)) -> upto_overflow (obind x k) (obind x' k').
Proof.
  intros Hx Hk H. destruct x as [a | e | s |]; cbn [obind] in H.
  - rewrite Hx by discriminate. apply Hk, H.
  - rewrite Hx; [reflexivity|]. intros E. apply H. injection E as ->. reflexivity.
  - rewrite Hx by discriminate. reflexivity.
  - rewrite Hx by discriminate. reflexivity.
Qed.

Lemma enter_upto L L' d st : L <= L' -> upto_overflow (enter L d st) (enter L' d st).
Proof.
  intros HL H.
  destruct (enter_cases L d st) as [[E _]|[E Hd]]; [contradiction|].
  destruct (enter_cases L' d st) as [[_ Hd']|[E' _]]; [lia|]. congruence.
Qed.

Section Mono.
Variable P : list expr.
Variables L L' : N.
Hypothesis HL : L <= L'.

(* along the syntax of a clause of [run]: a bind, a case distinction, or a leaf *)
Ltac upto_step IH :=
  lazymatch goal with
  | |- upto_overflow (obind _ _) (obind _ _) => apply upto_obind; [| intros ?]
  | |- upto_overflow (run _ _ _ _ _ _) (run _ _ _ _ _ _) => apply IH
  | |- upto_overflow (enter _ _ _) (enter _ _ _) => apply (enter_upto _ _ _ _ HL)
  | |- upto_overflow (match ?x with _ => _ end) (match ?x with _ => _ end) => destruct x
  | |- upto_overflow _ _ => apply upto_refl
  end.

Lemma run_upto : forall fuel d st k, upto_overflow (run P L fuel d st k) (run P L' fuel d st k).
Proof.
  induction fuel as [|fuel IH]; intros d st k; [apply upto_refl|].
  destruct k as [env e|framed i|a b|xs ys|a b|xs ys|v|ts|v|ts]; [destruct e|..]; cbn [run]; repeat upto_step IH.
Qed.
End Mono.

Theorem limit_monotone_outcome : forall P L L' fuel d st k,
  L <= L' -> run P L fuel d st k <> Err StackOverflow ->
  run P L' fuel d st k = run P L fuel d st k.
Proof. intros * HL. apply run_upto, HL. Qed.

Theorem limit_monotone : forall P L L' fuel d st k r,
  run P L fuel d st k = Ok r -> L <= L' -> run P L' fuel d st k = Ok r.
Proof.
  intros * E HL. rewrite <- E. apply run_upto; [exact HL|].
  rewrite E. discriminate.
Qed.

(* the whole pipeline (evaluate, force deeply, manifest) *)
Theorem top_monotone : forall p L L' fuel, L <= L' -> upto_overflow (top p L fuel) (top p L' fuel).
Proof.
  intros * HL. unfold top.
  apply upto_obind; [apply run_upto, HL | intros [r st1]].
  apply upto_obind; [apply upto_refl | intros v].
  apply upto_obind; [apply run_upto, HL | intros [r2 st2]].
  apply upto_obind; [apply run_upto, HL | intros [rs st3]]. apply upto_refl.
Qed.

Theorem top_limit_monotone : forall p L L' fuel x,
  top p L fuel = Ok x -> L <= L' -> top p L' fuel = Ok x.
Proof.
  intros * E HL. rewrite <- E. apply top_monotone; [exact HL|]. rewrite E. discriminate.
Qed.

Lemma alloc_all_peak : forall es st env ts st',
  alloc_all st es env = (ts, st') -> peak st' = peak st.
Proof.
  induction es as [|e r IH]; intros st env ts st' E; cbn [alloc_all] in E.
  - injection E as <- <-. reflexivity.
  - unfold alloc in E. destruct (alloc_all _ r env) as [ts2 st2] eqn:E2.
    injection E as <- <-. apply IH in E2. exact E2.
Qed.

Section Peak.
Variable P : list expr.
Variable L : N.

(* a result whose store has grown from peak [p] to at most [max p L] *)
Definition keeps (p : N) (x : res (rv * store)) : Prop :=
  forall r st', x = Ok (r, st') -> p <= peak st' /\ peak st' <= N.max p L.

Lemma keeps_ok r st : keeps (peak st) (Ok (r, st)).
Proof. intros r' st' E. injection E as <- <-. lia. Qed.

Lemma keeps_weaken p q x : p <= q -> q <= N.max p L -> keeps q x -> keeps p x.
Proof. intros H1 H2 Hx r st' E. specialize (Hx r st' E). lia. Qed.

Lemma keeps_bind p (x : res (rv * store)) k :
  keeps p x -> (forall r st1, keeps (peak st1) (k (r, st1))) -> keeps p (obind x k).
Proof.
  intros Hx Hk. destruct x as [[r st1] | e | s |]; cbn [obind]; try (intros ? ? ?; discriminate).
  destruct (Hx r st1 eq_refl). apply (keeps_weaken p (peak st1)); auto.
Qed.

Lemma keeps_pure {A} p (x : res A) k : (forall a, keeps p (k a)) -> keeps p (obind x k).
Proof. intros Hk. destruct x; cbn [obind]; [apply Hk | ..]; intros ? ? ?; discriminate. Qed.

Lemma keeps_enter d st k :
  keeps (N.max (peak st) (d + 1)) (k {| cells := cells st; peak := N.max (peak st) (d + 1) |}) ->
  keeps (peak st) (obind (enter L d st) k).
Proof.
  intros Hk. destruct (enter_cases L d st) as [[E _]|[E Hd]]; rewrite E; cbn [obind]; [intros ? ? ?; discriminate|].
  apply (keeps_weaken _ (N.max (peak st) (d + 1))); [lia | lia | exact Hk].
Qed.

(* along the syntax of a clause of [run].  The stores met on the way come from [st] by [set_cell], [alloc]
   or an entered frame, so their peak is the index of [keeps] up to computation: that is what the
   [exact]s check *)
Ltac keeps_step IH :=
  lazymatch goal with
  | |- keeps _ (obind (run _ _ _ _ _ _) _) => apply keeps_bind; [| intros ? ?; cbv beta iota]
  | |- keeps _ (obind (enter _ ?d ?st) _) => apply (keeps_enter d st)
  | |- keeps _ (obind (if ?b then _ else _) _) => destruct b
  | |- keeps _ (obind (Ok _) _) => cbn [obind]
  | |- keeps _ (obind _ _) => apply keeps_pure; intros ?
  | |- keeps _ (run _ _ _ ?d ?st ?k) => exact (IH d st k)
  | |- keeps _ (Ok (?r, ?st)) => exact (keeps_ok r st)
  | |- keeps _ (match alloc_all ?st ?es ?env with _ => _ end) =>
      let E := fresh in destruct (alloc_all st es env) eqn:E; apply alloc_all_peak in E; rewrite <- E
  | |- keeps _ (match ?x with _ => _ end) => destruct x
  | |- keeps _ _ => intros ? ? ?; discriminate
  end.

Lemma run_peak : forall fuel d st k, keeps (peak st) (run P L fuel d st k).
Proof.
  induction fuel as [|fuel IH]; intros d st k; [intros ? ? ?; discriminate|].
  destruct k as [env e|framed i|a b|xs ys|a b|xs ys|v|ts|v|ts]; [destruct e|..]; cbn [run]; unfold alloc.
  all: repeat keeps_step IH.
Qed.
End Peak.

(* no frame is ever entered beyond the limit *)
Theorem depth_never_exceeds : forall P L fuel d st k r st',
  run P L fuel d st k = Ok (r, st') -> peak st' <= N.max (peak st) L.
Proof. intros * H. apply (run_peak P L fuel d st k r st' H). Qed.

Theorem top_depth_never_exceeds : forall p L fuel s pk,
  top p L fuel = Ok (s, pk) -> pk <= L.
Proof.
  intros * H. unfold top in H.
  destruct (run (funs p) L fuel 0 (init_store p) (KEval None (main p))) as [[r st1]| | |] eqn:E1; cbn [obind] in H; try discriminate.
  destruct (as_val r) as [v| | |]; cbn [obind] in H; try discriminate.
  destruct (run (funs p) L fuel 0 st1 (KDeep v)) as [[r2 st2]| | |] eqn:E2; cbn [obind] in H; try discriminate.
  destruct (run (funs p) L fuel 0 st2 (KManifest v)) as [[r3 st3]| | |] eqn:E3; cbn [obind] in H; try discriminate.
  destruct (as_str r3) as [s3| | |]; cbn [obind] in H; try discriminate.
  injection H as <- <-.
  apply run_peak in E1. apply run_peak in E2. apply run_peak in E3.
  cbn [init_store peak] in E1. lia.
Qed.

(* forcing a thunk that is being evaluated never yields a value *)
Theorem force_in_progress : forall P L fuel d st framed i,
  nthN (cells st) i = Some CInProgress ->
  run P L (S fuel) d st (KForce framed i) =
    if (framed && (L <? d + 1))%bool then Err StackOverflow else Err InfiniteRecursion.
Proof.
  intros * H. cbn [run]. rewrite H. destruct framed; cbn [andb].
  - unfold enter. destruct (L <? d + 1); reflexivity.
  - reflexivity.
Qed.

Arguments N.leb : simpl never.
Arguments N.of_nat : simpl never.

(* the cells of the cycle program while thunks 0..i-1 are in progress *)
Definition cyc_cells (n i : nat) : list cell :=
  repeat CInProgress i ++ map (fun e => cell_of e None) (cycle_locs_from (N.of_nat i) (n - i)).

Lemma cycle_locs_length : forall m i, length (cycle_locs_from i m) = S m.
Proof. induction m as [|m IH]; intros i; cbn [cycle_locs_from length]; [reflexivity | rewrite IH; reflexivity]. Qed.

Lemma cyc_cells_length : forall n i, (i <= n)%nat -> length (cyc_cells n i) = S n.
Proof.
  intros n i H. unfold cyc_cells. rewrite app_length, repeat_length, map_length, cycle_locs_length. lia.
Qed.

Definition cyc_target (n i : nat) : N := if (i <? n)%nat then N.of_nat i + 1 else 0.

Lemma cyc_cells_nth : forall n i, (i <= n)%nat ->
  nth_error (cyc_cells n i) i = Some (CPending (ELoc (cyc_target n i)) None).
Proof.
  intros n i H. unfold cyc_cells, cyc_target.
  rewrite nth_error_app2 by (rewrite repeat_length; lia). rewrite repeat_length, Nat.sub_diag.
  destruct (n - i)%nat as [|m] eqn:E; cbn [cycle_locs_from map nth_error cell_of].
  - assert (i = n) by lia. subst. rewrite Nat.ltb_irrefl. reflexivity.
  - assert (Hlt : (i <? n)%nat = true) by (apply Nat.ltb_lt; lia). rewrite Hlt. reflexivity.
Qed.

Lemma set_nth_app_r : forall A (l1 l2 : list A) x, 
  set_nth (l1 ++ l2) (length l1) x = l1 ++ set_nth l2 0 x.
Proof.
  induction l1 as [|y l1 IH]; intros l2 x; cbn [app length set_nth].
  - reflexivity.
  - destruct (l1 ++ l2) eqn:E.
    + destruct l1; destruct l2; try discriminate. cbn. reflexivity.
    + rewrite <- E. rewrite IH. reflexivity.
Qed.

Lemma repeat_snoc : forall A (x : A) k, repeat x k ++ [x] = repeat x (S k).
Proof. induction k as [|k IH]; cbn [repeat app]; [reflexivity | rewrite IH; reflexivity]. Qed.

Lemma cyc_cells_set : forall n i, (i < n)%nat ->
  set_nth (cyc_cells n i) i CInProgress = cyc_cells n (S i).
Proof.
  intros n i H. unfold cyc_cells.
  pose proof (set_nth_app_r _ (repeat CInProgress i) (map (fun e => cell_of e None) (cycle_locs_from (N.of_nat i) (n - i))) CInProgress) as Hs.
  rewrite repeat_length in Hs. rewrite Hs. clear Hs.
  destruct (n - i)%nat as [|m] eqn:E; [lia|].
  cbn [cycle_locs_from map set_nth].
  replace (n - S i)%nat with m by lia.
  rewrite <- repeat_snoc, <- app_assoc. cbn [app].
  replace (N.of_nat (S i)) with (N.of_nat i + 1) by lia. reflexivity.
Qed.

Lemma nth_error_set_nth_other : forall A (l : list A) i j x, i <> j ->
  nth_error (set_nth l i x) j = nth_error l j.
Proof.
  induction l as [|y l IH]; intros i j x H; cbn [set_nth]; [destruct i; reflexivity|].
  destruct i as [|i]; destruct j as [|j]; cbn [nth_error]; try reflexivity; try contradiction.
  apply IH. lia.
Qed.

Lemma set_nth_length : forall A (l : list A) i x, length (set_nth l i x) = length l.
Proof.
  induction l as [|y l IH]; intros i x; cbn [set_nth]; [destruct i; reflexivity|].
  destruct i; cbn [length]; [reflexivity | rewrite IH; reflexivity].
Qed.

Lemma cyc_last_zero : forall n,
  nth_error (set_nth (cyc_cells n n) n CInProgress) 0 = Some CInProgress.
Proof.
  intros n. destruct n as [|n].
  - reflexivity.
  - rewrite nth_error_set_nth_other by lia. unfold cyc_cells. cbn [repeat app nth_error]. reflexivity.
Qed.

Lemma nthN_of_nat : forall A (l : list A) k, (k < length l)%nat ->
  nthN l (N.of_nat k) = nth_error l k.
Proof.
  intros * H. unfold nthN.
  destruct (N.of_nat (length l) <=? N.of_nat k) eqn:E.
  - apply N.leb_le in E. lia.
  - rewrite Nnat.Nat2N.id. reflexivity.
Qed.

(* forcing a pending thunk: a frame, the thunk marked in progress, its expression evaluated, the value stored *)
Lemma force_pending : forall P L fuel d st i e env,
  nthN (cells st) i = Some (CPending e env) ->
  run P L (S fuel) d st (KForce true i) =
    (do st0 <- enter L d st;
     do (r, st1) <- run P L fuel (d + 1) (set_cell st0 i CInProgress) (KEval env e);
     do v <- as_val r;
     Ok (RVal v, set_cell st1 i (CDone v)))%outcome.
Proof. intros * H. cbn [run]. rewrite H. reflexivity. Qed.

(* thunk i of the cycle (thunks 0..i-1 in progress) is pending and names its successor *)
Lemma cycle_thunk : forall n L i fuel pk, (i <= n)%nat ->
  run [] L (S (S fuel)) (N.of_nat i) {| cells := cyc_cells n i; peak := pk |} (KForce true (N.of_nat i)) =
    (do st0 <- enter L (N.of_nat i) {| cells := cyc_cells n i; peak := pk |};
     do (r, st1) <- run [] L fuel (N.of_nat i + 1) (set_cell st0 (N.of_nat i) CInProgress) (KForce true (cyc_target n i));
     do v <- as_val r;
     Ok (RVal v, set_cell st1 (N.of_nat i) (CDone v)))%outcome.
Proof.
  intros * Hi. rewrite (force_pending _ _ _ _ _ _ (ELoc (cyc_target n i)) None); [reflexivity|].
  cbn [cells]. rewrite nthN_of_nat by (rewrite cyc_cells_length; lia). apply cyc_cells_nth, Hi.
Qed.

(* the frame of thunk i is the first to overflow if L < i + 1; otherwise the chain goes on to thunk
   i + 1, and from thunk n back to thunk 0, which is in progress: that needs the frame n + 2 *)
Lemma cycle_force : forall n L m i fuel pk, (i + m = n)%nat -> (2 * m + 4 <= fuel)%nat ->
  run [] L fuel (N.of_nat i) {| cells := cyc_cells n i; peak := pk |} (KForce true (N.of_nat i)) =
    if N.of_nat n + 2 <=? L then Err InfiniteRecursion else Err StackOverflow.
Proof.
  intros n L. induction m as [|m IH]; intros i fuel pk Him Hf.
  - assert (i = n) by lia. subst i.
    destruct fuel as [|[|[|fuel]]]; try lia. rewrite cycle_thunk by lia.
    destruct (enter_cases L (N.of_nat n) {| cells := cyc_cells n n; peak := pk |}) as [[E Hd]|[E Hd]]; rewrite E; cbn [obind].
    + destruct (N.leb_spec (N.of_nat n + 2) L); [lia | reflexivity].
    + unfold cyc_target. rewrite Nat.ltb_irrefl.
      rewrite force_in_progress
        by (unfold set_cell; cbn [cells]; rewrite Nnat.Nat2N.id; change 0 with (N.of_nat 0);
            rewrite nthN_of_nat by (rewrite set_nth_length, cyc_cells_length; lia); apply cyc_last_zero).
      cbn [andb obind].
      destruct (N.ltb_spec L (N.of_nat n + 1 + 1)), (N.leb_spec (N.of_nat n + 2) L); reflexivity || lia.
  - destruct fuel as [|[|fuel]]; try lia. rewrite cycle_thunk by lia.
    destruct (enter_cases L (N.of_nat i) {| cells := cyc_cells n i; peak := pk |}) as [[E Hd]|[E Hd]]; rewrite E; cbn [obind].
    + destruct (N.leb_spec (N.of_nat n + 2) L); [lia | reflexivity].
    + unfold cyc_target, set_cell. replace (i <? n)%nat with true by (symmetry; apply Nat.ltb_lt; lia).
      cbn [cells peak]. rewrite Nnat.Nat2N.id, cyc_cells_set by lia.
      replace (N.of_nat i + 1) with (N.of_nat (S i)) by lia.
      rewrite (IH (S i) fuel) by lia. destruct (N.of_nat n + 2 <=? L); reflexivity.
Qed.

Theorem cycle_detected : forall n L fuel, (2 * n + 6 <= fuel)%nat ->
  top (cycle_program n) L fuel =
    if N.of_nat n + 2 <=? L then Err InfiniteRecursion else Err StackOverflow.
Proof.
  intros * Hf. unfold top, cycle_program, init_store. cbn [funs locs main].
  destruct fuel as [|f]; [lia|]. cbn [run].
  pose proof (cycle_force n L n 0 f 0 ltac:(lia) ltac:(lia)) as Hc.
  unfold cyc_cells in Hc. cbn [repeat app] in Hc. rewrite Nat.sub_0_r in Hc.
  change (N.of_nat 0) with 0 in Hc. rewrite Hc.
  destruct (N.of_nat n + 2 <=? L); reflexivity.
Qed.
