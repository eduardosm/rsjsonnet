(* Proofs/Lexer_proofs.v — the lexer of Model/Lexer.v.  Every run on bytes ends in
   tokens whose spans tile the input, or in one error located inside it: never a
   panic, never out of fuel.  An operator token is the longest admissible one; the
   values of string literals are given by grammars on the code points of the lossy
   decoding.  What the scanners know of a cursor is one relation, [ext] (moved
   forward over some bytes), and one invariant, [inv]. *)
From RJ Require Import Base.Outcome Model.Token Model.Utf8 Model.Lexer Proofs.Utf8_proofs.
From Coq Require Import Lia.
Local Open Scope N_scope.

Definition non_trivia (t : token) : bool := negb (is_trivia (tok_kind t)).

Lemma eof_not_trivia k : is_eof k = true -> is_trivia k = false.
Proof. destruct k; simpl; congruence. Qed.

Lemma lex_loop_filter len fuel c :
  lex_loop len fuel false c = omap (filter non_trivia) (lex_loop len fuel true c).
Proof.
  revert c. induction fuel as [|f IH]; intros c; [reflexivity|].
  cbn [lex_loop]. destruct (next_token len c) as [[t c']| | |]; cbn [obind omap]; try reflexivity.
  destruct (is_eof (tok_kind t)) eqn:He.
  - unfold omap; cbn [obind filter]. unfold non_trivia. rewrite (eof_not_trivia _ He). reflexivity.
  - rewrite IH. destruct (lex_loop len f true c') as [ts| | |]; unfold omap; cbn [obind]; reflexivity.
Qed.

Theorem lex_filter input :
  lex_all false input = omap (filter non_trivia) (lex_all true input).
Proof. apply lex_loop_filter. Qed.

Definition ext_by (l : list N) (c c' : cur) : Prop :=
  rest c = l ++ rest c' /\ pos c' = pos c + N.of_nat (length l).
Definition ext (c c' : cur) : Prop := exists l, ext_by l c c'.
Definition sext (c c' : cur) : Prop := exists l, l <> [] /\ ext_by l c c'.

Definition wfc (len : N) (c : cur) : Prop := pos c + N.of_nat (length (rest c)) = len.

Lemma ext_by_ext l a b : ext_by l a b -> ext a b.
Proof. intros H. exists l. exact H. Qed.

Lemma ext_by_sext l a b : l <> [] -> ext_by l a b -> sext a b.
Proof. intros N H. exists l. split; assumption. Qed.

Lemma ext_refl c : ext c c.
Proof. exists []. split; [reflexivity|cbn; lia]. Qed.

Lemma ext_step ps b r : ext_by [b] {| pos := ps; rest := b :: r |} {| pos := ps + 1; rest := r |}.
Proof. split; reflexivity. Qed.

Lemma ext_by_trans l1 l2 a b c : ext_by l1 a b -> ext_by l2 b c -> ext_by (l1 ++ l2) a c.
Proof.
  intros [H1 P1] [H2 P2]. split.
  - rewrite H1, H2, app_assoc. reflexivity.
  - rewrite P2, P1, app_length. lia.
Qed.

Lemma ext_trans a b c : ext a b -> ext b c -> ext a c.
Proof. intros [l1 H1] [l2 H2]. exists (l1 ++ l2). eapply ext_by_trans; eassumption. Qed.

Lemma sext_ext a b : sext a b -> ext a b.
Proof. intros [l [_ H]]. exists l. exact H. Qed.

Lemma sext_ext_trans a b c : sext a b -> ext b c -> sext a c.
Proof.
  intros [l1 [N1 H1]] [l2 H2]. exists (l1 ++ l2). split.
  - destruct l1; [congruence|discriminate].
  - eapply ext_by_trans; eassumption.
Qed.

Lemma ext_sext_trans a b c : ext a b -> sext b c -> sext a c.
Proof.
  intros [l1 H1] [l2 [N2 H2]]. exists (l1 ++ l2). split.
  - destruct l1; [exact N2|discriminate].
  - eapply ext_by_trans; eassumption.
Qed.

Lemma ext_wfc len a b : ext a b -> wfc len a -> wfc len b.
Proof. intros [l [H P]] W. unfold wfc in *. rewrite H, app_length in W. lia. Qed.

Lemma ext_pos a b : ext a b -> pos a <= pos b.
Proof. intros [l [_ P]]. lia. Qed.

Lemma sext_pos a b : sext a b -> pos a < pos b.
Proof. intros [l [Hn [_ P]]]. destruct l; [congruence|]. cbn [length] in P. lia. Qed.

Lemma ext_len a b : ext a b -> (length (rest b) <= length (rest a))%nat.
Proof. intros [l [H _]]. rewrite H, app_length. lia. Qed.

Lemma sext_len a b : sext a b -> (length (rest b) < length (rest a))%nat.
Proof. intros [l [Hn [H _]]]. rewrite H, app_length. destruct l; [congruence|cbn; lia]. Qed.

Lemma ext_bytes a b : ext a b -> bytes_ok (rest a) -> bytes_ok (rest b).
Proof. intros [l [H _]] B. rewrite H in B. apply Forall_app in B. tauto. Qed.

Lemma wfc_pos_le len c : wfc len c -> pos c <= len.
Proof. unfold wfc. lia. Qed.

Lemma eat_any_byte_ext c b c' : eat_any_byte c = Some (b, c') -> ext_by [b] c c'.
Proof.
  unfold eat_any_byte. destruct (rest c) as [|x r] eqn:E; intros H; inversion H; subst.
  split; cbn; [exact E|lia].
Qed.

Lemma eat_any_byte_none c : eat_any_byte c = None -> rest c = [].
Proof. unfold eat_any_byte. destruct (rest c); [reflexivity|discriminate]. Qed.

Lemma eat_map_byte_ext {R} (f : N -> option R) c x c' :
  eat_map_byte f c = Some (x, c') -> exists b, f b = Some x /\ ext_by [b] c c'.
Proof.
  unfold eat_map_byte. destruct (rest c) as [|y r] eqn:E; [discriminate|].
  destruct (f y) eqn:Hf; intros H; inversion H; subst. exists y. split; [exact Hf|].
  split; cbn; [exact E|lia].
Qed.

Lemma eat_byte_ext b c c' : eat_byte b c = Some c' -> ext_by [b] c c'.
Proof.
  unfold eat_byte, eat_byte_if. destruct (rest c) as [|x r] eqn:E; [discriminate|].
  destruct (N.eqb_spec b x) as [->|]; intros H; inversion H; subst. split; cbn; [exact E|lia].
Qed.

Lemma eat_byte_sext b c c' : eat_byte b c = Some c' -> sext c c'.
Proof. intros H. apply eat_byte_ext in H. eapply ext_by_sext; [|exact H]. discriminate. Qed.

Lemma strip_prefix_app s : forall r r', strip_prefix s r = Some r' -> r = s ++ r'.
Proof.
  induction s as [|x s IH]; intros r r' H; cbn in *; [inversion H; reflexivity|].
  destruct r as [|y r]; [discriminate|]. destruct (N.eqb_spec x y); [|discriminate].
  subst. f_equal. apply IH, H.
Qed.

Lemma eat_slice_ext s c c' : eat_slice s c = Some c' -> ext_by s c c'.
Proof.
  unfold eat_slice. destruct (strip_prefix s (rest c)) as [r'|] eqn:E; intros H; inversion H; subst.
  split; cbn; [apply strip_prefix_app, E|reflexivity].
Qed.

Lemma eat_while_ext p c : exists l, Forall (fun b => p b = true) l /\ ext_by l c (eat_while p c).
Proof.
  destruct c as [ps r]. unfold eat_while. cbn [pos rest]. revert ps.
  induction r as [|b r IH]; intros ps; cbn [eat_while_from].
  - exists []. split; [constructor|]. split; cbn; [reflexivity|lia].
  - destruct (p b) eqn:Hp.
    + destruct (IH (ps + 1)) as [l [Hl H]]. exists (b :: l). split; [constructor; assumption|].
      exact (ext_by_trans _ _ _ _ _ (ext_step ps b r) H).
    + exists []. split; [constructor|]. split; cbn; [reflexivity|lia].
Qed.

Lemma bytes_between_app l a b : rest a = l ++ rest b -> bytes_between a b = l.
Proof.
  intros H. unfold bytes_between. rewrite H, app_length, Nat.add_sub.
  rewrite <- (Nat.add_0_r (length l)), firstn_app_2. apply app_nil_r.
Qed.

(* case split on the first binary digits of an N: a match on the numerals 10 / 13 reduces in every branch *)
Ltac case_N b :=
  destruct b as [|b]; [try reflexivity|];
  destruct b as [b|b|]; try reflexivity;
  destruct b as [b|b|]; try reflexivity;
  destruct b as [b|b|]; try reflexivity;
  destruct b as [b|b|]; try reflexivity.

(* tb_blank_lines in test form (the model matches on numerals) *)
Lemma tb_blank_lines_eq ps r :
  tb_blank_lines ps r =
  match r with
  | [] => ([], {| pos := ps; rest := r |})
  | b :: r' =>
      if b =? 10 then let '(s, c) := tb_blank_lines (ps + 1) r' in (10 :: s, c)
      else if b =? 13 then
        match r' with
        | b' :: r'' => if b' =? 10 then let '(s, c) := tb_blank_lines (ps + 2) r'' in (13 :: 10 :: s, c)
                       else ([], {| pos := ps; rest := r |})
        | [] => ([], {| pos := ps; rest := r |})
        end
      else ([], {| pos := ps; rest := r |})
  end.
Proof.
  destruct r as [|b r']; [reflexivity|].
  case_N b.
  destruct r' as [|b' r'']; [reflexivity|]. case_N b'.
Qed.

Section Specs.
Variable len : N.

Definition located (e : lex_error) : Prop :=
  fst (err_span e) <= snd (err_span e) /\ snd (err_span e) <= len.

Definition good {A} (P : A -> Prop) (r : res A) : Prop :=
  match r with
  | Ok a => P a
  | Err e => located e
  | Panic _ => False
  | OutOfFuel => False
  end.

Lemma good_bind {A B} (Q : A -> Prop) (P : B -> Prop) (x : res A) (f : A -> res B) :
  good Q x -> (forall a, Q a -> good P (f a)) -> good P (obind x f).
Proof. destruct x; cbn; auto. Qed.

Lemma good_mono {A} (P Q : A -> Prop) (r : res A) :
  good P r -> (forall a, P a -> Q a) -> good Q r.
Proof. destruct r; cbn; auto. Qed.

Lemma make_span_ok s e : s <= e -> e <= len -> make_span len s e = Ok (s, e).
Proof.
  intros H1 H2. unfold make_span.
  rewrite (proj2 (N.leb_le s e) H1), (proj2 (N.ltb_ge len s)), (proj2 (N.ltb_ge len e) H2) by lia.
  reflexivity.
Qed.

Lemma good_fail {A} (P : A -> Prop) k s e : s <= e -> e <= len -> good P (fail len k s e).
Proof. intros H1 H2. unfold fail. rewrite make_span_ok by assumption. cbn. split; assumption. Qed.

Lemma usub_ok a b : b <= a -> usub a b = Ok (a - b).
Proof. intros H. unfold usub. rewrite (proj2 (N.ltb_ge a b) H). reflexivity. Qed.

(* what the scanner of a token that starts at offset [start] knows of every
   cursor it reaches *)
Definition inv (start : N) (c : cur) : Prop := start <= pos c /\ wfc len c /\ bytes_ok (rest c).

Lemma inv_ext start a b : ext a b -> inv start a -> inv start b.
Proof.
  intros E [S [W B]]. pose proof (ext_pos _ _ E).
  split; [lia|]. split; [exact (ext_wfc _ _ _ E W)|exact (ext_bytes _ _ E B)].
Qed.

Lemma good_fail_at {A} (P : A -> Prop) k start s c : inv start c -> s <= pos c ->
  good P (fail len k s (pos c)).
Proof. intros [_ [W _]] H. apply good_fail; [exact H|exact (wfc_pos_le _ _ W)]. Qed.

Definition tok_post (start : N) (c0 : cur) (p : token * cur) : Prop :=
  ext c0 (snd p) /\ tok_span (fst p) = (start, pos (snd p)) /\ is_eof (tok_kind (fst p)) = false.

Lemma good_commit start c0 c k : is_eof k = false -> ext c0 c -> inv start c0 ->
  good (tok_post start c0) (commit len start c k).
Proof.
  intros K E I. destruct (inv_ext _ _ _ E I) as [S [W _]]. unfold commit.
  rewrite make_span_ok by (try exact S; exact (wfc_pos_le _ _ W)).
  cbn. split; [exact E|split; [reflexivity|exact K]].
Qed.

Lemma line_comment_ext : forall r ps, ext {| pos := ps; rest := r |} (line_comment_from ps r).
Proof.
  induction r as [|b r IH]; intros ps; cbn [line_comment_from]; [apply ext_refl|].
  pose proof (ext_by_ext _ _ _ (ext_step ps b r)) as Eb.
  destruct (b =? 10); [exact Eb|exact (ext_trans _ _ _ Eb (IH _))].
Qed.

Lemma good_single_line_comment start c : inv start c ->
  good (tok_post start c) (lex_single_line_comment len start c).
Proof.
  intros I. apply good_commit; [reflexivity| |exact I]. destruct c as [ps r]. apply line_comment_ext.
Qed.

Lemma block_comment_ext : forall r ps c', block_comment_from ps r = Some c' ->
  ext {| pos := ps; rest := r |} c'.
Proof.
  induction r as [|b r IH]; intros ps c' H; cbn [block_comment_from] in H; [discriminate|].
  destruct r as [|b' r'']; [discriminate|].
  destruct ((b =? 42) && (b' =? 47)).
  - inversion H; subst. exists [b; b']. split; cbn; [reflexivity|lia].
  - exact (ext_trans _ _ _ (ext_by_ext _ _ _ (ext_step ps b _)) (IH _ _ H)).
Qed.

Lemma good_multi_line_comment start c : inv start c ->
  good (tok_post start c) (lex_multi_line_comment len start c).
Proof.
  intros I. unfold lex_multi_line_comment.
  destruct (block_comment_from (pos c) (rest c)) as [c'|] eqn:B.
  - apply good_commit; [reflexivity| |exact I]. destruct c as [ps r]. apply block_comment_ext, B.
  - destruct I as [S [W _]]. pose proof (wfc_pos_le _ _ W). apply good_fail; lia.
Qed.

Definition ascii_bytes (l : list N) : Prop := Forall (fun b => b < 128) l.

Lemma mem_byte_in b l : mem_byte b l = true -> In b l.
Proof.
  unfold mem_byte. rewrite existsb_exists. intros [x [Hx E]]. apply N.eqb_eq in E. subst. exact Hx.
Qed.

(* membership in a table of ASCII bytes; the side condition is closed by evaluation *)
Lemma mem_byte_ascii l b : forallb (fun x => x <? 128) l = true -> mem_byte b l = true -> b < 128.
Proof. rewrite forallb_forall. intros H M. apply N.ltb_lt, H, mem_byte_in, M. Qed.

Lemma ascii_str_ok site bs : ascii_bytes bs -> ascii_str site bs = Ok bs.
Proof.
  intros H. unfold ascii_str.
  replace (forallb (fun b => b <? 128) bs) with true; [reflexivity|].
  symmetry. apply forallb_forall. intros x Hx. apply N.ltb_lt. exact (proj1 (Forall_forall _ _) H x Hx).
Qed.

Definition is_op_byte (b : N) : bool := mem_byte b op_sure_bytes || mem_byte b op_unsure_bytes.

Lemma op_byte_ascii b : is_op_byte b = true -> b < 128.
Proof.
  unfold is_op_byte. rewrite orb_true_iff. intros [H|H]; revert H; apply mem_byte_ascii; reflexivity.
Qed.

Lemma op_loop_spec : forall r ps acc sp sr sacc,
  ext {| pos := sp; rest := sr |} {| pos := ps; rest := r |} ->
  ascii_bytes acc -> ascii_bytes sacc ->
  let '(c', racc) := op_loop r ps acc sp sr sacc in
  ext {| pos := sp; rest := sr |} c' /\ ascii_bytes racc.
Proof.
  induction r as [|b r IH]; intros ps acc sp sr sacc E A SA; cbn [op_loop].
  - destruct (op_forbidden_here []); split; try apply ext_refl; assumption.
  - destruct (op_forbidden_here (b :: r)); [split; [apply ext_refl|assumption]|].
    pose proof (ext_trans _ _ _ E (ext_by_ext _ _ _ (ext_step ps b r))) as E'.
    assert (A' : is_op_byte b = true -> ascii_bytes (b :: acc)).
    { intros Hb. constructor; [apply op_byte_ascii, Hb|exact A]. }
    unfold is_op_byte in A'.
    destruct (mem_byte b op_sure_bytes).
    + specialize (IH (ps + 1) (b :: acc) (ps + 1) r (b :: acc) (ext_refl _) (A' eq_refl) (A' eq_refl)).
      destruct (op_loop r (ps + 1) (b :: acc) (ps + 1) r (b :: acc)) as [c' racc].
      split; [exact (ext_trans _ _ _ E' (proj1 IH))|exact (proj2 IH)].
    + destruct (mem_byte b op_unsure_bytes).
      * apply IH; [exact E'|exact (A' eq_refl)|exact SA].
      * split; [apply ext_refl|exact SA].
Qed.

Lemma good_operator start b0 c : inv start c -> b0 < 128 ->
  good (tok_post start c) (lex_operator len start b0 c).
Proof.
  intros I Hb. unfold lex_operator.
  assert (A0 : ascii_bytes [b0]) by (constructor; [exact Hb|constructor]).
  pose proof (op_loop_spec (rest c) (pos c) [b0] (pos c) (rest c) [b0] (ext_refl _) A0 A0) as L.
  destruct (op_loop (rest c) (pos c) [b0] (pos c) (rest c) [b0]) as [c' racc].
  destruct L as [L1 L2]. assert (E' : ext c c') by (destruct c; exact L1).
  destruct (assoc_bytes (rev racc) operator_table).
  - apply good_commit; [reflexivity|exact E'|exact I].
  - rewrite ascii_str_ok by (apply Forall_rev; exact L2). cbn [obind].
    apply good_commit; [reflexivity|exact E'|exact I].
Qed.

(* a byte from 128 up fails every test of the class *)
Lemma ident_cont_ascii b : is_ident_cont b = true -> b < 128.
Proof.
  intros H. destruct (N.lt_ge_cases b 128) as [|G]; [assumption|]. unfold is_ident_cont in H.
  rewrite !in_range_false, (proj2 (N.eqb_neq b 95)) in H by lia. discriminate.
Qed.

Lemma good_ident start b0 c : inv start c -> b0 < 128 ->
  good (tok_post start c) (lex_ident len start b0 c).
Proof.
  intros I Hb. unfold lex_ident.
  destruct (eat_while_ext is_ident_cont c) as [l [Hl El]].
  rewrite (bytes_between_app l _ _ (proj1 El)). pose proof (ext_by_ext _ _ _ El) as E'.
  destruct (assoc_bytes (b0 :: l) keyword_table).
  - apply good_commit; [reflexivity|exact E'|exact I].
  - rewrite ascii_str_ok.
    + cbn [obind]. apply good_commit; [reflexivity|exact E'|exact I].
    + constructor; [exact Hb|]. exact (Forall_impl _ ident_cont_ascii Hl).
Qed.

(* every error span of the number scanner reaches back at most two bytes, and two
   only from the state after an exponent sign, which is at least two bytes in *)
Lemma good_num_stop st a c : 1 <= pos c -> (st = NExpSign -> 2 <= pos c) -> wfc len c ->
  good (fun p : nacc * cur => ext c (snd p)) (num_stop len st a c).
Proof.
  intros P1 P2 W. pose proof (wfc_pos_le _ _ W) as PL. unfold num_stop.
  destruct st as [[|]| |[|]| | |[|]]; cbn [good snd]; try apply ext_refl;
    try (rewrite usub_ok by lia; cbn [obind]; apply good_fail; lia).
  rewrite usub_ok by (specialize (P2 eq_refl); lia). cbn [obind]. apply good_fail; lia.
Qed.

Lemma good_num_loop lz : forall r ps st a,
  1 <= ps -> (st = NExpSign -> 2 <= ps) -> wfc len {| pos := ps; rest := r |} ->
  good (fun p : nacc * cur => ext {| pos := ps; rest := r |} (snd p)) (num_loop len lz r ps st a).
Proof.
  induction r as [|b r IH]; intros ps st a P1 P2 W; cbn [num_loop]; [apply good_num_stop; assumption|].
  pose proof (ext_by_ext _ _ _ (ext_step ps b r)) as Eb. pose proof (ext_wfc _ _ _ Eb W) as W'.
  pose proof (wfc_pos_le _ _ W') as PL. cbn [pos] in PL.
  destruct (num_step lz st a b) as [st' a'| |].
  - eapply good_mono; [apply (IH (ps + 1) st' a'); [lia|lia|exact W']|].
    intros p Hp. exact (ext_trans _ _ _ Eb Hp).
  - rewrite !usub_ok by lia. cbn [obind]. apply good_fail; lia.
  - apply good_num_stop; assumption.
Qed.

Lemma good_number start b0 c : inv start c -> start < pos c -> is_digit b0 = true ->
  good (tok_post start c) (lex_number len start b0 c).
Proof.
  intros I PS D. unfold lex_number. rewrite D. cbn [negb].
  eapply good_bind.
  - apply (good_num_loop (b0 =? 48) (rest c) (pos c)); [lia|discriminate|]. destruct c. apply I.
  - intros [a c'] Hp. cbn [snd] in Hp. assert (E' : ext c c') by (destruct c; exact Hp).
    destruct (eff_exp a).
    + apply good_commit; [reflexivity|exact E'|exact I].
    + pose proof (inv_ext _ _ _ E' I) as I'. exact (good_fail_at _ _ start _ _ I' (proj1 I')).
Qed.

Lemma good_eat_cont_any_char b0 c : b0 < 256 -> bytes_ok (rest c) ->
  good (fun p : cur * option N => ext c (fst p)) (eat_cont_any_char b0 c).
Proof.
  intros Hb Hr. unfold eat_cont_any_char.
  destruct (@decode_no_panic lex_error b0 (rest c) Hb Hr) as [k [oc [D Hk]]].
  rewrite D. cbn [obind good fst].
  exists (firstn k (rest c)). split; cbn [rest pos].
  - symmetry. apply firstn_skipn.
  - rewrite firstn_length_le by exact Hk. reflexivity.
Qed.

Lemma good_eat_any_char c : bytes_ok (rest c) ->
  good (fun r : option (cur * option N) =>
          match r with None => rest c = [] | Some p => sext c (fst p) end) (eat_any_char c).
Proof.
  intros Hr. unfold eat_any_char. destruct (eat_any_byte c) as [[b0 c1]|] eqn:B.
  - pose proof (eat_any_byte_ext _ _ _ B) as E1.
    assert (Hb : b0 < 256 /\ bytes_ok (rest c1)).
    { destruct E1 as [H _]. rewrite H in Hr. inversion Hr; subst. split; assumption. }
    eapply good_bind; [apply good_eat_cont_any_char; tauto|].
    intros [c2 oc] Hp. cbn [fst] in Hp. cbn [good fst].
    eapply sext_ext_trans; [|exact Hp]. eapply ext_by_sext; [|exact E1]. discriminate.
  - cbn. apply eat_any_byte_none, B.
Qed.

Definition loop_post (P : list N -> Prop) (c : cur) (p : list N * cur) : Prop :=
  sext c (snd p) /\ P (fst p).

(* the recursive call of a string scanner (quoted_loop, verbatim_loop, tb_body_loop), from a
   cursor strictly ahead ([IH] covers every cursor with less input left than the fuel), the
   text of the result put through [g] *)
Lemma good_loop_rec (loop : cur -> res (list N * cur)) P start f c :
  (forall c2, (length (rest c2) < f)%nat -> inv start c2 -> good (loop_post P c2) (loop c2)) ->
  (length (rest c) < S f)%nat -> inv start c ->
  forall c2 (g : list N -> list N), sext c c2 -> (forall s, P s -> P (g s)) ->
  good (loop_post P c) (obind (loop c2) (fun t => let '(s, c3) := t in Ok (g s, c3))).
Proof.
  intros IH F I c2 g S2 Hg. eapply good_bind.
  - apply (IH c2); [pose proof (sext_len _ _ S2); lia|exact (inv_ext _ _ _ (sext_ext _ _ S2) I)].
  - intros [s c3] [S3 L3]. split; [exact (sext_ext_trans _ _ _ S2 (sext_ext _ _ S3))|exact (Hg _ L3)].
Qed.

Lemma eat_codeunit_spec c :
  match eat_codeunit c with
  | (Some cu, c') => exists x0 x1 x2 x3 d0 d1 d2 d3, ext_by [x0; x1; x2; x3] c c' /\
      hex_from_digit x0 = Some d0 /\ hex_from_digit x1 = Some d1 /\
      hex_from_digit x2 = Some d2 /\ hex_from_digit x3 = Some d3 /\
      cu = N.lor (N.lor (N.lor (N.shiftl d0 12) (N.shiftl d1 8)) (N.shiftl d2 4)) d3
  | (None, c') => ext c c'
  end.
Proof.
  unfold eat_codeunit.
  destruct (eat_map_byte hex_from_digit c) as [[d0 c1]|] eqn:M0; [|apply ext_refl].
  apply eat_map_byte_ext in M0 as [x0 [H0 E0]].
  destruct (eat_map_byte hex_from_digit c1) as [[d1 c2]|] eqn:M1; [|exact (ext_by_ext _ _ _ E0)].
  apply eat_map_byte_ext in M1 as [x1 [H1 E1]]. pose proof (ext_by_trans _ _ _ _ _ E0 E1) as E01.
  destruct (eat_map_byte hex_from_digit c2) as [[d2 c3]|] eqn:M2; [|exact (ext_by_ext _ _ _ E01)].
  apply eat_map_byte_ext in M2 as [x2 [H2 E2]]. pose proof (ext_by_trans _ _ _ _ _ E01 E2) as E02.
  destruct (eat_map_byte hex_from_digit c3) as [[d3 c4]|] eqn:M3; [|exact (ext_by_ext _ _ _ E02)].
  apply eat_map_byte_ext in M3 as [x3 [H3 E3]]. pose proof (ext_by_trans _ _ _ _ _ E02 E3) as E03.
  exists x0, x1, x2, x3, d0, d1, d2, d3. auto 10.
Qed.

Lemma eat_codeunit_ext c : ext c (snd (eat_codeunit c)) /\
  (forall cu, fst (eat_codeunit c) = Some cu -> pos (snd (eat_codeunit c)) = pos c + 4).
Proof.
  pose proof (eat_codeunit_spec c) as H. destruct (eat_codeunit c) as [[cu|] c']; cbn [fst snd].
  - destruct H as (x0 & x1 & x2 & x3 & _ & _ & _ & _ & E & _).
    split; [exact (ext_by_ext _ _ _ E)|intros _ _; exact (proj2 E)].
  - split; [exact H|discriminate].
Qed.

Lemma good_escape start c1 : inv start c1 -> start < pos c1 ->
  good (fun p : N * cur => ext c1 (snd p)) (lex_escape len start c1).
Proof.
  intros I P1. unfold lex_escape. rewrite usub_ok by lia. cbn [obind].
  assert (FAIL : forall k s c', ext c1 c' -> s <= pos c' ->
            good (fun p : N * cur => ext c1 (snd p)) (fail len k s (pos c'))).
  { intros k s c' E. apply (good_fail_at _ _ start), (inv_ext _ _ _ E I). }
  destruct (eat_map_byte (fun b => assoc_byte b escape_table) c1) as [[ch c2]|] eqn:M.
  { apply eat_map_byte_ext in M as [x [_ E]]. exact (ext_by_ext _ _ _ E). }
  destruct (eat_byte 117 c1) as [c2|] eqn:U.
  { apply eat_byte_ext in U. pose proof (ext_by_ext _ _ _ U) as E2. destruct U as [_ PU]. cbn in PU.
    destruct (eat_codeunit_ext c2) as [E3 P3]. pose proof (ext_trans _ _ _ E2 E3) as E13.
    destruct (eat_codeunit c2) as [[cu1|] c3]; cbn [fst snd] in *.
    2:{ apply FAIL; [exact E13|]. pose proof (ext_pos _ _ E13). lia. }
    specialize (P3 cu1 eq_refl).
    destruct (if is_surrogate cu1 then eat_slice [92; 117] c3 else None) as [c4|] eqn:SL.
    - assert (E4 : ext_by [92; 117] c3 c4).
      { destruct (is_surrogate cu1); [|discriminate]. apply eat_slice_ext, SL. }
      destruct (eat_codeunit_ext c4) as [E5 _].
      pose proof (ext_trans _ _ _ E13 (ext_trans _ _ _ (ext_by_ext _ _ _ E4) E5)) as E15.
      pose proof (ext_pos _ _ E5). destruct E4 as [_ P4]. cbn in P4.
      destruct (eat_codeunit c4) as [[cu2|] c5]; cbn [fst snd] in *.
      + destruct (decode_utf16_pair cu1 cu2); [exact E15|]. apply FAIL; [exact E15|lia].
      + apply FAIL; [exact E15|lia].
    - destruct (is_scalar cu1); [exact E13|]. apply FAIL; [exact E13|lia]. }
  eapply good_bind; [apply good_eat_any_char, I|].
  intros [[c2 oc]|] Hp; cbn [fst] in Hp.
  - apply FAIL; [exact (sext_ext _ _ Hp)|]. pose proof (sext_pos _ _ Hp). lia.
  - apply (FAIL _ _ c1 (ext_refl _)). lia.
Qed.

Lemma good_quoted_loop start delim : forall fuel c,
  (length (rest c) < fuel)%nat -> inv start c ->
  good (loop_post (fun _ => True) c) (quoted_loop len fuel start delim c).
Proof.
  induction fuel as [|f IH]; intros c F I; [lia|]. cbn [quoted_loop].
  pose proof (good_loop_rec _ _ start f c IH F I) as REC.
  destruct (eat_byte delim c) as [c1|] eqn:D; [split; [exact (eat_byte_sext _ _ _ D)|trivial]|].
  destruct (eat_byte 92 c) as [c1|] eqn:BS.
  { apply eat_byte_sext in BS.
    eapply good_bind.
    - apply (good_escape start c1); [exact (inv_ext _ _ _ (sext_ext _ _ BS) I)|].
      pose proof (sext_pos _ _ BS). destruct I. lia.
    - intros [ch c2] E2. apply REC; [exact (sext_ext_trans _ _ _ BS E2)|trivial]. }
  eapply good_bind; [apply good_eat_any_char, I|].
  intros [[c1 oc]|] Hp; [apply REC; [exact Hp|trivial]|]. exact (good_fail_at _ _ start _ _ I (proj1 I)).
Qed.

Lemma good_quoted_string start delim c : inv start c ->
  good (tok_post start c) (lex_quoted_string len start delim c).
Proof.
  intros I. unfold lex_quoted_string.
  eapply good_bind; [apply good_quoted_loop; [lia|exact I]|].
  intros [s c'] [S' _]. apply good_commit; [reflexivity|exact (sext_ext _ _ S')|exact I].
Qed.

Lemma good_verbatim_loop start delim : forall fuel c,
  (length (rest c) < fuel)%nat -> inv start c ->
  good (loop_post (fun _ => True) c) (verbatim_loop len fuel start delim c).
Proof.
  induction fuel as [|f IH]; intros c F I; [lia|]. cbn [verbatim_loop].
  pose proof (good_loop_rec _ _ start f c IH F I) as REC.
  destruct (eat_byte delim c) as [c1|] eqn:D.
  { apply eat_byte_sext in D. destruct (eat_byte delim c1) as [c2|] eqn:D2; [|split; [exact D|trivial]].
    apply REC; [|trivial]. exact (sext_ext_trans _ _ _ D (sext_ext _ _ (eat_byte_sext _ _ _ D2))). }
  eapply good_bind; [apply good_eat_any_char, I|].
  intros [[c1 oc]|] Hp; [apply REC; [exact Hp|trivial]|]. exact (good_fail_at _ _ start _ _ I (proj1 I)).
Qed.

Lemma good_verbatim_string start delim c : inv start c ->
  good (tok_post start c) (lex_verbatim_string len start delim c).
Proof.
  intros I. unfold lex_verbatim_string.
  eapply good_bind; [apply good_verbatim_loop; [lia|exact I]|].
  intros [s c'] [S' _]. apply good_commit; [reflexivity|exact (sext_ext _ _ S')|exact I].
Qed.

Definition ends_lf (s : list N) : Prop := exists s', s = s' ++ [10].

Lemma ends_lf_cons x s : ends_lf s -> ends_lf (x :: s).
Proof. intros [s' ->]. exists (x :: s'). reflexivity. Qed.

Lemma ends_lf_app a s : ends_lf s -> ends_lf (a ++ s).
Proof. intros [s' ->]. exists (a ++ s'). rewrite app_assoc. reflexivity. Qed.

Lemma strip_last_lf_ok s : ends_lf s -> exists s', s = s' ++ [10] /\ strip_last_lf s = Ok s'.
Proof.
  intros [s' ->]. exists s'. split; [reflexivity|].
  unfold strip_last_lf. rewrite rev_app_distr. cbn [rev app]. rewrite rev_involutive. reflexivity.
Qed.

Lemma eat_opt_ext {A} b (x y : A) c :
  ext c (snd (match eat_byte b c with Some c2 => (x, c2) | None => (y, c) end)).
Proof.
  destruct (eat_byte b c) as [c2|] eqn:R; [|apply ext_refl]. exact (sext_ext _ _ (eat_byte_sext _ _ _ R)).
Qed.

(* the blank lines are whole lines: appended to text that ends a line, they end a line *)
Lemma tb_blank_lines_spec : forall r ps,
  ext {| pos := ps; rest := r |} (snd (tb_blank_lines ps r)) /\
  (forall s, ends_lf s -> ends_lf (s ++ fst (tb_blank_lines ps r))).
Proof.
  fix IH 1. intros r ps. rewrite tb_blank_lines_eq.
  assert (STOP : ext {| pos := ps; rest := r |} (snd (@nil N, {| pos := ps; rest := r |})) /\
                 (forall s, ends_lf s -> ends_lf (s ++ fst (@nil N, {| pos := ps; rest := r |})))).
  { split; [apply ext_refl|]. intros s H. cbn. rewrite app_nil_r. exact H. }
  destruct r as [|b r']; [exact STOP|]. destruct (b =? 10).
  - specialize (IH r' (ps + 1)). destruct (tb_blank_lines (ps + 1) r') as [s' c].
    cbn [fst snd] in *. destruct IH as [E H]. split.
    + exact (ext_trans _ _ _ (ext_by_ext _ _ _ (ext_step ps b r')) E).
    + intros s Hs. change (ends_lf (s ++ [10] ++ s')). rewrite app_assoc. apply H. exists s. reflexivity.
  - destruct (b =? 13); [|exact STOP]. destruct r' as [|b' r'']; [exact STOP|].
    destruct (b' =? 10); [|exact STOP].
    specialize (IH r'' (ps + 2)). destruct (tb_blank_lines (ps + 2) r'') as [s' c].
    cbn [fst snd] in *. destruct IH as [E H]. split.
    + eapply ext_trans; [|exact E]. exists [b; b']. split; cbn; [reflexivity|lia].
    + intros s Hs. change (ends_lf (s ++ [13; 10] ++ s')). rewrite app_assoc. apply H.
      exists (s ++ [13]). rewrite <- app_assoc. reflexivity.
Qed.

Lemma good_tb_first_loop start : forall fuel c,
  (length (rest c) < fuel)%nat -> inv start c ->
  good (fun p : list N * list N * cur => ext c (snd p)) (tb_first_loop len fuel c).
Proof.
  induction fuel as [|f IH]; intros c F I; [lia|]. cbn [tb_first_loop].
  destruct (eat_while_ext is_blank c) as [l [_ E1]].
  rewrite (bytes_between_app l _ _ (proj1 E1)). apply ext_by_ext in E1.
  set (c1 := eat_while is_blank c) in *.
  pose proof (eat_opt_ext 13 [13] [] c1) as E2.
  destruct (match eat_byte 13 c1 with Some c2 => ([13], c2) | None => ([], c1) end) as [cr c2].
  cbn [snd] in E2. pose proof (ext_trans _ _ _ E1 E2) as E02.
  destruct l as [|x l]; [|exact E02].
  destruct (eat_byte 10 c2) as [c3|] eqn:LF.
  - pose proof (ext_sext_trans _ _ _ E02 (eat_byte_sext _ _ _ LF)) as S3.
    eapply good_bind.
    + apply (IH c3); [pose proof (sext_len _ _ S3); lia|exact (inv_ext _ _ _ (sext_ext _ _ S3) I)].
    + intros [[s p] c4] E4. exact (ext_trans _ _ _ (sext_ext _ _ S3) E4).
  - exact (good_fail_at _ _ start _ _ (inv_ext _ _ _ E1 I) (ext_pos _ _ E1)).
Qed.

Lemma good_tb_body_loop start prefix : forall fuel c,
  (length (rest c) < fuel)%nat -> inv start c ->
  good (loop_post ends_lf c) (tb_body_loop len fuel start prefix c).
Proof.
  induction fuel as [|f IH]; intros c F I; [lia|]. cbn [tb_body_loop].
  pose proof (good_loop_rec _ _ start f c IH F I) as REC.
  destruct (eat_byte 10 c) as [c1|] eqn:LF.
  { apply eat_byte_sext in LF.
    destruct (tb_blank_lines_spec (rest c1) (pos c1)) as [E2 HB].
    destruct (tb_blank_lines (pos c1) (rest c1)) as [blank c2]. cbn [fst snd] in *.
    assert (S2 : sext c c2) by (eapply sext_ext_trans; [exact LF|]; destruct c1; exact E2).
    assert (HL : ends_lf (10 :: blank)) by (apply (HB [10]); exists []; reflexivity).
    destruct (eat_slice prefix c2) as [c3|] eqn:PF.
    - apply eat_slice_ext, ext_by_ext in PF. apply REC; [exact (sext_ext_trans _ _ _ S2 PF)|].
      intros s Hs. apply ends_lf_cons, ends_lf_app, Hs.
    - destruct (eat_while_ext is_blank c2) as [l [_ E3]]. apply ext_by_ext in E3.
      set (c3 := eat_while is_blank c2) in *.
      pose proof (sext_ext_trans _ _ _ S2 E3) as S3.
      destruct (eat_slice [124; 124; 124] c3) as [c4|] eqn:T.
      + apply eat_slice_ext, ext_by_ext in T. split; [exact (sext_ext_trans _ _ _ S3 T)|exact HL].
      + exact (good_fail_at _ _ start _ _ (inv_ext _ _ _ (sext_ext _ _ S3) I) (ext_pos _ _ E3)). }
  eapply good_bind; [apply good_eat_any_char, I|].
  intros [[c1 oc]|] Hp; [apply REC; [exact Hp|apply ends_lf_cons]|].
  exact (good_fail_at _ _ start _ _ I (proj1 I)).
Qed.

Lemma good_text_block start c : inv start c -> good (tok_post start c) (lex_text_block len start c).
Proof.
  intros I. unfold lex_text_block.
  pose proof (eat_opt_ext 45 true false c) as E1.
  destruct (match eat_byte 45 c with Some c1 => (true, c1) | None => (false, c) end) as [strip c1].
  cbn [snd] in E1.
  destruct (eat_while_ext is_blank_cr c1) as [l [_ E2]]. apply ext_by_ext in E2.
  set (c2 := eat_while is_blank_cr c1) in *.
  pose proof (ext_trans _ _ _ E1 E2) as E02. pose proof (inv_ext _ _ _ E02 I) as I2.
  destruct (eat_byte 10 c2) as [c3|] eqn:LF; [|exact (good_fail_at _ _ start _ _ I2 (proj1 I2))].
  pose proof (ext_trans _ _ _ E02 (sext_ext _ _ (eat_byte_sext _ _ _ LF))) as E03.
  eapply good_bind; [apply (good_tb_first_loop start); [lia|exact (inv_ext _ _ _ E03 I)]|].
  intros [[s1 prefix] c4] E4. cbn [snd] in E4. pose proof (ext_trans _ _ _ E03 E4) as E04.
  eapply good_bind; [apply good_tb_body_loop; [lia|exact (inv_ext _ _ _ E04 I)]|].
  intros [s2 c5] [S5 L5]. cbn [fst snd] in *.
  pose proof (ext_trans _ _ _ E04 (sext_ext _ _ S5)) as E05.
  destruct strip.
  - destruct (strip_last_lf_ok (s1 ++ s2) (ends_lf_app _ _ L5)) as [s' [_ ->]]. cbn [obind].
    apply good_commit; [reflexivity|exact E05|exact I].
  - apply good_commit; [reflexivity|exact E05|exact I].
Qed.

Definition next_post (c : cur) (p : token * cur) : Prop :=
  tok_span (fst p) = (pos c, pos (snd p)) /\
  (if is_eof (tok_kind (fst p)) then rest c = [] /\ snd p = c else sext c (snd p)).

Lemma ident_start_ascii b : is_ident_start b = true -> b < 128.
Proof.
  intros H. destruct (N.lt_ge_cases b 128) as [|G]; [assumption|]. unfold is_ident_start in H.
  rewrite !in_range_false, (proj2 (N.eqb_neq b 95)) in H by lia. discriminate.
Qed.

Lemma good_next_token c : wfc len c -> bytes_ok (rest c) -> good (next_post c) (next_token len c).
Proof.
  intros W B. unfold next_token.
  destruct (eat_any_byte c) as [[b c1]|] eqn:AB.
  2:{ unfold commit. rewrite make_span_ok by (try exact (wfc_pos_le _ _ W); lia).
      cbn. split; [reflexivity|]. split; [apply eat_any_byte_none, AB|reflexivity]. }
  pose proof (eat_any_byte_ext _ _ _ AB) as EB.
  assert (S1 : sext c c1) by (eapply ext_by_sext; [|exact EB]; discriminate).
  pose proof (sext_pos _ _ S1) as P1.
  assert (I1 : inv (pos c) c1) by (apply (inv_ext _ c _ (sext_ext _ _ S1)); repeat split; [lia|exact W|exact B]).
  assert (Hb : b < 256) by (destruct EB as [H _]; rewrite H in B; inversion B; assumption).
  (* a sub-lexer entered at a cursor c2 at or after c1 *)
  assert (TP : forall c2 r, ext c1 c2 -> (inv (pos c) c2 -> good (tok_post (pos c) c2) r) ->
            good (next_post c) r).
  { intros c2 r E2 G. eapply good_mono; [exact (G (inv_ext _ _ _ E2 I1))|].
    intros p [E [Sp K]]. split; [exact Sp|]. rewrite K.
    exact (sext_ext_trans _ _ _ S1 (ext_trans _ _ _ E2 E)). }
  assert (OP : b < 128 -> good (next_post c) (lex_operator len (pos c) b c1)).
  { intros A. apply (TP c1); [apply ext_refl|]. intros I. apply good_operator; assumption. }
  destruct (assoc_byte b single_table).
  { apply (TP c1); [apply ext_refl|]. apply good_commit; [reflexivity|apply ext_refl]. }
  destruct (N.eqb_spec b 47) as [->|N47].
  { destruct (eat_byte 47 c1) as [c2|] eqn:S2.
    { exact (TP c2 _ (sext_ext _ _ (eat_byte_sext _ _ _ S2)) (good_single_line_comment _ c2)). }
    destruct (eat_byte 42 c1) as [c2|] eqn:S3; [|apply OP; lia].
    exact (TP c2 _ (sext_ext _ _ (eat_byte_sext _ _ _ S3)) (good_multi_line_comment _ c2)). }
  destruct (N.eqb_spec b 124) as [->|N124].
  { destruct (eat_slice [124; 124] c1) as [c2|] eqn:S2; [|apply OP; lia].
    exact (TP c2 _ (ext_by_ext _ _ _ (eat_slice_ext _ _ _ S2)) (good_text_block _ c2)). }
  destruct (mem_byte b op_start_bytes) eqn:OS.
  { apply OP. revert OS. apply mem_byte_ascii. reflexivity. }
  destruct (is_ws b).
  { apply (TP c1); [apply ext_refl|]. apply good_commit; [reflexivity|].
    destruct (eat_while_ext is_ws c1) as [l [_ E]]. exact (ext_by_ext _ _ _ E). }
  destruct (N.eqb_spec b 35) as [->|N35].
  { exact (TP c1 _ (ext_refl _) (good_single_line_comment _ c1)). }
  destruct (is_digit b) eqn:DG.
  { apply (TP c1); [apply ext_refl|]. intros I. apply good_number; assumption. }
  destruct (is_ident_start b) eqn:IS.
  { apply (TP c1); [apply ext_refl|]. intros I. apply good_ident; [exact I|apply ident_start_ascii, IS]. }
  destruct (N.eqb_spec b 64) as [->|N64].
  { destruct (eat_byte 39 c1) as [c2|] eqn:Q1.
    { exact (TP c2 _ (sext_ext _ _ (eat_byte_sext _ _ _ Q1)) (good_verbatim_string _ _ c2)). }
    destruct (eat_byte 34 c1) as [c2|] eqn:Q2.
    { exact (TP c2 _ (sext_ext _ _ (eat_byte_sext _ _ _ Q2)) (good_verbatim_string _ _ c2)). }
    exact (good_fail_at _ _ _ _ _ I1 (proj1 I1)). }
  destruct (N.eqb_spec b 39) as [->|N39].
  { exact (TP c1 _ (ext_refl _) (good_quoted_string _ _ c1)). }
  destruct (N.eqb_spec b 34) as [->|N34].
  { exact (TP c1 _ (ext_refl _) (good_quoted_string _ _ c1)). }
  eapply good_bind; [apply good_eat_cont_any_char; [exact Hb|apply I1]|].
  intros [c2 oc] E2. cbn [fst] in E2. pose proof (inv_ext _ _ _ E2 I1) as I2.
  destruct oc; exact (good_fail_at _ _ _ _ _ I2 (proj1 I2)).
Qed.

(* token spans from [at]: contiguous, non-empty, not EOF, until one EOF token at (len, len) *)
Fixpoint tiles_from (at_ : N) (toks : list token) : Prop :=
  match toks with
  | [] => False
  | t :: ts =>
      if is_eof (tok_kind t) then ts = [] /\ tok_span t = (len, len) /\ at_ = len
      else exists e, tok_span t = (at_, e) /\ at_ < e /\ tiles_from e ts
  end.

Lemma good_lex_loop : forall fuel c,
  (length (rest c) < fuel)%nat -> wfc len c -> bytes_ok (rest c) ->
  good (tiles_from (pos c)) (lex_loop len fuel true c).
Proof.
  induction fuel as [|f IH]; intros c F W B; [lia|]. cbn [lex_loop].
  eapply good_bind; [apply good_next_token; assumption|].
  intros [t c'] [Sp K]. cbn [fst snd] in *.
  destruct (is_eof (tok_kind t)) eqn:EO.
  - destruct K as [R ->]. cbn [good tiles_from]. rewrite EO.
    assert (pos c = len) by (unfold wfc in W; rewrite R in W; cbn in W; lia).
    split; [reflexivity|]. split; [rewrite Sp; congruence|assumption].
  - eapply good_bind.
    + apply (IH c'); [pose proof (sext_len _ _ K); lia|apply (ext_wfc _ _ _ (sext_ext _ _ K) W)
                      |apply (ext_bytes _ _ (sext_ext _ _ K) B)].
    + intros ts T. cbn [orb good tiles_from]. rewrite EO. exists (pos c').
      split; [exact Sp|]. split; [apply sext_pos, K|exact T].
Qed.

End Specs.

Definition input_len (input : list N) : N := N.of_nat (length input).

Theorem lex_all_good input : bytes_ok input ->
  good (input_len input) (tiles_from (input_len input) 0) (lex_all true input).
Proof.
  intros B. unfold lex_all.
  apply (good_lex_loop (input_len input) (S (length input)) {| pos := 0; rest := input |});
    cbn [rest pos]; [lia|unfold wfc, input_len; cbn; lia|exact B].
Qed.

(* spans (a0,a1) (a1,a2) ... from a to b *)
Inductive tiles : N -> N -> list span -> Prop :=
| tiles_nil a : tiles a a []
| tiles_cons a m b l : a <= m -> tiles m b l -> tiles a b ((a, m) :: l).

Definition eof_at (n : N) : token := {| tok_span := (n, n); tok_kind := TEndOfFile |}.
Definition nonempty (s : span) : Prop := fst s < snd s.

Lemma is_eof_inv k : is_eof k = true -> k = TEndOfFile.
Proof. destruct k; simpl; congruence. Qed.

Lemma tiles_from_shape len : forall toks at_, tiles_from len at_ toks ->
  tiles at_ len (map tok_span toks) /\
  exists pre, toks = pre ++ [eof_at len] /\
              Forall (fun t => is_eof (tok_kind t) = false /\ nonempty (tok_span t)) pre.
Proof.
  induction toks as [|t ts IH]; intros at_ H; cbn [tiles_from] in H; [contradiction|].
  destruct (is_eof (tok_kind t)) eqn:EO.
  - destruct H as [-> [Sp ->]]. split.
    + cbn. rewrite Sp. apply tiles_cons; [lia|apply tiles_nil].
    + exists []. split; [|constructor]. destruct t as [sp k]. cbn in *. apply is_eof_inv in EO. subst. reflexivity.
  - destruct H as [e [Sp [Lt T]]]. destruct (IH e T) as [T1 [pre [-> F]]]. split.
    + cbn [map]. rewrite Sp. apply tiles_cons; [lia|exact T1].
    + exists (t :: pre). split; [reflexivity|]. constructor; [|exact F].
      split; [exact EO|]. unfold nonempty. rewrite Sp. exact Lt.
Qed.

Theorem lex_tiles input toks : bytes_ok input -> lex_all true input = Ok toks ->
  tiles 0 (input_len input) (map tok_span toks) /\
  exists pre, toks = pre ++ [eof_at (input_len input)] /\
              Forall (fun t => is_eof (tok_kind t) = false /\ nonempty (tok_span t)) pre.
Proof.
  intros B H. pose proof (lex_all_good input B) as G. rewrite H in G. exact (tiles_from_shape _ _ _ G).
Qed.

(* dropping trivia changes neither the kind of outcome nor the error *)
Lemma lex_all_keep_good keep input : bytes_ok input ->
  good (input_len input) (fun _ => True) (lex_all keep input).
Proof.
  intros B.
  assert (T : good (input_len input) (fun _ => True) (lex_all true input)).
  { eapply good_mono; [exact (lex_all_good input B)|trivial]. }
  destruct keep; [exact T|]. rewrite lex_filter. destruct (lex_all true input); exact T.
Qed.

Theorem lex_error_located keep input e : bytes_ok input -> lex_all keep input = Err e ->
  located (input_len input) e.
Proof. intros B H. pose proof (lex_all_keep_good keep input B) as G. rewrite H in G. exact G. Qed.

Theorem fuel_sufficient keep input : bytes_ok input -> lex_all keep input <> OutOfFuel.
Proof. intros B H. pose proof (lex_all_keep_good keep input B) as G. rewrite H in G. exact G. Qed.

Theorem lex_no_panic keep input site : bytes_ok input -> lex_all keep input <> Panic site.
Proof. intros B H. pose proof (lex_all_keep_good keep input B) as G. rewrite H in G. exact G. Qed.

(* every lexing run ends in exactly one of: a tiling token list, or one located error *)
Theorem lex_total keep input : bytes_ok input ->
  (exists toks, lex_all keep input = Ok toks) \/
  (exists e, lex_all keep input = Err e /\ located (input_len input) e).
Proof.
  intros B. pose proof (lex_all_keep_good keep input B) as G.
  destruct (lex_all keep input) as [toks|e|s|]; [left; eauto|right; eauto|destruct G|destruct G].
Qed.

(* [fail] is an error of the given kind, unless make_span panics *)
Lemma fail_inv {A} len k s e (x : res A) : fail len k s e = x ->
  match x with Ok _ => False | Err er => err_kind er = k | _ => True end.
Proof.
  unfold fail, make_span. destruct (negb (s <=? e)); [intros <-; exact I|].
  destruct (len <? s); [intros <-; exact I|]. destruct (len <? e); intros <-; [exact I|reflexivity].
Qed.

(* [commit] is the token, unless make_span panics *)
Lemma commit_inv len start c k (x : res (token * cur)) : commit len start c k = x ->
  match x with Ok p => tok_kind (fst p) = k /\ snd p = c | Err _ => False | _ => True end.
Proof.
  unfold commit, make_span. destruct (negb (start <=? pos c)); [intros <-; exact I|].
  destruct (len <? start); [intros <-; exact I|]. destruct (len <? pos c); intros <-; [exact I|split; reflexivity].
Qed.

(* n is an admissible operator length at the head of [input]: n symbol bytes;
   none of the three pipes / slash slash / slash star sequences starts at an
   offset 1 <= i < n; the last byte may end an operator unless n = 1 *)
Definition op_len_ok (input : list N) (n : nat) : Prop :=
  (1 <= n <= length input)%nat /\
  (forall i, (i < n)%nat -> is_op_byte (nth i input 0) = true) /\
  (forall i, (1 <= i < n)%nat -> op_forbidden_here (skipn i input) = false) /\
  (n = 1%nat \/ mem_byte (nth (n - 1) input 0) op_sure_bytes = true).

Lemma skipn_rev_app (acc r : list N) : skipn (length acc) (rev acc ++ r) = r.
Proof.
  rewrite skipn_app, rev_length, Nat.sub_diag. rewrite skipn_all2 by (rewrite rev_length; lia). reflexivity.
Qed.

Lemma nth_rev_app (acc : list N) b r : nth (length acc) (rev acc ++ b :: r) 0 = b.
Proof. rewrite app_nth2 by (rewrite rev_length; lia). rewrite rev_length, Nat.sub_diag. reflexivity. Qed.

Lemma firstn_rev_app (acc r : list N) : firstn (length acc) (rev acc ++ r) = rev acc.
Proof.
  rewrite firstn_app, rev_length, Nat.sub_diag. cbn [firstn]. rewrite app_nil_r.
  apply firstn_all2. rewrite rev_length. lia.
Qed.

(* the loop stops where no admissible length exceeds the bytes consumed: the
   last sure end, the longest admissible length so far, is then the longest *)
Lemma munch_stop input (acc sacc sr : list N) sp :
  rev sacc = firstn (length sacc) input -> sr = skipn (length sacc) input ->
  op_len_ok input (length sacc) ->
  (forall n, (n <= length acc)%nat -> op_len_ok input n -> (n <= length sacc)%nat) ->
  (forall n, op_len_ok input n -> (n <= length acc)%nat) ->
  rev sacc = firstn (length sacc) input /\ op_len_ok input (length sacc) /\
  (forall n, op_len_ok input n -> (n <= length sacc)%nat) /\
  rest {| pos := sp; rest := sr |} = skipn (length sacc) input.
Proof.
  intros HS HR K HM WHY. split; [exact HS|]. split; [exact K|]. split; [|exact HR].
  intros n Hn. exact (HM n (WHY n Hn) Hn).
Qed.

(* [acc]: the bytes consumed, all symbol bytes with no forbidden sequence inside;
   [sacc]: those up to the last sure end, an admissible length and the longest
   among the lengths up to [length acc] *)
Lemma op_loop_munch : forall r ps acc sp sr sacc input,
  input = rev acc ++ r ->
  rev sacc = firstn (length sacc) input -> sr = skipn (length sacc) input ->
  (forall i, (i < length acc)%nat -> is_op_byte (nth i input 0) = true) ->
  (forall i, (1 <= i < length acc)%nat -> op_forbidden_here (skipn i input) = false) ->
  op_len_ok input (length sacc) -> (length sacc <= length acc)%nat ->
  (forall n, (n <= length acc)%nat -> op_len_ok input n -> (n <= length sacc)%nat) ->
  let '(c', racc) := op_loop r ps acc sp sr sacc in
  rev racc = firstn (length racc) input /\ op_len_ok input (length racc) /\
  (forall n, op_len_ok input n -> (n <= length racc)%nat) /\ rest c' = skipn (length racc) input.
Proof.
  induction r as [|b r IH]; intros ps acc sp sr sacc input HI HS HR HO HF K KL HM; cbn [op_loop].
  - assert (WHY : forall n, op_len_ok input n -> (n <= length acc)%nat).
    { intros n [[_ N2] _]. rewrite HI, app_nil_r, rev_length in N2. exact N2. }
    destruct (op_forbidden_here []); exact (munch_stop _ _ _ _ _ HS HR K HM WHY).
  - assert (SK : skipn (length acc) input = b :: r) by (rewrite HI; apply skipn_rev_app).
    assert (NB : nth (length acc) input 0 = b) by (rewrite HI; apply nth_rev_app).
    assert (LI : length input = S (length acc + length r)) by (rewrite HI, app_length, rev_length; cbn; lia).
    pose proof (proj1 (proj1 K)) as K1.
    destruct (op_forbidden_here (b :: r)) eqn:FB.
    { apply (munch_stop _ _ _ _ _ HS HR K HM). intros n [_ [_ [NF _]]].
      destruct (Nat.le_gt_cases n (length acc)) as [|G]; [assumption|].
      rewrite <- SK, NF in FB by lia. discriminate. }
    assert (NOP : is_op_byte b = false -> forall n, op_len_ok input n -> (n <= length acc)%nat).
    { intros W n [_ [NO _]]. destruct (Nat.le_gt_cases n (length acc)) as [|G]; [assumption|].
      rewrite <- NB, NO in W by lia. discriminate. }
    assert (HI' : input = rev (b :: acc) ++ r) by (rewrite HI; cbn [rev]; rewrite <- app_assoc; reflexivity).
    assert (HF' : forall i, (1 <= i < length (b :: acc))%nat -> op_forbidden_here (skipn i input) = false).
    { intros i Hi. cbn [length] in Hi. destruct (Nat.eq_dec i (length acc)) as [->|Ne]; [rewrite SK; exact FB|apply HF; lia]. }
    assert (HO' : is_op_byte b = true -> forall i, (i < length (b :: acc))%nat -> is_op_byte (nth i input 0) = true).
    { intros Hb i Hi. cbn [length] in Hi. destruct (Nat.eq_dec i (length acc)) as [->|Ne]; [rewrite NB; exact Hb|apply HO; lia]. }
    unfold is_op_byte in NOP, HO' at 1.
    destruct (mem_byte b op_sure_bytes) eqn:S1.
    + (* a byte that may end the operator: the new sure end *)
      apply (IH (ps + 1) (b :: acc) (ps + 1) r (b :: acc) input HI').
      * rewrite HI'. symmetry. apply firstn_rev_app.
      * rewrite HI'. symmetry. apply skipn_rev_app.
      * exact (HO' eq_refl).
      * exact HF'.
      * split; [cbn [length]; lia|]. split; [exact (HO' eq_refl)|]. split; [exact HF'|].
        right. cbn [length]. rewrite Nat.sub_1_r. cbn [Nat.pred]. rewrite NB. exact S1.
      * apply le_n.
      * intros n Hn _. exact Hn.
    + destruct (mem_byte b op_unsure_bytes) eqn:S2.
      * (* a byte that may continue the operator but not end it *)
        apply (IH (ps + 1) (b :: acc) sp sr sacc input HI' HS HR (HO' eq_refl) HF' K); [cbn [length]; lia|].
        intros n Hn ON. cbn [length] in Hn.
        destruct (Nat.eq_dec n (S (length acc))) as [->|Ne]; [|apply HM; [lia|exact ON]].
        destruct ON as [_ [_ [_ [E|E]]]]; [lia|].
        rewrite Nat.sub_1_r in E. cbn [Nat.pred] in E. rewrite NB, S1 in E. discriminate.
      * exact (munch_stop _ _ _ _ _ HS HR K HM (NOP eq_refl)).
Qed.

(* The operator token starting with the symbol byte b0 is the LONGEST admissible
   prefix of the input, and the cursor continues right after it. *)
Theorem operator_maximal_munch : forall b0 r ps, is_op_byte b0 = true ->
  let '(c', racc) := op_loop r ps [b0] ps r [b0] in
  let input := b0 :: r in
  rev racc = firstn (length racc) input /\ op_len_ok input (length racc) /\
  (forall n, op_len_ok input n -> (n <= length racc)%nat) /\ rest c' = skipn (length racc) input.
Proof.
  intros b0 r ps Hb.
  assert (HO : forall i, (i < 1)%nat -> is_op_byte (nth i (b0 :: r) 0) = true).
  { intros i Hi. replace i with 0%nat by lia. exact Hb. }
  assert (HF : forall i, (1 <= i < 1)%nat -> op_forbidden_here (skipn i (b0 :: r)) = false) by (intros i Hi; lia).
  apply (op_loop_munch r ps [b0] ps r [b0] (b0 :: r) eq_refl eq_refl eq_refl HO HF).
  - split; [cbn [length]; lia|]. split; [exact HO|]. split; [exact HF|left; reflexivity].
  - apply le_n.
  - intros n Hn _. exact Hn.
Qed.

(* the token lex_operator produces carries that text *)
Theorem lex_operator_text len start b0 c t c' : is_op_byte b0 = true ->
  lex_operator len start b0 c = Ok (t, c') ->
  exists n, op_len_ok (b0 :: rest c) n /\ (forall m, op_len_ok (b0 :: rest c) m -> (m <= n)%nat) /\
            rest c' = skipn n (b0 :: rest c) /\
            tok_kind t = match assoc_bytes (firstn n (b0 :: rest c)) operator_table with
                         | Some k => TSimple k
                         | None => TOtherOp (firstn n (b0 :: rest c))
                         end.
Proof.
  intros Hb H. unfold lex_operator in H.
  pose proof (operator_maximal_munch b0 (rest c) (pos c) Hb) as M.
  destruct (op_loop (rest c) (pos c) [b0] (pos c) (rest c) [b0]) as [c1 racc].
  destruct M as [M1 [M2 [M3 M4]]]. exists (length racc). split; [exact M2|]. split; [exact M3|].
  rewrite <- M1. destruct (assoc_bytes (rev racc) operator_table) as [k|].
  - destruct (commit_inv _ _ _ _ _ H) as [K E]. cbn [fst snd] in K, E. subst c1. split; [exact M4|exact K].
  - apply obind_ok_inv in H as [op [A H]]. unfold ascii_str in A.
    destruct (forallb (fun b => b <? 128) (rev racc)); inversion A; subst op.
    destruct (commit_inv _ _ _ _ _ H) as [K E]. cbn [fst snd] in K, E. subst c1. split; [exact M4|exact K].
Qed.

(* literal values, stated over the lossy decoding of the input *)

Lemma lossy_ascii_app s r : ascii_bytes s -> lossy (s ++ r) = s ++ lossy r.
Proof.
  induction 1 as [|x s Hx _ IH]; [reflexivity|]. cbn [app]. rewrite (lossy_ascii x _ Hx), IH. reflexivity.
Qed.

Lemma eat_byte_lossy b c : b < 128 -> bytes_ok (rest c) ->
  match eat_byte b c with
  | Some c1 => lossy (rest c) = b :: lossy (rest c1) /\ bytes_ok (rest c1)
  | None => match lossy (rest c) with cp :: _ => cp <> b | [] => True end
  end.
Proof.
  intros Hb B. unfold eat_byte, eat_byte_if. destruct (rest c) as [|x r]; [exact I|].
  destruct (N.eqb_spec b x) as [<-|Ne]; cbn [rest].
  - pose proof (bytes_ok_tail _ _ B) as B1. split; [exact (lossy_ascii b r Hb)|exact B1].
  - destruct (lossy_cons x r B) as [cp [t [-> [A NA]]]]. lia.
Qed.

Lemma eat_any_char_lossy c : bytes_ok (rest c) ->
  match rest c with
  | [] => eat_any_char c = Ok None
  | _ :: _ => exists c1 oc, eat_any_char c = Ok (Some (c1, oc)) /\
                lossy (rest c) = or_replacement oc :: lossy (rest c1) /\ bytes_ok (rest c1)
  end.
Proof.
  intros B. unfold eat_any_char, eat_any_byte. destruct (rest c) as [|b0 r]; [reflexivity|].
  inversion B as [|? ? Hb Hr]; subst.
  unfold eat_cont_any_char. cbn [rest pos]. rewrite (decode_eq b0 r Hr). cbn [obind].
  pose proof (lossy_lead b0 r Hb) as L. destruct (decode_arith b0 r) as [k oc].
  eexists _, oc. split; [reflexivity|]. split; [exact L|apply bytes_ok_skipn, Hr].
Qed.

Lemma eat_any_char_inv c c1 oc : bytes_ok (rest c) -> eat_any_char c = Ok (Some (c1, oc)) ->
  lossy (rest c) = or_replacement oc :: lossy (rest c1) /\ bytes_ok (rest c1).
Proof.
  intros B H. pose proof (eat_any_char_lossy c B) as T. rewrite H in T.
  destruct (rest c); [discriminate|]. destruct T as [c1' [oc' [E T]]]. inversion E; subst. exact T.
Qed.

Fixpoint verbatim_spec (delim : N) (cps : list N) : option (list N * list N) :=
  match cps with
  | [] => None
  | c :: r =>
      if c =? delim then
        match r with
        | c2 :: r2 =>
            if c2 =? delim then
              match verbatim_spec delim r2 with Some (s, t) => Some (delim :: s, t) | None => None end
            else Some ([], r)
        | [] => Some ([], r)
        end
      else match verbatim_spec delim r with Some (s, t) => Some (c :: s, t) | None => None end
  end.

Theorem verbatim_string_value len start delim : delim < 128 -> forall fuel c s c',
  bytes_ok (rest c) -> verbatim_loop len fuel start delim c = Ok (s, c') ->
  verbatim_spec delim (lossy (rest c)) = Some (s, lossy (rest c')) /\ bytes_ok (rest c').
Proof.
  intros Hd. induction fuel as [|f IH]; intros c s c' B H; [discriminate|]. cbn [verbatim_loop] in H.
  pose proof (eat_byte_lossy delim c Hd B) as D1. destruct (eat_byte delim c) as [c1|].
  - destruct D1 as [-> B1]. cbn [verbatim_spec]. rewrite N.eqb_refl.
    pose proof (eat_byte_lossy delim c1 Hd B1) as D2. destruct (eat_byte delim c1) as [c2|].
    + destruct D2 as [-> B2]. rewrite N.eqb_refl.
      apply obind_ok_inv in H as [[s2 c3] [L H]]. inversion H; subst.
      destruct (IH _ _ _ B2 L) as [-> B3]. split; [reflexivity|exact B3].
    + inversion H; subst. split; [|exact B1].
      destruct (lossy (rest c')) as [|cp t]; [reflexivity|]. destruct (N.eqb_spec cp delim); [congruence|reflexivity].
  - apply obind_ok_inv in H as [[[c1 oc]|] [EA H]]; [|destruct (fail_inv _ _ _ _ _ H)].
    destruct (eat_any_char_inv _ _ _ B EA) as [L B1]. rewrite L in D1 |- *.
    apply obind_ok_inv in H as [[s2 c3] [LP H]]. inversion H; subst.
    destruct (IH _ _ _ B1 LP) as [E B3]. split; [|exact B3].
    cbn [verbatim_spec]. rewrite E. destruct (N.eqb_spec (or_replacement oc) delim); [congruence|reflexivity].
Qed.

Theorem surrogate_pair_value hi lo c :
  decode_utf16_pair hi lo = Some c <->
  (0xD800 <= hi <= 0xDBFF /\ 0xDC00 <= lo <= 0xDFFF /\ c = 0x10000 + (hi - 0xD800) * 1024 + (lo - 0xDC00)).
Proof.
  unfold decode_utf16_pair.
  destruct (in_range 0xD800 0xDBFF hi) eqn:H1; destruct (in_range 0xDC00 0xDFFF lo) eqn:H2; cbn [andb].
  - apply in_range_iff in H1, H2. rewrite (lor_shiftl_add (hi - 0xD800) (lo - 0xDC00) 10) by (cbn; lia).
    change (2 ^ 10) with 1024. split.
    + intros E. assert (E' : c = 0x10000 + ((hi - 0xD800) * 1024 + (lo - 0xDC00))) by congruence.
      repeat split; lia.
    + intros [_ [_ ->]]. f_equal. lia.
  - apply in_range_iff in H1. apply in_range_false_iff in H2. split; [discriminate|lia].
  - apply in_range_false_iff in H1. split; [discriminate|lia].
  - apply in_range_false_iff in H1. split; [discriminate|lia].
Qed.

(* every supplementary-plane scalar value is reached by exactly its UTF-16 pair *)
Theorem surrogate_pair_onto c : 0x10000 <= c <= 0x10FFFF ->
  decode_utf16_pair (0xD800 + (c - 0x10000) / 1024) (0xDC00 + (c - 0x10000) mod 1024) = Some c /\
  is_scalar c = true.
Proof.
  intros H. split; [|apply is_scalar_iff; lia].
  apply surrogate_pair_value.
  pose proof (N.div_mod (c - 0x10000) 1024 ltac:(lia)) as E.
  pose proof (N.mod_lt (c - 0x10000) 1024 ltac:(lia)) as L.
  assert ((c - 0x10000) / 1024 < 1024) by (apply N.div_lt_upper_bound; lia).
  set (q := (c - 0x10000) / 1024) in *. set (r := (c - 0x10000) mod 1024) in *. lia.
Qed.

Definition hex4 (cps : list N) : option (N * list N) :=
  match cps with
  | a :: b :: c :: d :: r =>
      match hex_from_digit a, hex_from_digit b, hex_from_digit c, hex_from_digit d with
      | Some x, Some y, Some z, Some w => Some (((x * 16 + y) * 16 + z) * 16 + w, r)
      | _, _, _, _ => None
      end
  | _ => None
  end.

Definition cons_fst (ch : N) (o : option (list N * list N)) : option (list N * list N) :=
  match o with Some (s, t) => Some (ch :: s, t) | None => None end.

Definition escape_spec (r : list N) : option (N * list N) :=
  match r with
  | [] => None
  | e :: r1 =>
      match assoc_byte e escape_table with
      | Some ch => Some (ch, r1)
      | None =>
          if e =? 117 then
            match hex4 r1 with
            | None => None
            | Some (cu1, r2) =>
                if is_surrogate cu1 then
                  match r2 with
                  | 92 :: 117 :: r3 =>
                      match hex4 r3 with
                      | Some (cu2, r4) =>
                          match decode_utf16_pair cu1 cu2 with
                          | Some ch => Some (ch, r4)
                          | None => None
                          end
                      | None => None
                      end
                  | _ => None
                  end
                else Some (cu1, r2)
            end
          else None
      end
  end.

Fixpoint quoted_spec (fuel : nat) (delim : N) (cps : list N) : option (list N * list N) :=
  match fuel with
  | O => None
  | S f =>
      match cps with
      | [] => None
      | c :: r =>
          if c =? delim then Some ([], r)
          else if c =? 92 then
            match escape_spec r with
            | Some (ch, r') => cons_fst ch (quoted_spec f delim r')
            | None => None
            end
          else cons_fst c (quoted_spec f delim r)
      end
  end.

Lemma hex_digit_facts x d : hex_from_digit x = Some d -> x < 128 /\ d < 16.
Proof.
  unfold hex_from_digit.
  destruct (in_range 48 57 x) eqn:A; [apply in_range_iff in A; intros H; inversion H; lia|].
  destruct (in_range 97 102 x) eqn:B; [apply in_range_iff in B; intros H; inversion H; lia|].
  destruct (in_range 65 70 x) eqn:C; [apply in_range_iff in C; intros H; inversion H; lia|discriminate].
Qed.

Lemma lor4 x y : y < 16 -> N.lor (N.shiftl x 4) y = x * 16 + y.
Proof. intros H. rewrite (lor_shiftl_add x y 4) by exact H. reflexivity. Qed.

Lemma lor_hex4 a b c d : b < 16 -> c < 16 -> d < 16 ->
  N.lor (N.lor (N.lor (N.shiftl a 12) (N.shiftl b 8)) (N.shiftl c 4)) d = ((a * 16 + b) * 16 + c) * 16 + d.
Proof.
  intros Hb Hc Hd.
  replace (N.shiftl a 12) with (N.shiftl (N.shiftl (N.shiftl a 4) 4) 4) by (rewrite !N.shiftl_shiftl; reflexivity).
  replace (N.shiftl b 8) with (N.shiftl (N.shiftl b 4) 4) by (rewrite N.shiftl_shiftl; reflexivity).
  rewrite <- !N.shiftl_lor. rewrite (lor4 a b Hb), (lor4 _ c Hc). apply lor4, Hd.
Qed.

Lemma hex4_length l cu t : hex4 l = Some (cu, t) -> length l = (4 + length t)%nat.
Proof.
  unfold hex4. destruct l as [|a [|b [|c [|d r]]]]; try discriminate.
  destruct (hex_from_digit a), (hex_from_digit b), (hex_from_digit c), (hex_from_digit d); try discriminate.
  intros H. inversion H. reflexivity.
Qed.

Lemma eat_codeunit_value c cu c' : bytes_ok (rest c) -> eat_codeunit c = (Some cu, c') ->
  bytes_ok (rest c') /\ hex4 (lossy (rest c)) = Some (cu, lossy (rest c')).
Proof.
  intros B H. pose proof (eat_codeunit_spec c) as S. rewrite H in S.
  destruct S as (x0 & x1 & x2 & x3 & d0 & d1 & d2 & d3 & [R _] & H0 & H1 & H2 & H3 & ->).
  destruct (hex_digit_facts _ _ H0) as [A0 _]. destruct (hex_digit_facts _ _ H1) as [A1 D1].
  destruct (hex_digit_facts _ _ H2) as [A2 D2]. destruct (hex_digit_facts _ _ H3) as [A3 D3].
  rewrite R in B. assert (B' : bytes_ok (rest c')) by (apply Forall_app in B; tauto).
  split; [exact B'|]. rewrite R.
  rewrite (lossy_ascii_app [x0; x1; x2; x3] _ ltac:(repeat constructor; assumption)).
  cbn [app hex4]. rewrite H0, H1, H2, H3, lor_hex4 by assumption. reflexivity.
Qed.

(* the keys of a table of ASCII bytes; the side condition is closed by evaluation *)
Lemma assoc_byte_ascii {A} (l : list (N * A)) b v :
  forallb (fun p => fst p <? 128) l = true -> assoc_byte b l = Some v -> b < 128.
Proof.
  induction l as [|[k x] l IH]; cbn [forallb assoc_byte fst]; [discriminate|].
  intros H. apply andb_true_iff in H as [K H].
  destruct (N.eqb_spec b k) as [->|]; [intros _; apply N.ltb_lt, K|apply IH, H].
Qed.

Lemma lossy_len_cons x t bs : lossy bs = x :: t -> (length t < length (lossy bs))%nat.
Proof. intros ->. cbn. lia. Qed.

Lemma escape_value len start c1 ch c2 : bytes_ok (rest c1) ->
  lex_escape len start c1 = Ok (ch, c2) ->
  escape_spec (lossy (rest c1)) = Some (ch, lossy (rest c2)) /\ bytes_ok (rest c2) /\
  (length (lossy (rest c2)) < length (lossy (rest c1)))%nat.
Proof.
  intros B H. unfold lex_escape in H. apply obind_ok_inv in H as [es [_ H]].
  destruct (eat_map_byte (fun b => assoc_byte b escape_table) c1) as [[ch' c2']|] eqn:M.
  { inversion H; subst. apply eat_map_byte_ext in M as [b [Hb [R _]]]. cbn [app] in R.
    rewrite R in B. pose proof (bytes_ok_tail _ _ B) as B2.
    rewrite R, (lossy_ascii b _ (assoc_byte_ascii escape_table _ _ eq_refl Hb)). cbn [escape_spec]. rewrite Hb.
    split; [reflexivity|]. split; [exact B2|cbn; lia]. }
  pose proof (eat_byte_lossy 117 c1 ltac:(lia) B) as U. destruct (eat_byte 117 c1) as [cu|].
  2:{ apply obind_ok_inv in H as [[[c2' oc]|] [_ H]]; destruct (fail_inv _ _ _ _ _ H). }
  destruct U as [-> BU]. cbn [escape_spec length]. change (assoc_byte 117 escape_table) with (@None N).
  rewrite N.eqb_refl.
  destruct (eat_codeunit cu) as [[cu1|] c3] eqn:C1; [|destruct (fail_inv _ _ _ _ _ H)].
  destruct (eat_codeunit_value _ _ _ BU C1) as [B3 HX]. rewrite HX, (hex4_length _ _ _ HX).
  destruct (is_surrogate cu1) eqn:SG.
  - destruct (eat_slice [92; 117] c3) as [c4|] eqn:SL.
    + apply eat_slice_ext in SL. destruct SL as [R4 _]. rewrite R4 in B3 |- *.
      assert (B4 : bytes_ok (rest c4)) by (apply Forall_app in B3; tauto).
      rewrite (lossy_ascii_app [92; 117] _ ltac:(repeat constructor; lia)). cbn [app length].
      destruct (eat_codeunit c4) as [[cu2|] c5] eqn:C2; [|destruct (fail_inv _ _ _ _ _ H)].
      destruct (eat_codeunit_value _ _ _ B4 C2) as [B5 HY]. rewrite HY, (hex4_length _ _ _ HY).
      destruct (decode_utf16_pair cu1 cu2) as [chp|]; [|destruct (fail_inv _ _ _ _ _ H)].
      inversion H; subst. split; [reflexivity|]. split; [exact B5|lia].
    + (* a lone surrogate is not a scalar value *)
      unfold is_surrogate in SG. apply in_range_iff in SG.
      replace (is_scalar cu1) with false in H; [destruct (fail_inv _ _ _ _ _ H)|].
      symmetry. unfold is_scalar. rewrite orb_false_iff, andb_false_iff, !N.ltb_ge. lia.
  - destruct (is_scalar cu1); [|destruct (fail_inv _ _ _ _ _ H)].
    inversion H; subst. split; [reflexivity|]. split; [exact B3|lia].
Qed.

Theorem quoted_string_value len start delim : delim < 128 -> delim <> 92 -> forall fuel c s c' fs,
  bytes_ok (rest c) -> quoted_loop len fuel start delim c = Ok (s, c') ->
  (length (lossy (rest c)) < fs)%nat ->
  quoted_spec fs delim (lossy (rest c)) = Some (s, lossy (rest c')) /\ bytes_ok (rest c').
Proof.
  intros Hd Hq. induction fuel as [|f IH]; intros c s c' fs B H FS; [discriminate|].
  destruct fs as [|fs]; [lia|]. cbn [quoted_loop] in H.
  pose proof (eat_byte_lossy delim c Hd B) as D1. destruct (eat_byte delim c) as [c1|].
  { inversion H; subst. destruct D1 as [-> B1]. cbn [quoted_spec]. rewrite N.eqb_refl.
    split; [reflexivity|exact B1]. }
  pose proof (eat_byte_lossy 92 c ltac:(lia) B) as BS. destruct (eat_byte 92 c) as [c1|].
  - destruct BS as [L1 B1]. rewrite L1 in FS |- *. cbn [length] in FS.
    apply obind_ok_inv in H as [[ch c2] [LE H]]. destruct (escape_value _ _ _ _ _ B1 LE) as [ES [B2 L2]].
    apply obind_ok_inv in H as [[s2 c3] [LP H]]. inversion H; subst.
    destruct (IH _ _ _ fs B2 LP ltac:(lia)) as [E B3]. split; [|exact B3].
    cbn [quoted_spec]. destruct (N.eqb_spec 92 delim); [congruence|]. rewrite N.eqb_refl, ES, E. reflexivity.
  - apply obind_ok_inv in H as [[[c1 oc]|] [EA H]]; [|destruct (fail_inv _ _ _ _ _ H)].
    destruct (eat_any_char_inv _ _ _ B EA) as [L B1]. rewrite L in D1, BS, FS |- *. cbn [length] in FS.
    apply obind_ok_inv in H as [[s2 c3] [LP H]]. inversion H; subst.
    destruct (IH _ _ _ fs B1 LP ltac:(lia)) as [E B3]. split; [|exact B3].
    cbn [quoted_spec]. rewrite E.
    destruct (N.eqb_spec (or_replacement oc) delim); [congruence|].
    destruct (N.eqb_spec (or_replacement oc) 92); [congruence|reflexivity].
Qed.

Definition all_digits (l : list N) : Prop := Forall (fun b => is_digit b = true) l.

(* a run of the number loop that succeeds ends in num_stop, which hands back the
   accumulator: what every step preserves holds of the result *)
Lemma num_loop_inv len lz (P : nacc -> Prop) :
  (forall st a b st' a', num_step lz st a b = NGo st' a' -> P a -> P a') ->
  forall r ps st a a' c', num_loop len lz r ps st a = Ok (a', c') -> P a -> P a'.
Proof.
  intros STEP.
  assert (STOP : forall st a c a' c', num_stop len st a c = Ok (a', c') -> a' = a).
  { intros st a c a' c' H. unfold num_stop in H.
    destruct st as [[|]| |[|]| | |[|]]; try (inversion H; reflexivity);
      apply obind_ok_inv in H as [x [_ H]]; destruct (fail_inv _ _ _ _ _ H). }
  induction r as [|b r IH]; intros ps st a a' c' H D; cbn [num_loop] in H.
  - apply STOP in H. subst. exact D.
  - destruct (num_step lz st a b) as [st1 a1| |] eqn:S.
    + exact (IH _ _ _ _ _ H (STEP _ _ _ _ _ S D)).
    + apply obind_ok_inv in H as [x [_ H]]. apply obind_ok_inv in H as [y [_ H]].
      destruct (fail_inv _ _ _ _ _ H).
    + apply STOP in H. subst. exact D.
Qed.

Lemma num_step_digits lz st a b st' a' : num_step lz st a b = NGo st' a' ->
  n_digits a' = n_digits a \/ (is_digit b = true /\ n_digits a' = b :: n_digits a).
Proof.
  intros H. unfold num_step in H.
  destruct st as [us| |us| | |us]; destruct (is_digit b);
  repeat match type of H with
  | (if ?c then _ else _) = _ => destruct c
  end; inversion H; subst; cbn [n_digits push_digit set_expl set_sign]; auto.
Qed.

Lemma eff_exp_range a e : eff_exp a = Some e -> (i64_min <= e <= i64_max)%Z.
Proof.
  unfold eff_exp. destruct (n_expl a) as [x|]; [|discriminate].
  destruct (i64_max <? Z.of_N x)%Z; [discriminate|].
  destruct (_ || _) eqn:RG; [discriminate|]. intros E. inversion E; subst.
  apply orb_false_iff in RG as [R1 R2]. apply Z.ltb_ge in R1, R2. lia.
Qed.

Theorem number_shape len start b0 c t c' : lex_number len start b0 c = Ok (t, c') ->
  exists n, tok_kind t = TNumber n /\ all_digits (num_digits n) /\ num_digits n <> [] /\
            (i64_min <= num_exp n <= i64_max)%Z.
Proof.
  intros H. unfold lex_number in H. destruct (is_digit b0) eqn:D0; [|discriminate]. cbn [negb] in H.
  apply obind_ok_inv in H as [[a c1] [L H]].
  apply (num_loop_inv len _ (fun a => all_digits (n_digits a) /\ n_digits a <> [])) in L.
  2:{ intros st x b st' x' S [D N]. destruct (num_step_digits _ _ _ _ _ _ S) as [->|[Db ->]].
      - split; assumption.
      - split; [constructor; assumption|discriminate]. }
  2:{ split; [repeat constructor; exact D0|discriminate]. }
  destruct L as [DG NE].
  destruct (eff_exp a) as [e|] eqn:EE; [|destruct (fail_inv _ _ _ _ _ H)].
  unfold commit in H. apply obind_ok_inv in H as [sp [_ H]]. inversion H; subst.
  eexists. split; [reflexivity|]. cbn [num_digits num_exp]. split; [apply Forall_rev, DG|]. split.
  - intros E. apply NE. rewrite <- (rev_involutive (n_digits a)), E. reflexivity.
  - exact (eff_exp_range _ _ EE).
Qed.
