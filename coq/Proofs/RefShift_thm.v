(* Proofs/RefShift_thm.v — C02: depth-shift invariance, and  local x = e; x  ==  e  for whole programs. *)
From RJ Require Import Base.Outcome Base.F64 Model.Token Model.Ast Model.RefCore Model.RefValue Model.RefEval.
From RJ Require Import Proofs.RefSem_proofs Proofs.RefSem_laws Proofs.RefScope_defs Proofs.RefDead_defs Proofs.RefDead_proofs.
From RJ Require Import Proofs.RefCoin_proofs Proofs.RefShift_proofs.
From Coq Require Import Lia.
Local Open Scope N_scope.

(* evaluating at depth d+1 under limit L+1 is evaluating at depth d under limit L *)
Theorem depth_shift : forall c c' f t d, cfgs c c' -> run_task f c' t (d + 1) = run_task f c t d.
Proof. intros * Hc. apply sh_run_task. exact Hc. Qed.

(* the program  local x = e; x  (x not free in e) gives exactly the result of the program e, with one
   more frame of stack and three more units of fuel — for every settled result other than StackOverflow *)
Theorem rw_local_name_full : forall x e f c c',
  cfgs c c' -> closed (rm x [s_std]) false e ->
  settled (snd (run_core f c e)) -> snd (run_core f c e) <> Err EStackOverflow ->
  run_core (S (S (S f))) c' (CLocal [(x, e)] (CVar x)) = run_core f c e.
Proof.
  intros * Hc Hcl Hs Hso.
  assert (Hfit : fits c' 0).
  { unfold fits. destruct Hc as [Hl _]. rewrite Hl. apply N.ltb_ge. lia. }
  assert (Heq : run_top_at 1 e c' (run_task f c') = run_core f c e).
  { unfold run_core in *. rewrite run_top_at_0 in *. unfold run_top_at in *.
    pose proof (sh_eval init_env e 0 c c' _ _ Hc (sh_run_task c c' Hc f)) as He. apply rrel_eq in He.
    change (0 + 1) with 1 in He. unfold bind in *. rewrite <- He.
    destruct (eval init_env e 0 c (run_task f c)) as [t o]. destruct o as [v | er | s |]; try reflexivity.
    assert (Hle : cfg_le MLimit c c') by (destruct Hc as (Hl & Hb & Ht); unfold cfg_le; repeat split; auto; lia).
    pose proof (mono_finish v MLimit c c' _ _ Hle (run_task_limit_le c c' Hle f)) as Hm. unfold res_le in Hm.
    destruct (finish v c (run_task f c)) as [t2 o2] eqn:E. rewrite ?E in Hso. simpl in Hm, Hso |- *. rewrite Hm; [reflexivity|].
    destruct o2 as [j | er | s |]; try reflexivity. destruct er; try reflexivity. exfalso. apply Hso. reflexivity. }
  rewrite <- Heq. apply rw_local_name_bare; [exact Hcl | exact Hfit | rewrite Heq; exact Hs].
Qed.
