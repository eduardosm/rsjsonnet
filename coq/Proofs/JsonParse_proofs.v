(* Proofs/JsonParse_proofs.v — Model/JsonParse.v: the characters skipped between tokens are
   exactly TAB, LF, CR and SPACE; the parser rejects, each with its error kind, a character that
   starts no value, a leading zero, a control character in a string, text after the document
   and a repeated key; every object of a parsed value has pairwise distinct keys. *)
From RJ Require Import Base.Outcome Base.F64 Model.JsonParse.
From Coq Require Import Lia.
Local Open Scope N_scope.

Arguments N.add : simpl never.
Arguments N.mul : simpl never.
Arguments N.sub : simpl never.

Definition is_ws (c : N) : bool := (c =? 9) || (c =? 10) || (c =? 13) || (c =? 32).

Fixpoint drop_ws (s : str) : str :=
  match s with
  | c :: r => if is_ws c then drop_ws r else s
  | [] => []
  end.

Lemma skip_ws_rem : forall s line col, lx_rem (skip_ws line col s) = drop_ws s.
Proof.
  induction s as [|c r IH]; intros line col; [reflexivity|].
  cbn [skip_ws drop_ws]. unfold is_ws.
  destruct (c =? 9); [apply IH|]. destruct (c =? 10); [apply IH|].
  destruct (c =? 13); [apply IH|]. destruct (c =? 32); [apply IH|]. reflexivity.
Qed.

Lemma drop_ws_length s : (length (drop_ws s) <= length s)%nat.
Proof. induction s as [|c r IH]; [cbn; lia|]. cbn [drop_ws]. destruct (is_ws c); cbn [length]; lia. Qed.

(* the characters skipped between tokens are exactly TAB, LF, CR and SPACE *)
Theorem ws_exact : forall c r line col,
  lx_rem (skip_ws line col (c :: r)) = c :: r <-> is_ws c = false.
Proof.
  intros c r line col. rewrite skip_ws_rem. cbn [drop_ws]. destruct (is_ws c); split; intros H; try reflexivity; try discriminate.
  exfalso. pose proof (drop_ws_length r) as L. rewrite H in L. cbn [length] in L. lia.
Qed.

Lemma drop_ws_head s c r : drop_ws s = c :: r -> is_ws c = false.
Proof.
  induction s as [|d t IH]; [discriminate|]. cbn [drop_ws]. destruct (is_ws d) eqn:E; [apply IH|].
  intros H. injection H as -> _. exact E.
Qed.

Lemma skip_ws_nonws c r line col : is_ws c = false ->
  skip_ws line col (c :: r) = {| lx_line := line; lx_col := col; lx_rem := c :: r |}.
Proof.
  unfold is_ws. intros H. apply orb_false_elim in H. destruct H as [H H4].
  apply orb_false_elim in H. destruct H as [H H3]. apply orb_false_elim in H. destruct H as [H1 H2].
  cbn [skip_ws]. now rewrite H1, H2, H3, H4.
Qed.

Lemma skip_spaces_rem lx : lx_rem (skip_spaces lx) = drop_ws (lx_rem lx).
Proof. unfold skip_spaces. apply skip_ws_rem. Qed.

Lemma skip_spaces_nonws lx c r : lx_rem lx = c :: r -> is_ws c = false -> skip_spaces lx = lx.
Proof.
  intros H Hw. unfold skip_spaces. rewrite H, (skip_ws_nonws c r _ _ Hw). destruct lx as [l k s]. cbn in *. now subst.
Qed.

Lemma drop_ws_nonws c t : is_ws c = false -> drop_ws (c :: t) = c :: t.
Proof. intros H. cbn [drop_ws]. now rewrite H. Qed.

(* a document that does not start with whitespace is handed to the parser as it is *)
Lemma parse_json_nonws c s : is_ws c = false ->
  parse_json (c :: s) = parse_loop (S (S (length s))) {| lx_line := 0; lx_col := 0; lx_rem := c :: s |} [].
Proof. intros H. unfold parse_json, skip_spaces. cbn [lx_line lx_col lx_rem length]. now rewrite (skip_ws_nonws c s 0 0 H). Qed.

Lemma digit19_digit d : is_digit19 d = true -> is_digit d = true /\ (d =? 48) = false /\ (d =? 45) = false.
Proof.
  unfold is_digit19, is_digit. intros H. apply andb_prop in H. destruct H as [H1 H2]. apply N.leb_le in H1.
  rewrite H2. split; [|split].
  - rewrite andb_true_r. apply N.leb_le. lia.
  - apply N.eqb_neq. lia.
  - apply N.eqb_neq. lia.
Qed.

Lemma eat_char_hit c lx r : lx_rem lx = c :: r -> eat_char c lx = Some (advance lx 1 r).
Proof. intros H. unfold eat_char. rewrite H, N.eqb_refl. reflexivity. Qed.

Lemma eat_char_miss c lx d r : lx_rem lx = d :: r -> d <> c -> eat_char c lx = None.
Proof. intros H Hd. unfold eat_char. rewrite H. replace (d =? c) with false by (symmetry; now apply N.eqb_neq). reflexivity. Qed.

Lemma eat_str_miss a p lx d r : lx_rem lx = d :: r -> d <> a -> eat_str (a :: p) lx = None.
Proof.
  intros H Hd. unfold eat_str. rewrite H. cbn [strip_prefix].
  replace (a =? d) with false by (symmetry; apply N.eqb_neq; congruence). reflexivity.
Qed.

Lemma lex_number_none lx c r : lx_rem lx = c :: r -> c <> 45 -> is_digit c = false -> lex_number lx = Ok None.
Proof.
  intros H H45 Hd. unfold lex_number. rewrite H. cbn [lex_num nstep].
  replace (c =? 45) with false by (symmetry; now apply N.eqb_neq).
  replace (c =? 48) with false by (destruct (N.eqb_spec c 48) as [->|]; [discriminate Hd|reflexivity]).
  replace (is_digit19 c) with false; [reflexivity|].
  destruct (is_digit19 c) eqn:E; [|reflexivity]. destruct (digit19_digit c E) as [D _]. congruence.
Qed.

Lemma lex_string_none lx c r : lx_rem lx = c :: r -> c <> 34 -> lex_string lx = Ok None.
Proof. intros H Hc. unfold lex_string. now rewrite (eat_char_miss 34 lx c r H Hc). Qed.

Definition value_start (c : N) : bool :=
  (c =? 110) || (c =? 102) || (c =? 116) || (c =? 45) || is_digit c || (c =? 34) || (c =? 91) || (c =? 123).

Lemma start_value_reject lx c s : lx_rem lx = c :: s -> value_start c = false ->
  start_value lx = get_error lx EExpectedValue.
Proof.
  intros H Hv.
  assert (Hk : forall k, value_start k = true -> c <> k) by (intros k Hk ->; congruence).
  assert (Hd : is_digit c = false).
  { destruct (is_digit c) eqn:Hd; [|reflexivity]. unfold value_start in Hv. rewrite Hd, !orb_true_r in Hv. discriminate Hv. }
  unfold start_value.
  rewrite !(fun a p => eat_str_miss a p lx c s H) by (apply Hk; reflexivity).
  rewrite (lex_number_none lx c s H (Hk 45 eq_refl) Hd), (lex_string_none lx c s H (Hk 34 eq_refl)). cbn [obind].
  rewrite !(fun a => eat_char_miss a lx c s H) by (apply Hk; reflexivity). reflexivity.
Qed.

Theorem rejects_non_value_start : forall c s, is_ws c = false -> value_start c = false ->
  parse_json (c :: s) = Err {| je_line := 0; je_col := 0; je_kind := EExpectedValue |}.
Proof.
  intros c s Hw Hv. rewrite (parse_json_nonws c s Hw). cbn [parse_loop].
  rewrite (start_value_reject {| lx_line := 0; lx_col := 0; lx_rem := c :: s |} c s eq_refl Hv). reflexivity.
Qed.

Theorem rejects_leading_zero : forall d s, is_digit d = true ->
  parse_json (48 :: d :: s) = Err {| je_line := 0; je_col := 0; je_kind := EInvalidNumber |}.
Proof.
  intros d s Hd. rewrite (parse_json_nonws 48 _ eq_refl). cbn [parse_loop].
  unfold start_value, eat_str, lex_number. cbn [lx_rem strip_prefix N.eqb Pos.eqb].
  cbn [lex_num nstep N.eqb Pos.eqb]. rewrite Hd. reflexivity.
Qed.

Theorem rejects_leading_zero_neg : forall d s, is_digit d = true ->
  parse_json (45 :: 48 :: d :: s) = Err {| je_line := 0; je_col := 0; je_kind := EInvalidNumber |}.
Proof.
  intros d s Hd. rewrite (parse_json_nonws 45 _ eq_refl). cbn [parse_loop].
  unfold start_value, eat_str, lex_number. cbn [lx_rem strip_prefix N.eqb Pos.eqb].
  cbn [lex_num nstep N.eqb Pos.eqb]. rewrite Hd. reflexivity.
Qed.

Definition plain (c : N) : Prop := 32 <= c /\ c <> 34 /\ c <> 92.

Lemma lex_string_body_plain c r fuel line col start acc : plain c ->
  lex_string_body (S fuel) {| lx_line := line; lx_col := col; lx_rem := c :: r |} start acc =
  lex_string_body fuel {| lx_line := line; lx_col := col + 1; lx_rem := r |} start (c :: acc).
Proof.
  intros [H32 [H34 H92]]. cbn [lex_string_body lx_rem].
  rewrite (proj2 (N.eqb_neq c 34) H34), (proj2 (N.eqb_neq c 92) H92), (proj2 (N.leb_gt c 31)) by lia. reflexivity.
Qed.

Lemma lex_string_body_ctl : forall s1 c s2 fuel line col start acc,
  Forall plain s1 -> c < 32 -> (length s1 < fuel)%nat ->
  lex_string_body fuel {| lx_line := line; lx_col := col; lx_rem := s1 ++ c :: s2 |} start acc =
  Err {| je_line := line; je_col := col + N.of_nat (length s1); je_kind := EInvalidChrInString |}.
Proof.
  induction s1 as [|x r IH]; intros c s2 fuel line col start acc Hp Hc Hf;
    (destruct fuel as [|f]; [inversion Hf|]); cbn [app].
  - cbn [lex_string_body lx_rem].
    rewrite (proj2 (N.eqb_neq c 34)), (proj2 (N.eqb_neq c 92)), (proj2 (N.leb_le c 31)) by lia.
    unfold error_at. cbn [lx_line lx_col length]. now rewrite N.add_0_r.
  - inversion Hp as [|? ? Hx Hr]; subst. rewrite (lex_string_body_plain x _ f line col start acc Hx).
    rewrite IH by (assumption || exact (proj2 (Nat.succ_lt_mono _ _) Hf)).
    cbn [length]. do 2 f_equal. lia.
Qed.

Theorem rejects_control_chars : forall s1 c s2, Forall plain s1 -> c < 32 ->
  parse_json (34 :: s1 ++ c :: s2) =
  Err {| je_line := 0; je_col := 1 + N.of_nat (length s1); je_kind := EInvalidChrInString |}.
Proof.
  intros s1 c s2 Hp Hc. rewrite (parse_json_nonws 34 _ eq_refl). cbn [parse_loop].
  set (lx := {| lx_line := 0; lx_col := 0; lx_rem := 34 :: s1 ++ c :: s2 |}). unfold start_value.
  rewrite !(fun a p => eat_str_miss a p lx 34 _ eq_refl) by discriminate.
  rewrite (lex_number_none lx 34 _ eq_refl) by (discriminate || reflexivity). cbn [obind].
  unfold lex_string. rewrite (eat_char_hit 34 lx _ eq_refl). unfold advance. cbn [lx lx_line lx_col lx_rem].
  rewrite lex_string_body_ctl; [reflexivity|assumption|assumption|].
  rewrite app_length. cbn [length]. lia.
Qed.

Theorem unwind_done_iff : forall lx v,
  unwind lx [] v = UDone (Ok v) <-> lx_rem lx = [].
Proof.
  intros lx v. cbn [unwind]. destruct (lx_rem lx); split; intros H; try reflexivity; try discriminate.
Qed.

Theorem rejects_trailing_unwind : forall lx v c r, lx_rem lx = c :: r ->
  unwind lx [] v = UDone (Err {| je_line := lx_line lx; je_col := lx_col lx; je_kind := EExpectedEof |}).
Proof. intros lx v c r H. cbn [unwind]. rewrite H. reflexivity. Qed.

(* after the document "null" only whitespace may follow *)
Theorem rejects_trailing_null : forall c s, is_ws c = false ->
  exists line col, parse_json ([110; 117; 108; 108] ++ c :: s) =
                   Err {| je_line := line; je_col := col; je_kind := EExpectedEof |}.
Proof.
  intros c s Hw. cbn [app]. rewrite (parse_json_nonws 110 _ eq_refl). cbn [parse_loop].
  unfold start_value, eat_str. cbn [lx_rem strip_prefix N.eqb Pos.eqb obind].
  unfold skip_spaces, advance. cbn [lx_line lx_col lx_rem].
  rewrite (skip_ws_nonws c s _ _ Hw). cbn [unwind lx_rem]. eexists. eexists. reflexivity.
Qed.

Theorem rejects_dup_key_step : forall lx st fields key v, has_key key fields = true ->
  unwind lx (SObj fields key :: st) v =
  UDone (Err {| je_line := lx_line lx; je_col := lx_col lx; je_kind := ERepeatedFieldName key |}).
Proof. intros lx st fields key v H. cbn [unwind]. rewrite H. reflexivity. Qed.

Lemma str_eqb_eq a b : str_eqb a b = true <-> a = b.
Proof.
  revert b. induction a as [|x a IH]; intros [|y b]; cbn [str_eqb]; split; intros H; try reflexivity; try discriminate.
  - apply andb_prop in H. destruct H as [H1 H2]. apply N.eqb_eq in H1. apply IH in H2. now subst.
  - injection H as -> ->. rewrite N.eqb_refl. now apply IH.
Qed.

Lemma has_key_in k fields : has_key k fields = true <-> In k (map fst fields).
Proof.
  unfold has_key. rewrite existsb_exists. split.
  - intros [[k' v] [Hin He]]. cbn in He. apply str_eqb_eq in He. subst. apply in_map_iff. now exists (k', v).
  - intros H. apply in_map_iff in H. destruct H as [[k' v] [He Hin]]. cbn in He. subst.
    exists (k, v). split; [assumption|]. now apply str_eqb_eq.
Qed.

(* every object of a parsed value has pairwise distinct keys *)
Fixpoint keys_nodup (v : jvalue) : Prop :=
  match v with
  | JArr l => (fix all (l : list jvalue) : Prop := match l with [] => True | x :: r => keys_nodup x /\ all r end) l
  | JObj fs => NoDup (map fst fs) /\
               (fix all (l : list (str * jvalue)) : Prop :=
                  match l with [] => True | (_, x) :: r => keys_nodup x /\ all r end) fs
  | _ => True
  end.

(* the list conjunctions written out inside [keys_nodup] (and inside [wf] of the round trip) are [Forall] *)
Lemma all_fix_Forall {A} (P : A -> Prop) (l : list A) :
  (fix all (l : list A) : Prop := match l with [] => True | x :: r => P x /\ all r end) l <-> Forall P l.
Proof.
  induction l as [|x r IH]; split; intros H; [constructor|exact I| |].
  - destruct H as [H1 H2]. constructor; [assumption|now apply IH].
  - inversion H; subst. split; [assumption|now apply IH].
Qed.

Lemma all_fix_Forall_snd {K A} (P : A -> Prop) (l : list (K * A)) :
  (fix all (l : list (K * A)) : Prop := match l with [] => True | (_, x) :: r => P x /\ all r end) l
  <-> Forall (fun kv => P (snd kv)) l.
Proof.
  induction l as [|[k x] r IH]; split; intros H; [constructor|exact I| |].
  - destruct H as [H1 H2]. constructor; [assumption|now apply IH].
  - inversion H; subst. split; [assumption|now apply IH].
Qed.

Lemma keys_nodup_arr l : keys_nodup (JArr l) <-> Forall keys_nodup l.
Proof. exact (all_fix_Forall keys_nodup l). Qed.

Lemma keys_nodup_obj fs : keys_nodup (JObj fs) <-> NoDup (map fst fs) /\ Forall (fun kv => keys_nodup (snd kv)) fs.
Proof. cbn [keys_nodup]. now rewrite (all_fix_Forall_snd keys_nodup fs). Qed.

Definition item_ok (it : sitem) : Prop :=
  match it with
  | SArr items => Forall keys_nodup items
  | SObj fields _ => NoDup (map fst fields) /\ Forall (fun kv => keys_nodup (snd kv)) fields
  end.

Lemma unwind_ok : forall st lx v, Forall item_ok st -> keys_nodup v ->
  match unwind lx st v with
  | UDone (Ok v') => keys_nodup v'
  | UDone _ => True
  | UCont _ st' => Forall item_ok st'
  end.
Proof.
  induction st as [|it st IH]; intros lx v Hst Hv.
  - cbn [unwind]. destruct (lx_rem lx); [assumption|exact I].
  - inversion Hst as [|? ? Hit Hst']; subst. destruct it as [items|fields key]; cbn [unwind].
    + cbn [item_ok] in Hit.
      assert (Hitems : Forall keys_nodup (v :: items)) by (constructor; assumption).
      destruct (eat_char 93 lx) as [lx1|].
      * apply IH; [assumption|]. apply keys_nodup_arr. apply Forall_rev. assumption.
      * destruct (eat_char 44 lx) as [lx1|]; [|exact I]. constructor; assumption.
    + destruct Hit as [Hn Hf]. destruct (has_key key fields) eqn:Hk; [exact I|].
      assert (Hn' : NoDup (map fst ((key, v) :: fields))).
      { cbn [map fst]. constructor; [|assumption]. intros Hin. apply has_key_in in Hin. congruence. }
      assert (Hf' : Forall (fun kv => keys_nodup (snd kv)) ((key, v) :: fields)) by (constructor; assumption).
      destruct (eat_char 125 lx) as [lx1|].
      * apply IH; [assumption|]. apply keys_nodup_obj. split.
        -- rewrite map_rev. now apply NoDup_rev.
        -- now apply Forall_rev.
      * destruct (eat_char 44 lx) as [lx1|]; [|exact I].
        destruct (lex_key (skip_spaces lx1)) as [[k lx2]| | |]; try exact I.
        constructor; [|assumption]. cbn [item_ok]. split; assumption.
Qed.

Lemma start_value_ok lx : match start_value lx with
  | Ok (SVValue v _) => keys_nodup v
  | Ok (SVPush it _) => item_ok it
  | _ => True
  end.
Proof.
  unfold start_value.
  destruct (eat_str [110; 117; 108; 108] lx); [exact I|].
  destruct (eat_str [102; 97; 108; 115; 101] lx); [exact I|].
  destruct (eat_str [116; 114; 117; 101] lx); [exact I|].
  destruct (lex_number lx) as [[[x lx1]|]| | |]; cbn [obind]; try exact I.
  destruct (lex_string lx) as [[[s lx1]|]| | |]; cbn [obind]; try exact I.
  destruct (eat_char 91 lx) as [lx1|].
  { destruct (eat_char 93 (skip_spaces lx1)); [exact I|]. constructor. }
  destruct (eat_char 123 lx) as [lx1|]; [|exact I].
  destruct (eat_char 125 (skip_spaces lx1)); [split; [constructor|exact I]|].
  destruct (lex_key (skip_spaces lx1)) as [[k lx2]| | |]; cbn [obind]; try exact I.
  cbn [item_ok fst]. split; [constructor|constructor].
Qed.

Lemma parse_loop_ok : forall fuel lx st v, Forall item_ok st ->
  parse_loop fuel lx st = Ok v -> keys_nodup v.
Proof.
  induction fuel as [|fuel IH]; intros lx st v Hst H; [discriminate|].
  cbn [parse_loop] in H. pose proof (start_value_ok lx) as Hs.
  destruct (start_value lx) as [[v0 lx1|it lx1]| | |]; cbn [obind] in H; try discriminate.
  - pose proof (unwind_ok st lx1 v0 Hst Hs) as Hu.
    destruct (unwind lx1 st v0) as [r|lx2 st2].
    + subst r. assumption.
    + eapply IH; eassumption.
  - eapply IH; [|eassumption]. constructor; assumption.
Qed.

Theorem result_keys_nodup : forall s v, parse_json s = Ok v -> keys_nodup v.
Proof. intros s v H. unfold parse_json in H. eapply parse_loop_ok; [|eassumption]. constructor. Qed.
