(* Proofs/Utf8_proofs.v — the lexer's UTF-8 decoder (Model/Utf8.v, bit
   operations as in the source) against the Table 3-7 automaton [lossy], and
   the automaton against the textbook encoder.

   Method: the two facts that are tables by nature (which bytes are continuation
   bytes, which row of Table 3-7 a lead byte selects) are established by
   enumeration of the 256 byte values inside the kernel; masks, shifts and the
   second-byte ranges are arithmetic; the multi-byte structure is handled
   symbolically through an intermediate arithmetic decoder [decode_arith]. *)
From RJ Require Import Base.Outcome Model.Utf8.
From Coq Require Import Lia.
Local Open Scope N_scope.

Definition bytes_ok (bs : list N) : Prop := Forall (fun b => b < 256) bs.

Lemma bytes_ok_skipn k bs : bytes_ok bs -> bytes_ok (skipn k bs).
Proof.
  revert bs. induction k as [|k IH]; intros bs H; [exact H|].
  destruct bs as [|b r]; [exact H|]. apply IH. inversion H; assumption.
Qed.

Lemma bytes_ok_tail b r : bytes_ok (b :: r) -> bytes_ok r.
Proof. apply Forall_inv_tail. Qed.

Definition all_bytes : list N := map N.of_nat (seq 0 256).

Lemma in_all_bytes b : b < 256 -> In b all_bytes.
Proof.
  intros H. unfold all_bytes. apply in_map_iff. exists (N.to_nat b).
  split; [lia|]. apply in_seq. lia.
Qed.

Lemma byte_forall (P : N -> bool) :
  forallb P all_bytes = true -> forall b, b < 256 -> P b = true.
Proof. intros H b Hb. rewrite forallb_forall in H. apply H, in_all_bytes, Hb. Qed.

Lemma in_range_iff lo hi b : in_range lo hi b = true <-> lo <= b <= hi.
Proof. unfold in_range. rewrite andb_true_iff, !N.leb_le. tauto. Qed.

Lemma in_range_false_iff lo hi b : in_range lo hi b = false <-> (b < lo \/ hi < b).
Proof.
  unfold in_range. rewrite andb_false_iff, !N.leb_gt. tauto.
Qed.

Lemma in_range_true lo hi b : lo <= b <= hi -> in_range lo hi b = true.
Proof. apply in_range_iff. Qed.
Lemma in_range_false lo hi b : b < lo \/ hi < b -> in_range lo hi b = false.
Proof. apply in_range_false_iff. Qed.

Lemma is_cont_range b : b < 256 -> is_cont b = in_range 0x80 0xBF b.
Proof.
  intros H. apply Bool.eqb_prop.
  exact (byte_forall (fun b => Bool.eqb (is_cont b) (in_range 0x80 0xBF b)) eq_refl b H).
Qed.

(* masking a byte of a 2^k-aligned block leaves its offset in the block *)
Lemma land_low b k m : m * 2 ^ k <= b <= m * 2 ^ k + N.ones k -> N.land b (N.ones k) = b - m * 2 ^ k.
Proof.
  intros H. rewrite N.land_ones. rewrite N.ones_equiv in H.
  assert (P : 0 < 2 ^ k) by (apply N.neq_0_lt_0, N.pow_nonzero; discriminate).
  symmetry. apply (N.mod_unique b (2 ^ k) m); lia.
Qed.

Lemma land63 b : 0x80 <= b <= 0xBF -> N.land b 63 = b - 0x80.
Proof. exact (land_low b 6 2). Qed.
Lemma land31 b : 0xC0 <= b <= 0xDF -> N.land b 31 = b - 0xC0.
Proof. exact (land_low b 5 6). Qed.
Lemma land15 b : 0xE0 <= b <= 0xEF -> N.land b 15 = b - 0xE0.
Proof. exact (land_low b 4 14). Qed.
Lemma land7 b : 0xF0 <= b <= 0xF7 -> N.land b 7 = b - 0xF0.
Proof. exact (land_low b 3 30). Qed.

(* the second-byte range as a function of the lead byte *)
Definition lo3 (b0 : N) : N := if b0 =? 0xE0 then 0xA0 else 0x80.
Definition hi3 (b0 : N) : N := if b0 =? 0xED then 0x9F else 0xBF.
Definition lo4 (b0 : N) : N := if b0 =? 0xF0 then 0x90 else 0x80.
Definition hi4 (b0 : N) : N := if b0 =? 0xF4 then 0x8F else 0xBF.

(* after E0 no overlong form, after ED no surrogate *)
Lemma range3_iff b0 b1 : in_range (lo3 b0) (hi3 b0) b1 = true <->
  0x80 <= b1 <= 0xBF /\ (b0 = 0xE0 -> 0xA0 <= b1) /\ (b0 = 0xED -> b1 <= 0x9F).
Proof.
  rewrite in_range_iff. unfold lo3, hi3. destruct (N.eqb_spec b0 0xE0), (N.eqb_spec b0 0xED); lia.
Qed.

(* after F0 no overlong form, after F4 nothing above U+10FFFF *)
Lemma range4_iff b0 b1 : in_range (lo4 b0) (hi4 b0) b1 = true <->
  0x80 <= b1 <= 0xBF /\ (b0 = 0xF0 -> 0x90 <= b1) /\ (b0 = 0xF4 -> b1 <= 0x8F).
Proof.
  rewrite in_range_iff. unfold lo4, hi4. destruct (N.eqb_spec b0 0xF0), (N.eqb_spec b0 0xF4); lia.
Qed.

(* of the arms of the table exactly one admits the lead byte *)
Lemma second3_range b0 b1 : in_range 0xE0 0xEF b0 = true ->
  second3_ok b0 b1 = in_range (lo3 b0) (hi3 b0) b1.
Proof.
  intros R. apply in_range_iff in R. unfold second3_ok, pair_ok, second3_table, lo3, hi3. cbn [existsb].
  destruct (N.eqb_spec b0 0xE0) as [->|]; [apply orb_false_r|].
  destruct (N.eqb_spec b0 0xED) as [->|]; [apply orb_false_r|].
  rewrite (in_range_false 0xE0 0xE0), (in_range_false 0xED 0xED) by lia. cbn [andb orb].
  destruct (N.le_gt_cases b0 0xEC).
  - rewrite (in_range_true 0xE1 0xEC), (in_range_false 0xEE 0xEF) by lia. apply orb_false_r.
  - rewrite (in_range_false 0xE1 0xEC), (in_range_true 0xEE 0xEF) by lia. apply orb_false_r.
Qed.

Lemma second4_range b0 b1 : in_range 0xF0 0xF7 b0 = true ->
  second4_ok b0 b1 = in_range 0xF0 0xF4 b0 && in_range (lo4 b0) (hi4 b0) b1.
Proof.
  intros R. apply in_range_iff in R. unfold second4_ok, pair_ok, second4_table, lo4, hi4. cbn [existsb].
  destruct (N.eqb_spec b0 0xF0) as [->|]; [apply orb_false_r|].
  destruct (N.eqb_spec b0 0xF4) as [->|]; [apply orb_false_r|].
  rewrite (in_range_false 0xF0 0xF0), (in_range_false 0xF4 0xF4) by lia. cbn [andb orb].
  destruct (N.le_gt_cases b0 0xF3).
  - rewrite (in_range_true 0xF1 0xF3), (in_range_true 0xF0 0xF4) by lia. apply orb_false_r.
  - rewrite (in_range_false 0xF1 0xF3), (in_range_false 0xF0 0xF4) by lia. reflexivity.
Qed.

Definition row_of (b0 : N) : option (N * list (N * N)) :=
  if b0 <=? 0x7F then Some (0, [])
  else if in_range lead2_lo lead2_hi b0 then Some (0xC0, [cont_range])
  else if in_range 0xE0 0xEF b0 then Some (0xE0, [(lo3 b0, hi3 b0); cont_range])
  else if in_range 0xF0 0xF7 b0 then
    if in_range 0xF0 0xF4 b0 then Some (0xF0, [(lo4 b0, hi4 b0); cont_range; cont_range]) else None
  else None.

Definition pair_eqb (a b : N * N) : bool := (fst a =? fst b) && (snd a =? snd b).
Fixpoint trail_eqb (a b : list (N * N)) : bool :=
  match a, b with
  | [], [] => true
  | x :: a', y :: b' => pair_eqb x y && trail_eqb a' b'
  | _, _ => false
  end.
Lemma trail_eqb_eq a b : trail_eqb a b = true -> a = b.
Proof.
  revert b. induction a as [|[x1 x2] a IH]; destruct b as [|[y1 y2] b]; simpl; intros H; try discriminate; auto.
  apply andb_true_iff in H as [H1 H2]. unfold pair_eqb in H1. simpl in H1.
  apply andb_true_iff in H1 as [Ha Hb]. apply N.eqb_eq in Ha, Hb. subst. f_equal. apply IH, H2.
Qed.

Definition row_eqb (a : option row) (b : option (N * list (N * N))) : bool :=
  match a, b with
  | None, None => true
  | Some r, Some (base, tr) => (r_base r =? base) && trail_eqb (r_trail r) tr
  | _, _ => false
  end.

Lemma find_row_of b0 : b0 < 256 -> row_eqb (find_row b0) (row_of b0) = true.
Proof. exact (byte_forall (fun b0 => row_eqb (find_row b0) (row_of b0)) eq_refl b0). Qed.

Lemma testbit_small y k n : y < 2 ^ k -> k <= n -> N.testbit y n = false.
Proof.
  intros Hy Hn. destruct (N.eq_dec y 0) as [->|Hy0]; [apply N.bits_0|].
  apply N.bits_above_log2. apply N.log2_lt_pow2; [lia|].
  eapply N.lt_le_trans; [exact Hy|]. apply N.pow_le_mono_r; lia.
Qed.

Lemma land_shift_small x y k : y < 2 ^ k -> N.land (x * 2 ^ k) y = 0.
Proof.
  intros Hy. apply N.bits_inj; intros n; rewrite N.land_spec, N.bits_0.
  destruct (N.lt_ge_cases n k) as [Hn|Hn].
  - rewrite N.mul_pow2_bits_low by exact Hn; reflexivity.
  - rewrite (testbit_small y k n Hy Hn). apply andb_false_r.
Qed.

Lemma lor_shiftl_add x y k : y < 2 ^ k -> N.lor (N.shiftl x k) y = x * 2 ^ k + y.
Proof.
  intros Hy. rewrite N.shiftl_mul_pow2.
  rewrite <- N.lxor_lor by (apply land_shift_small; exact Hy).
  symmetry. apply N.add_nocarry_lxor. apply land_shift_small; exact Hy.
Qed.

Lemma lor6 x y : y < 64 -> N.lor (N.shiftl x 6) y = x * 64 + y.
Proof. intros H. rewrite (lor_shiftl_add x y 6) by exact H. reflexivity. Qed.

Lemma lor6_12 x y z : y < 64 -> z < 64 ->
  N.lor (N.lor (N.shiftl x 12) (N.shiftl y 6)) z = (x * 64 + y) * 64 + z.
Proof.
  intros Hy Hz.
  replace (N.shiftl x 12) with (N.shiftl (N.shiftl x 6) 6) by (rewrite N.shiftl_shiftl; reflexivity).
  rewrite <- N.shiftl_lor, (lor6 x y Hy). apply lor6, Hz.
Qed.

Lemma lor6_12_18 x y z w : y < 64 -> z < 64 -> w < 64 ->
  N.lor (N.lor (N.lor (N.shiftl x 18) (N.shiftl y 12)) (N.shiftl z 6)) w = ((x * 64 + y) * 64 + z) * 64 + w.
Proof.
  intros Hy Hz Hw.
  replace (N.shiftl x 18) with (N.shiftl (N.shiftl x 12) 6) by (rewrite N.shiftl_shiftl; reflexivity).
  replace (N.shiftl y 12) with (N.shiftl (N.shiftl y 6) 6) by (rewrite N.shiftl_shiftl; reflexivity).
  rewrite <- !N.shiftl_lor, (lor6_12 x y z Hy Hz). apply lor6, Hw.
Qed.

Lemma from_u32_ok {E} cp : is_scalar cp = true -> @from_u32_unwrap E cp = Ok cp.
Proof. intros H. unfold from_u32_unwrap. rewrite H. reflexivity. Qed.

Lemma is_scalar_iff cp : is_scalar cp = true <-> (cp < 0xD800 \/ 0xDFFF < cp <= 0x10FFFF).
Proof. unfold is_scalar. rewrite orb_true_iff, andb_true_iff, !N.ltb_lt, N.leb_le. tauto. Qed.

Fixpoint match_trail (trail : list (N * N)) (acc : N) (rest : list N) : nat * option N :=
  match trail with
  | [] => (0%nat, Some acc)
  | (lo, hi) :: tr =>
      match rest with
      | [] => (0%nat, None)
      | b :: r =>
          if in_range lo hi b then
            let '(k, oc) := match_trail tr (acc * 64 + (b - 0x80)) r in (S k, oc)
          else (0%nat, None)
      end
  end.

Definition decode_arith (b0 : N) (rest : list N) : nat * option N :=
  match row_of b0 with
  | None => (0%nat, None)
  | Some (base, trail) => match_trail trail (b0 - base) rest
  end.

Lemma match_trail_le trail : forall acc rest, (fst (match_trail trail acc rest) <= length rest)%nat.
Proof.
  induction trail as [|[lo hi] tr IH]; intros acc rest; cbn [match_trail fst]; [lia|].
  destruct rest as [|b r]; cbn [fst length]; [lia|].
  destruct (in_range lo hi b); cbn [fst]; [|lia].
  specialize (IH (acc * 64 + (b - 0x80)) r).
  destruct (match_trail tr (acc * 64 + (b - 128)) r) as [k oc]. cbn [fst] in *. lia.
Qed.

Lemma decode_arith_le b0 rest : (fst (decode_arith b0 rest) <= length rest)%nat.
Proof.
  unfold decode_arith. destruct (row_of b0) as [[base tr]|]; [apply match_trail_le|cbn; lia].
Qed.

Lemma safe_get_byte rest i : bytes_ok rest -> safe_get rest i < 256.
Proof.
  intros H. unfold safe_get. destruct (nth_in_or_default i rest 0) as [HI| ->]; [|lia].
  exact (proj1 (Forall_forall _ _) H _ HI).
Qed.

Lemma safe_get_tl rest i : safe_get (tl rest) i = safe_get rest (S i).
Proof. destruct rest; [destruct i|]; reflexivity. Qed.

(* one expected trailing byte, read the way the code reads it: past the end of
   the input it reads 0, which no range admits *)
Lemma match_trail_get lo hi tr acc rest : 0 < lo ->
  match_trail ((lo, hi) :: tr) acc rest =
  if in_range lo hi (safe_get rest 0)
  then let '(k, oc) := match_trail tr (acc * 64 + (safe_get rest 0 - 0x80)) (tl rest) in (S k, oc)
  else (0%nat, None).
Proof.
  intros H. destruct rest as [|b r]; [|reflexivity]. cbn [match_trail safe_get nth].
  replace (in_range lo hi 0) with false; [reflexivity|]. symmetry. apply in_range_false_iff. lia.
Qed.

(* the code's masks and shifts assemble the value the arithmetic decoder accumulates,
   and it is a scalar value: one lemma for each length *)
Lemma bits2 {E} b0 b1 : 0xC2 <= b0 <= 0xDF -> 0x80 <= b1 <= 0xBF ->
  @from_u32_unwrap E (N.lor (N.shiftl (N.land b0 31) 6) (N.land b1 63)) = Ok ((b0 - 0xC0) * 64 + (b1 - 0x80)).
Proof. intros H0 H1. rewrite land31, land63, lor6 by lia. apply from_u32_ok, is_scalar_iff. lia. Qed.

Lemma bits3 {E} b0 b1 b2 : 0xE0 <= b0 <= 0xEF -> in_range (lo3 b0) (hi3 b0) b1 = true -> 0x80 <= b2 <= 0xBF ->
  @from_u32_unwrap E (N.lor (N.lor (N.shiftl (N.land b0 15) 12) (N.shiftl (N.land b1 63) 6)) (N.land b2 63))
  = Ok (((b0 - 0xE0) * 64 + (b1 - 0x80)) * 64 + (b2 - 0x80)).
Proof.
  intros H0 H1 H2. apply range3_iff in H1. rewrite land15, !land63, lor6_12 by lia.
  apply from_u32_ok, is_scalar_iff. lia.
Qed.

Lemma bits4 {E} b0 b1 b2 b3 : 0xF0 <= b0 <= 0xF4 -> in_range (lo4 b0) (hi4 b0) b1 = true ->
  0x80 <= b2 <= 0xBF -> 0x80 <= b3 <= 0xBF ->
  @from_u32_unwrap E (N.lor (N.lor (N.lor (N.shiftl (N.land b0 7) 18) (N.shiftl (N.land b1 63) 12))
                                   (N.shiftl (N.land b2 63) 6)) (N.land b3 63))
  = Ok ((((b0 - 0xF0) * 64 + (b1 - 0x80)) * 64 + (b2 - 0x80)) * 64 + (b3 - 0x80)).
Proof.
  intros H0 H1 H2 H3. apply range4_iff in H1. rewrite land7, !land63, lor6_12_18 by lia.
  apply from_u32_ok, is_scalar_iff. lia.
Qed.

Lemma lo3_pos b0 : 0 < lo3 b0.
Proof. unfold lo3. destruct (b0 =? 0xE0); reflexivity. Qed.
Lemma lo4_pos b0 : 0 < lo4 b0.
Proof. unfold lo4. destruct (b0 =? 0xF0); reflexivity. Qed.

Lemma decode_eq {E} b0 rest : bytes_ok rest ->
  @decode_cont_char E b0 rest = Ok (decode_arith b0 rest).
Proof.
  intros Hr. unfold decode_cont_char, decode_arith, row_of, cont_range.
  pose proof (safe_get_byte rest 0 Hr) as H1. pose proof (safe_get_byte rest 1 Hr) as H2.
  pose proof (safe_get_byte rest 2 Hr) as H3.
  set (b1 := safe_get rest 0) in *. set (b2 := safe_get rest 1) in *. set (b3 := safe_get rest 2) in *.
  destruct (b0 <=? 0x7F); [cbn [match_trail]; rewrite N.sub_0_r; reflexivity|].
  destruct (in_range lead2_lo lead2_hi b0) eqn:L2.
  { apply in_range_iff in L2. rewrite match_trail_get by reflexivity. fold b1. rewrite (is_cont_range b1 H1).
    destruct (in_range 0x80 0xBF b1) eqn:R1; cbn [negb match_trail]; [|reflexivity].
    apply in_range_iff in R1. rewrite bits2 by assumption. reflexivity. }
  destruct (in_range 0xE0 0xEF b0) eqn:L3.
  { rewrite (second3_range b0 b1 L3), match_trail_get by apply lo3_pos. fold b1.
    destruct (in_range (lo3 b0) (hi3 b0) b1) eqn:R1; cbn [negb]; [|reflexivity].
    rewrite match_trail_get, safe_get_tl by reflexivity. fold b2. rewrite (is_cont_range b2 H2).
    destruct (in_range 0x80 0xBF b2) eqn:R2; cbn [negb match_trail]; [|reflexivity].
    apply in_range_iff in L3, R2. rewrite bits3 by assumption. reflexivity. }
  destruct (in_range 0xF0 0xF7 b0) eqn:L4; [|reflexivity].
  rewrite (second4_range b0 b1 L4).
  destruct (in_range 0xF0 0xF4 b0) eqn:L4'; cbn [andb negb]; [|reflexivity].
  rewrite match_trail_get by apply lo4_pos. fold b1.
  destruct (in_range (lo4 b0) (hi4 b0) b1) eqn:R1; cbn [negb]; [|reflexivity].
  rewrite match_trail_get, safe_get_tl by reflexivity. fold b2. rewrite (is_cont_range b2 H2).
  destruct (in_range 0x80 0xBF b2) eqn:R2; cbn [negb]; [|reflexivity].
  rewrite match_trail_get, !safe_get_tl by reflexivity. fold b3. rewrite (is_cont_range b3 H3).
  destruct (in_range 0x80 0xBF b3) eqn:R3; cbn [negb match_trail]; [|reflexivity].
  apply in_range_iff in L4', R2, R3. rewrite bits4 by assumption. reflexivity.
Qed.

Definition or_repl (oc : option N) : N := match oc with Some c => c | None => replacement end.

Lemma lossy_idle_step b r :
  lossy_from LIdle (b :: r) = let '(out, st') := lossy_idle b in out ++ lossy_from st' r.
Proof. reflexivity. Qed.

Lemma lossy_seq trail : forall acc rest, trail <> [] ->
  lossy_from (LSeq trail acc) rest =
  let '(k, oc) := match_trail trail acc rest in or_repl oc :: lossy_from LIdle (skipn k rest).
Proof.
  induction trail as [|[lo hi] tr IH]; intros acc rest Hne; [congruence|].
  destruct rest as [|b r]; [reflexivity|].
  cbn [lossy_from lossy_step match_trail].
  destruct (in_range lo hi b) eqn:R.
  - destruct tr as [|p tr'].
    + reflexivity.
    + cbn [app]. rewrite IH by congruence.
      destruct (match_trail (p :: tr') (acc * 64 + (b - 128)) r) as [k oc]. reflexivity.
  - cbn [skipn or_repl]. rewrite lossy_idle_step.
    destruct (lossy_idle b) as [out st']. reflexivity.
Qed.

Lemma lossy_lead b0 rest : b0 < 256 ->
  lossy_from LIdle (b0 :: rest) =
  let '(k, oc) := decode_arith b0 rest in or_repl oc :: lossy_from LIdle (skipn k rest).
Proof.
  intros H0. rewrite lossy_idle_step. unfold lossy_idle, decode_arith.
  pose proof (find_row_of b0 H0) as HR. unfold row_eqb in HR.
  destruct (find_row b0) as [r|]; destruct (row_of b0) as [[base tr]|] eqn:Hrow; try discriminate.
  2:{ reflexivity. }
  apply andb_true_iff in HR as [Hb Ht]. apply N.eqb_eq in Hb. apply trail_eqb_eq in Ht. subst base tr.
  destruct (r_trail r) as [|p tr] eqn:Htr.
  - cbn [match_trail app skipn or_repl].
    replace (b0 - r_base r) with b0; [reflexivity|].
    (* only the ASCII row has no trailing byte, and its base is 0 *)
    unfold row_of in Hrow. destruct (b0 <=? 0x7F); [injection Hrow as <-; lia|].
    destruct (in_range lead2_lo lead2_hi b0), (in_range 0xE0 0xEF b0), (in_range 0xF0 0xF7 b0),
      (in_range 0xF0 0xF4 b0); discriminate.
  - cbn [app]. apply lossy_seq. congruence.
Qed.

Theorem decode_all_fuel_lossy {E} : forall fuel bs, (length bs < fuel)%nat -> bytes_ok bs ->
  @decode_all_fuel E fuel bs = Ok (lossy bs).
Proof.
  induction fuel as [|f IH]; intros bs Hl Hb; [lia|].
  destruct bs as [|b0 rest]; [reflexivity|].
  inversion Hb as [|? ? H0 Hr]; subst.
  cbn [decode_all_fuel]. rewrite (decode_eq b0 rest Hr). cbn [obind].
  unfold lossy. rewrite (lossy_lead b0 rest H0).
  pose proof (decode_arith_le b0 rest) as Hk.
  destruct (decode_arith b0 rest) as [k oc]. cbn [fst] in Hk.
  rewrite IH.
  - reflexivity.
  - rewrite skipn_length. cbn [length] in Hl. lia.
  - apply bytes_ok_skipn, Hr.
Qed.

Theorem decode_is_lossy {E} bs : bytes_ok bs -> @decode_all E bs = Ok (lossy bs).
Proof. intros H. apply decode_all_fuel_lossy; [lia|exact H]. Qed.

Lemma from_u32_bind {E} x (n k : nat) c :
  obind (@from_u32_unwrap E x) (fun c => Ok (n, Some c)) = Ok (k, Some c) -> is_scalar c = true.
Proof. unfold from_u32_unwrap. destruct (is_scalar x) eqn:S; intros H; inversion H; subst; exact S. Qed.

(* a character comes from an ASCII byte or through char::from_u32 *)
Lemma decode_scalar {E} b0 rest k c : @decode_cont_char E b0 rest = Ok (k, Some c) -> is_scalar c = true.
Proof.
  unfold decode_cont_char. destruct (b0 <=? 0x7F) eqn:A.
  { intros H. injection H as _ <-. apply is_scalar_iff. apply N.leb_le in A. lia. }
  destruct (in_range lead2_lo lead2_hi b0).
  { destruct (negb _); [discriminate|apply from_u32_bind]. }
  destruct (in_range 0xE0 0xEF b0).
  { destruct (negb _); [discriminate|]. destruct (negb _); [discriminate|apply from_u32_bind]. }
  destruct (in_range 0xF0 0xF7 b0); [|discriminate].
  destruct (negb _); [discriminate|]. destruct (negb _); [discriminate|].
  destruct (negb _); [discriminate|apply from_u32_bind].
Qed.

Theorem decode_no_panic {E} b0 rest : b0 < 256 -> bytes_ok rest ->
  exists k oc, @decode_cont_char E b0 rest = Ok (k, oc) /\ (k <= length rest)%nat.
Proof.
  intros H0 Hr. rewrite (decode_eq b0 rest Hr).
  pose proof (decode_arith_le b0 rest) as Hk. destruct (decode_arith b0 rest) as [k oc].
  exists k, oc. split; [reflexivity|exact Hk].
Qed.

Lemma lossy_ascii c rest : c < 0x80 -> lossy (c :: rest) = c :: lossy rest.
Proof.
  intros Hc. unfold lossy. rewrite lossy_lead by lia. unfold decode_arith, row_of.
  rewrite (proj2 (N.leb_le c 127)) by lia. cbn [match_trail skipn or_repl]. f_equal. lia.
Qed.

Lemma match_trail_ge trail : forall acc rest k v,
  match_trail trail acc rest = (k, Some v) -> acc <= v /\ (trail <> [] -> acc * 64 <= v).
Proof.
  induction trail as [|[lo hi] tr IH]; intros acc rest k v H; cbn [match_trail] in H.
  - inversion H; subst. split; [lia|congruence].
  - destruct rest as [|b r]; [discriminate|]. destruct (in_range lo hi b); [|discriminate].
    destruct (match_trail tr (acc * 64 + (b - 128)) r) as [k' oc] eqn:M. inversion H; subst.
    destruct (IH _ _ _ _ M) as [G _]. split; [lia|intros _; lia].
Qed.

Lemma decode_arith_nonascii b0 rest : 128 <= b0 -> 128 <= or_repl (snd (decode_arith b0 rest)).
Proof.
  intros Hb. unfold decode_arith, row_of.
  assert (REPL : 128 <= or_repl (snd (0%nat, @None N))) by (cbn; unfold replacement; lia).
  replace (b0 <=? 127) with false by (symmetry; apply N.leb_gt; lia).
  destruct (in_range lead2_lo lead2_hi b0) eqn:R2.
  { apply in_range_iff in R2. unfold lead2_lo in R2.
    destruct (match_trail [cont_range] (b0 - 192) rest) as [k [v|]] eqn:M; [|exact REPL].
    apply match_trail_ge in M as [_ G]. specialize (G ltac:(discriminate)). cbn. lia. }
  destruct (in_range 0xE0 0xEF b0) eqn:R3.
  { apply in_range_iff in R3.
    rewrite match_trail_get by apply lo3_pos.
    destruct (in_range _ (hi3 b0) (safe_get rest 0)) eqn:R1; [|exact REPL].
    destruct (match_trail [cont_range] _ (tl rest)) as [k [v|]] eqn:M; [|exact REPL].
    apply match_trail_ge in M as [_ G]. specialize (G ltac:(discriminate)).
    apply range3_iff in R1. cbn. lia. }
  destruct (in_range 0xF0 0xF7 b0); [|exact REPL].
  destruct (in_range 0xF0 0xF4 b0) eqn:R4; [|exact REPL].
  apply in_range_iff in R4.
  rewrite match_trail_get by apply lo4_pos.
  destruct (in_range _ (hi4 b0) (safe_get rest 0)) eqn:R1; [|exact REPL].
  destruct (match_trail [cont_range; cont_range] _ (tl rest)) as [k [v|]] eqn:M; [|exact REPL].
  apply match_trail_ge in M as [_ G]. specialize (G ltac:(discriminate)).
  apply range4_iff in R1. cbn. lia.
Qed.

Lemma lossy_cons x r : bytes_ok (x :: r) ->
  exists cp t, lossy (x :: r) = cp :: t /\ (x < 128 -> cp = x) /\ (128 <= x -> 128 <= cp).
Proof.
  intros B. apply Forall_inv in B. pose proof (lossy_lead x r B) as L.
  pose proof (decode_arith_nonascii x r) as NA. destruct (decode_arith x r) as [k oc].
  exists (or_repl oc), (lossy (skipn k r)). split; [exact L|]. split; [|exact NA].
  intros Lt. pose proof (lossy_ascii x r Lt) as A. unfold lossy in A. congruence.
Qed.

(* the 6-bit groups the encoder cuts a code point into *)
Lemma digits64 c :
  c = c / 64 * 64 + c mod 64 /\
  c = c / 4096 * 4096 + (c / 64) mod 64 * 64 + c mod 64 /\
  c = c / 262144 * 262144 + (c / 4096) mod 64 * 4096 + (c / 64) mod 64 * 64 + c mod 64.
Proof.
  change 4096 with (64 * 64). change 262144 with (64 * 64 * 64). rewrite <- !N.div_div by discriminate.
  pose proof (N.div_mod' c 64). pose proof (N.div_mod' (c / 64) 64). pose proof (N.div_mod' (c / 64 / 64) 64).
  lia.
Qed.

Lemma add_sub_l a b : a + b - a = b.
Proof. rewrite N.add_comm. apply N.add_sub. Qed.

(* the automaton reads back what the textbook encoder writes: one lemma for each
   length, over the 6-bit groups as variables *)
Lemma lossy_enc2 c q t rest : c = q * 64 + t -> t < 64 -> 0x80 <= c < 0x800 ->
  lossy (0xC0 + q :: 0x80 + t :: rest) = c :: lossy rest.
Proof.
  intros -> Ht Hc. unfold lossy. rewrite lossy_lead by lia.
  unfold decode_arith, row_of, lead2_lo, lead2_hi, cont_range.
  rewrite (proj2 (N.leb_gt _ _)), (in_range_true 0xC2 0xDF) by lia.
  cbn [match_trail]. rewrite (in_range_true 0x80 0xBF) by lia. cbn [skipn or_repl]. f_equal. rewrite !add_sub_l. lia.
Qed.

Lemma lossy_enc3 c q r t rest : c = q * 4096 + r * 64 + t -> r < 64 -> t < 64 ->
  0x800 <= c < 0x10000 -> is_scalar c = true ->
  lossy (0xE0 + q :: 0x80 + r :: 0x80 + t :: rest) = c :: lossy rest.
Proof.
  intros -> Hr Ht Hc Hs. apply is_scalar_iff in Hs. unfold lossy. rewrite lossy_lead by lia.
  unfold decode_arith, row_of, lead2_lo, lead2_hi, cont_range.
  rewrite (proj2 (N.leb_gt _ _)), (in_range_false 0xC2 0xDF), (in_range_true 0xE0 0xEF) by lia.
  cbn [match_trail]. rewrite (proj2 (range3_iff _ _)), (in_range_true 0x80 0xBF) by lia.
  cbn [skipn or_repl]. f_equal. rewrite !add_sub_l. lia.
Qed.

Lemma lossy_enc4 c p q r t rest : c = p * 262144 + q * 4096 + r * 64 + t -> q < 64 -> r < 64 -> t < 64 ->
  0x10000 <= c <= 0x10FFFF ->
  lossy (0xF0 + p :: 0x80 + q :: 0x80 + r :: 0x80 + t :: rest) = c :: lossy rest.
Proof.
  intros -> Hq Hr Ht Hc. unfold lossy. rewrite lossy_lead by lia.
  unfold decode_arith, row_of, lead2_lo, lead2_hi, cont_range.
  rewrite (proj2 (N.leb_gt _ _)), (in_range_false 0xC2 0xDF), (in_range_false 0xE0 0xEF),
    (in_range_true 0xF0 0xF7), (in_range_true 0xF0 0xF4) by lia.
  cbn [match_trail]. rewrite (proj2 (range4_iff _ _)), !(in_range_true 0x80 0xBF) by lia.
  cbn [skipn or_repl]. f_equal. rewrite !add_sub_l. lia.
Qed.

Lemma lossy_encode cp bs : is_scalar cp = true ->
  lossy (utf8_encode cp ++ bs) = cp :: lossy bs.
Proof.
  intros Hs. pose proof Hs as Hc. apply is_scalar_iff in Hc. destruct (digits64 cp) as (D2 & D3 & D4).
  assert (Hm : forall x, x mod 64 < 64) by (intros x; apply N.mod_lt; discriminate).
  unfold utf8_encode.
  destruct (N.ltb_spec cp 0x80); [apply lossy_ascii; assumption|].
  destruct (N.ltb_spec cp 0x800); [apply lossy_enc2; auto; lia|].
  destruct (N.ltb_spec cp 0x10000); [apply lossy_enc3; auto; lia|apply lossy_enc4; auto; lia].
Qed.

Theorem lossy_encode_all s : Forall (fun c => is_scalar c = true) s ->
  lossy (utf8_encode_all s) = s.
Proof.
  induction 1 as [|c s Hc Hs IH]; [reflexivity|].
  unfold utf8_encode_all in *. cbn [flat_map]. rewrite lossy_encode by exact Hc. rewrite IH. reflexivity.
Qed.

Lemma utf8_encode_bytes cp : is_scalar cp = true -> bytes_ok (utf8_encode cp).
Proof.
  intros Hs. apply is_scalar_iff in Hs. unfold utf8_encode, bytes_ok.
  pose proof (N.mod_lt cp 64 ltac:(lia)). pose proof (N.mod_lt (cp / 64) 64 ltac:(lia)).
  pose proof (N.mod_lt (cp / 4096) 64 ltac:(lia)).
  (* in each size class the quotient in the lead byte is small *)
  destruct (N.ltb_spec cp 0x80); [repeat constructor; lia|].
  destruct (N.ltb_spec cp 0x800).
  { assert (cp / 64 < 32) by (apply N.div_lt_upper_bound; lia). repeat constructor; lia. }
  destruct (N.ltb_spec cp 0x10000).
  { assert (cp / 4096 < 16) by (apply N.div_lt_upper_bound; lia). repeat constructor; lia. }
  assert (cp / 262144 < 5) by (apply N.div_lt_upper_bound; lia). repeat constructor; lia.
Qed.
