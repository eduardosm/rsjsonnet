(* Proofs/Parser_rt_cor.v — corollaries of the round trip *)
From RJ Require Import Base.Outcome Model.Token Model.Ast Model.Parser Model.Print
  Proofs.Parser_proofs Proofs.Parser_rt Proofs.Parser_rt2 Proofs.Parser_rt3 Proofs.Parser_rt4 Proofs.Parser_rt5.
Local Open Scope list_scope.
Local Open Scope N_scope.

Theorem parse_print_roundtrip : forall e, Print.wp e = true ->
  parse_tree spec_prec (print_tokens e) = Ok (strip_spans e).
Proof. exact roundtrip. Qed.

Theorem left_assoc : left_assoc_goal.
Proof. exact left_assoc_chains. Qed.

Lemma dangling_fp e : dangling (full_paren e) = false.
Proof. destruct e; reflexivity. Qed.

Lemma specs_ok_fp specs : specs_ok (map fp_spec specs) = specs_ok specs.
Proof. destruct specs as [|[] ?]; reflexivity. Qed.

(* Transparent, as are [map3_ext] and the lemmas of the two sections below: [wp_fp] and [unp_fp] are
   structural recursions on the tree that go through them, and the guard checker has to see that the
   hypothesis on sub-expressions is only ever applied to parts of the tree at hand. *)
Lemma forallb_map_impl {A B} (p : A -> bool) (q : B -> bool) (f : A -> B) :
  (forall x, p x = true -> q (f x) = true) -> forall l, forallb p l = true -> forallb q (map f l) = true.
Proof.
  intros H l. induction l as [|x l IH]; cbn [map forallb]; [reflexivity|].
  intros Hl. apply andb_true_iff in Hl as [Hx Hl]. rewrite (H x Hx), (IH Hl). reflexivity.
Defined.

(* a fully parenthesised tree is well parenthesised wherever it stands: every sub-expression is an
   [EParen]; only the side conditions on bind lists and comprehension specs are taken from [wp e] *)
Section WpParts.
  Variable HE : forall x, wpx 0 true x = true -> wpx 0 true (full_paren x) = true.

  Lemma wp_fp_opt o : opt_all (wpx 0 true) o = true -> opt_all (wpx 0 true) (option_map full_paren o) = true.
  Proof. destruct o as [x|]; [exact (HE x)|reflexivity]. Defined.

  Lemma wp_fp_param p : wp_param p = true -> wp_param (fp_param p) = true.
  Proof. destruct p as [n d]. exact (wp_fp_opt d). Defined.

  Lemma wp_fp_arg a : wp_arg a = true -> wp_arg (fp_arg a) = true.
  Proof. destruct a as [e|n e]; exact (HE e). Defined.

  Lemma wp_fp_spec c : wp_spec c = true -> wp_spec (fp_spec c) = true.
  Proof. destruct c as [v e|e]; exact (HE e). Defined.

  Lemma wp_fp_fname n : wp_fname n = true -> wp_fname (fp_fname n) = true.
  Proof. destruct n as [i|s sp|e sp]; [reflexivity|reflexivity|exact (HE e)]. Defined.

  Lemma wp_fp_assert a : wp_assert a = true -> wp_assert (fp_assert a) = true.
  Proof.
    destruct a as [sp c m]; intros H; cbn [fp_assert wp_assert] in *; split_and H.
    rewrite HE, wp_fp_opt by assumption. reflexivity.
  Defined.

  Lemma wp_fp_bind b : wp_bind b = true -> wp_bind (fp_bind b) = true.
  Proof.
    destruct b as [n [[ps psp]|] v]; intros H; cbn [fp_bind wp_bind] in *; split_and H;
      rewrite (HE v) by assumption; [|reflexivity].
    rewrite (forallb_map_impl _ _ _ wp_fp_param _ H). reflexivity.
  Defined.

  Lemma wp_fp_field f : wp_field f = true -> wp_field (fp_field f) = true.
  Proof.
    destruct f as [n plus vis v|n ps psp vis v]; intros H; cbn [fp_field wp_field] in *; split_and H;
      rewrite wp_fp_fname, (HE v) by assumption; [reflexivity|].
    rewrite (forallb_map_impl _ _ _ wp_fp_param _ Hc0). reflexivity.
  Defined.

  Lemma wp_fp_member m : wp_member m = true -> wp_member (fp_member m) = true.
  Proof. destruct m as [b|a|f]; [exact (wp_fp_bind b)|exact (wp_fp_assert a)|exact (wp_fp_field f)]. Defined.

  Lemma wp_fp_obj o : wp_obj o = true -> wp_obj (fp_obj o) = true.
  Proof.
    destruct o as [ms|l1 name plus body l2 specs]; intros H; cbn [fp_obj wp_obj] in *.
    - exact (forallb_map_impl _ _ _ wp_fp_member _ H).
    - split_and H. rewrite !(forallb_map_impl _ _ _ wp_fp_bind), !HE, specs_ok_fp, Hc0 by assumption.
      exact (forallb_map_impl _ _ _ wp_fp_spec _ Hc).
  Defined.
End WpParts.

Lemma wp_fp : forall e k last, wpx k last e = true -> forall k' last', wpx k' last' (full_paren e) = true.
Proof.
  fix wp_fp 1. intros e k last H k' last'. pose proof (fun x Hx => wp_fp x 0%nat true Hx 0%nat true) as HE.
  destruct e; try reflexivity; cbn [wpx] in H; cbn [full_paren wpx]; split_and H;
    erewrite ?wp_fp, ?(wp_fp_obj HE), ?(wp_fp_assert HE), ?(wp_fp_opt HE) by eassumption; try reflexivity.
  - (* EArray *) exact (forallb_map_impl _ _ _ HE _ H).
  - (* EArrayComp *) rewrite specs_ok_fp, Hc0. exact (forallb_map_impl _ _ _ (wp_fp_spec HE) _ Hc).
  - (* ECall *) exact (forallb_map_impl _ _ _ (wp_fp_arg HE) _ Hc).
  - (* ELocal *) rewrite (forallb_map_impl _ _ _ (wp_fp_bind HE) _ Hc0). destruct binds; [discriminate|reflexivity].
  - (* EIf *) destruct e3; cbn [option_map]; split_and H; erewrite !wp_fp, ?dangling_fp by eassumption; reflexivity.
  - (* EFunc *) rewrite (forallb_map_impl _ _ _ (wp_fp_param HE) _ Hc0). reflexivity.
Qed.

(* the added parentheses are exactly what [strip_paren] removes *)
Lemma map3_ext {A B C D} (u : C -> D) (s : B -> C) (s' : A -> C) (f : A -> B) :
  (forall x, u (s (f x)) = u (s' x)) -> forall l, map u (map s (map f l)) = map u (map s' l).
Proof. intros H l. induction l as [|x l IH]; cbn [map]; [|rewrite H, IH]; reflexivity. Defined.

Section UnpParts.
  Variable HE : forall x, strip_paren (strip_spans (full_paren x)) = strip_paren (strip_spans x).

  Lemma unp_fp_opt o :
    option_map strip_paren (option_map strip_spans (option_map full_paren o)) =
    option_map strip_paren (option_map strip_spans o).
  Proof. destruct o as [x|]; cbn [option_map]; [rewrite HE|]; reflexivity. Defined.

  Lemma unp_fp_param p : unp_param (strip_param (fp_param p)) = unp_param (strip_param p).
  Proof. destruct p as [n d]. cbn [fp_param strip_param unp_param]. rewrite unp_fp_opt. reflexivity. Defined.

  Lemma unp_fp_arg a : unp_arg (strip_arg (fp_arg a)) = unp_arg (strip_arg a).
  Proof. destruct a as [e|n e]; cbn [fp_arg strip_arg unp_arg]; rewrite HE; reflexivity. Defined.

  Lemma unp_fp_spec c : unp_spec (strip_spec (fp_spec c)) = unp_spec (strip_spec c).
  Proof. destruct c as [v e|e]; cbn [fp_spec strip_spec unp_spec]; rewrite HE; reflexivity. Defined.

  Lemma unp_fp_fname n : unp_fname (strip_fname (fp_fname n)) = unp_fname (strip_fname n).
  Proof. destruct n as [i|s sp|e sp]; cbn [fp_fname strip_fname unp_fname]; rewrite ?HE; reflexivity. Defined.

  Lemma unp_fp_assert a : unp_assert (strip_assert (fp_assert a)) = unp_assert (strip_assert a).
  Proof. destruct a as [sp c m]. cbn [fp_assert strip_assert unp_assert]. rewrite HE, unp_fp_opt. reflexivity. Defined.

  Lemma unp_fp_bind b : unp_bind (strip_bind (fp_bind b)) = unp_bind (strip_bind b).
  Proof.
    destruct b as [n [[ps psp]|] v]; cbn [fp_bind strip_bind unp_bind];
      rewrite HE, ?(map3_ext _ _ _ _ unp_fp_param); reflexivity.
  Defined.

  Lemma unp_fp_field f : unp_field (strip_field (fp_field f)) = unp_field (strip_field f).
  Proof.
    destruct f as [n plus vis v|n ps psp vis v]; cbn [fp_field strip_field unp_field];
      rewrite unp_fp_fname, HE, ?(map3_ext _ _ _ _ unp_fp_param); reflexivity.
  Defined.

  Lemma unp_fp_member m : unp_member (strip_member (fp_member m)) = unp_member (strip_member m).
  Proof.
    destruct m as [b|a|f]; cbn [fp_member strip_member unp_member];
      rewrite ?unp_fp_bind, ?unp_fp_assert, ?unp_fp_field; reflexivity.
  Defined.

  Lemma unp_fp_obj o : unp_obj (strip_obj (fp_obj o)) = unp_obj (strip_obj o).
  Proof.
    destruct o as [ms|l1 name plus body l2 specs]; cbn [fp_obj strip_obj unp_obj].
    - rewrite (map3_ext _ _ _ _ unp_fp_member). reflexivity.
    - rewrite !(map3_ext _ _ _ _ unp_fp_bind), (map3_ext _ _ _ _ unp_fp_spec), !HE. reflexivity.
  Defined.
End UnpParts.

Lemma unp_fp : forall e, strip_paren (strip_spans (full_paren e)) = strip_paren (strip_spans e).
Proof.
  fix HE 1. intros e.
  destruct e; cbn [full_paren strip_spans strip_paren];
    rewrite ?HE, ?(unp_fp_opt HE), ?(unp_fp_obj HE), ?(unp_fp_assert HE), ?(map3_ext _ _ _ _ HE),
      ?(map3_ext _ _ _ _ (unp_fp_spec HE)), ?(map3_ext _ _ _ _ (unp_fp_arg HE)),
      ?(map3_ext _ _ _ _ (unp_fp_bind HE)), ?(map3_ext _ _ _ _ (unp_fp_param HE)); reflexivity.
Qed.

Theorem redundant_parens_equiv : forall e, Print.wp e = true ->
  exists e', parse_tree spec_prec (print_tokens (full_paren e)) = Ok e' /\
             strip_paren e' = strip_paren (strip_spans e).
Proof.
  intros e Hw. exists (strip_spans (full_paren e)). split.
  - apply parse_print_roundtrip. exact (wp_fp e _ _ Hw _ _).
  - apply unp_fp.
Qed.
