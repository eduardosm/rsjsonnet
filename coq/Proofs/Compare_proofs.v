(* Proofs/Compare_proofs.v — lemmas about Model/Compare.v (property C08).

   [equals] and [compare] are partial (errors, lazily failing leaves), so the laws are stated from
   answers: if the model answered this and that, then it answers so.  The laws of the leaves come
   from an abstract comparison algebra ([ord_laws], general transitivity [ctrans]) with two
   instances: lexicographic comparison of byte lists (strings), and finite doubles, whose SFcompare
   is the lexicographic order of the key (class/sign, exponent, mantissa) — proved over Z, no real
   numbers, no axioms.  Values go by an induction principle that knows arrays and objects
   ([lval_ind2]), with the model's local loops restated as top-level functions and objects seen
   through their visible fields. *)
From Coq Require Import List NArith ZArith Lia Bool Floats.SpecFloat.
From RJ Require Import Base.Outcome Base.F64 Model.Utf8Order Model.Compare Proofs.Utf8Order_proofs.
Import ListNotations.

Definition ctrans (c1 c2 : comparison) : option comparison :=
  match c1, c2 with
  | Eq, c => Some c
  | c, Eq => Some c
  | Lt, Lt => Some Lt
  | Gt, Gt => Some Gt
  | _, _ => None
  end.

Section AbstractOrder.
  Variable A : Type.
  Variable cmp : A -> A -> comparison.
  Record ord_laws : Prop := {
    ol_refl : forall x, cmp x x = Eq;
    ol_opp : forall x y, cmp y x = CompOpp (cmp x y);
    ol_trans : forall x y z, cmp x y = Lt -> cmp y z = Lt -> cmp x z = Lt;
    ol_eq : forall x y z, cmp x y = Eq -> cmp x z = cmp y z }.

  Hypothesis L : ord_laws.

  Lemma ol_eq_r x y z : cmp y z = Eq -> cmp x y = cmp x z.
  Proof.
    intros H. rewrite (ol_opp L y x), (ol_opp L z x). f_equal. apply (ol_eq L).
    exact H.
  Qed.

  Lemma ol_gtrans x y z c1 c2 c3 :
    cmp x y = c1 -> cmp y z = c2 -> ctrans c1 c2 = Some c3 -> cmp x z = c3.
  Proof.
    intros H1 H2 H3. destruct c1; cbn in H3.
    - injection H3 as <-. rewrite (ol_eq L x y z H1). exact H2.
    - destruct c2; inversion H3; subst.
      + rewrite <- (ol_eq_r x y z H2). exact H1.
      + eapply (ol_trans L); eauto.
    - destruct c2; inversion H3; subst.
      + rewrite <- (ol_eq_r x y z H2). exact H1.
      + (* z < y < x *)
        rewrite (ol_opp L z x).
        assert (E1 : cmp y x = Lt) by (rewrite (ol_opp L x y), H1; reflexivity).
        assert (E2 : cmp z y = Lt) by (rewrite (ol_opp L y z), H2; reflexivity).
        rewrite (ol_trans L z y x E2 E1). reflexivity.
  Qed.

  Lemma ol_trichotomy x y : (cmp x y = Eq <-> cmp y x = Eq) /\ (cmp x y = Lt <-> cmp y x = Gt).
  Proof. rewrite (ol_opp L x y). destruct (cmp x y); cbn; intuition congruence. Qed.
End AbstractOrder.

Lemma lex_ord_laws : ord_laws (list N) lex_compare.
Proof.
  split.
  - apply lex_refl.
  - intros x y. apply lex_opp.
  - intros x y z. apply lex_trans_lt.
  - intros x y z. apply lex_eq_compat.
Qed.

Local Open Scope Z_scope.
Definition fkey (x : f64) : Z * Z * Z :=
  match x with
  | S754_zero _ => (0, 0, 0)
  | S754_finite false m e => (1, e, Z.pos m)
  | S754_finite true m e => (-1, - e, Z.neg m)
  | S754_infinity false => (2, 0, 0)
  | S754_infinity true => (-2, 0, 0)
  | S754_nan => (3, 0, 0)
  end.

Definition cmp3 (k k' : Z * Z * Z) : comparison :=
  let '(a, b, c) := k in let '(a', b', c') := k' in
  match a ?= a' with
  | Eq => match b ?= b' with Eq => c ?= c' | r => r end
  | r => r
  end.

Definition lt3 (k k' : Z * Z * Z) : Prop :=
  let '(a, b, c) := k in let '(a', b', c') := k' in
  a < a' \/ (a = a' /\ (b < b' \/ (b = b' /\ c < c'))).

Lemma cmp3_spec k k' : CompareSpec (k = k') (lt3 k k') (lt3 k' k) (cmp3 k k').
Proof.
  destruct k as [[a b] c], k' as [[a' b'] c']. unfold cmp3, lt3.
  destruct (Z.compare_spec a a') as [->| |]; [|constructor; lia..].
  destruct (Z.compare_spec b b') as [->| |]; [|constructor; lia..].
  destruct (Z.compare_spec c c') as [->| |]; constructor; [reflexivity | lia..].
Qed.

Ltac c3 := repeat match goal with
  | H : (_, _, _) = (_, _, _) |- _ => inversion H; clear H; subst
  end; unfold lt3 in *; try reflexivity; try discriminate; try lia.

Lemma cmp3_ord_laws : ord_laws _ cmp3.
Proof.
  split.
  - intros [[a b] c]. destruct (cmp3_spec (a, b, c) (a, b, c)); c3.
  - intros [[a b] c] [[a' b'] c'].
    destruct (cmp3_spec (a, b, c) (a', b', c')), (cmp3_spec (a', b', c') (a, b, c)); cbn [CompOpp]; c3.
  - intros [[a b] c] [[a' b'] c'] [[a'' b''] c''] H1 H2.
    destruct (cmp3_spec (a, b, c) (a', b', c')); try discriminate.
    destruct (cmp3_spec (a', b', c') (a'', b'', c'')); try discriminate.
    destruct (cmp3_spec (a, b, c) (a'', b'', c'')); c3.
  - intros x y z H. destruct (cmp3_spec x y) as [E|?|?]; try discriminate. now subst.
Qed.

Definition fnn (x : f64) : Prop := f_is_nan x = false.

Lemma f_compare_key x y : fnn x -> fnn y -> f_compare x y = Some (cmp3 (fkey x) (fkey y)).
Proof.
  unfold fnn, f_compare. intros Hx Hy.
  destruct x as [sx|sx| |sx mx ex], y as [sy|sy| |sy my ey]; try discriminate;
    try destruct sx; try destruct sy; try reflexivity.
  cbn. rewrite Z.compare_opp, (Z.compare_antisym ex ey).
  destruct (ex ?= ey); reflexivity.
Qed.

Lemma f_compare_some_nn x y c : f_compare x y = Some c -> fnn x /\ fnn y.
Proof. unfold fnn. destruct x, y; cbn; intros H; try discriminate; auto. Qed.

Lemma f_compare_total x y : fnn x -> fnn y -> exists c, f_compare x y = Some c.
Proof. intros Hx Hy. rewrite f_compare_key by assumption. eauto. Qed.

Lemma f_compare_refl x : fnn x -> f_compare x x = Some Eq.
Proof. intros Hx. rewrite f_compare_key by assumption. now rewrite (ol_refl _ _ cmp3_ord_laws). Qed.

Lemma f_compare_opp x y c : f_compare x y = Some c -> f_compare y x = Some (CompOpp c).
Proof.
  intros H. destruct (f_compare_some_nn _ _ _ H) as [Hx Hy].
  rewrite f_compare_key in * by assumption. injection H as <-.
  now rewrite (ol_opp _ _ cmp3_ord_laws (fkey x) (fkey y)).
Qed.

Lemma f_compare_gtrans x y z c1 c2 c3 :
  f_compare x y = Some c1 -> f_compare y z = Some c2 -> ctrans c1 c2 = Some c3 -> f_compare x z = Some c3.
Proof.
  intros H1 H2 H3. destruct (f_compare_some_nn _ _ _ H1) as [Hx Hy]. destruct (f_compare_some_nn _ _ _ H2) as [_ Hz].
  rewrite f_compare_key in * by assumption. injection H1 as H1. injection H2 as H2.
  f_equal. eapply (ol_gtrans _ _ cmp3_ord_laws); eauto.
Qed.

(* the JSON number denoted by a double: the sign of zero is not observable *)
Definition fnorm (x : f64) : f64 := match x with S754_zero _ => S754_zero false | _ => x end.

Lemma fkey_inj x y : fnn x -> fnn y -> (fkey x = fkey y <-> fnorm x = fnorm y).
Proof.
  unfold fnn. intros Hx Hy.
  destruct x as [sx|sx| |sx mx ex], y as [sy|sy| |sy my ey]; try discriminate;
    try destruct sx; try destruct sy; cbn; split; intros H; try discriminate; try reflexivity;
    try congruence.
  injection H as He ->. assert (ex = ey) by lia. subst. reflexivity.
Qed.

Lemma f_eqb_compare x y : f_eqb x y = match f_compare x y with Some Eq => true | _ => false end.
Proof. reflexivity. Qed.

Lemma f_compare_eq_iff x y : fnn x -> fnn y -> (f_compare x y = Some Eq <-> fnorm x = fnorm y).
Proof.
  intros Hx Hy. rewrite f_compare_key, <- fkey_inj by assumption. split.
  - intros [= H]. destruct (cmp3_spec (fkey x) (fkey y)); [assumption | discriminate..].
  - intros ->. now rewrite (ol_refl _ _ cmp3_ord_laws).
Qed.

Lemma f_eqb_iff x y : fnn x -> fnn y -> (f_eqb x y = true <-> fnorm x = fnorm y).
Proof.
  intros Hx Hy. rewrite <- f_compare_eq_iff by assumption. rewrite f_eqb_compare.
  destruct (f_compare x y) as [[]|]; split; intros H; try discriminate; try reflexivity.
Qed.

Lemma finite_nn x : f_is_finite x = true -> fnn x.
Proof. unfold fnn. destruct x; cbn; intros H; try discriminate; reflexivity. Qed.

(* the number laws in one statement (finite doubles; an abstract order instantiated through fkey) *)
Theorem f64_order_laws x y z : f_is_finite x = true -> f_is_finite y = true -> f_is_finite z = true ->
  f_compare x x = Some Eq /\
  (exists c, f_compare x y = Some c) /\
  (forall c, f_compare x y = Some c -> f_compare y x = Some (CompOpp c)) /\
  (forall c1 c2 c3, f_compare x y = Some c1 -> f_compare y z = Some c2 -> ctrans c1 c2 = Some c3 ->
                    f_compare x z = Some c3) /\
  (f_compare x y = Some Eq <-> fnorm x = fnorm y).
Proof.
  intros Hx Hy Hz. apply finite_nn in Hx, Hy, Hz. repeat split.
  - now apply f_compare_refl.
  - now apply f_compare_total.
  - apply f_compare_opp.
  - apply f_compare_gtrans.
  - now apply f_compare_eq_iff.
  - now apply f_compare_eq_iff.
Qed.

Theorem f64_eqb_iff x y : f_is_finite x = true -> f_is_finite y = true -> (f_eqb x y = true <-> fnorm x = fnorm y).
Proof. intros Hx Hy. apply f_eqb_iff; now apply finite_nn. Qed.

Local Open Scope nat_scope.
Local Open Scope outcome_scope.

Section LvalInd.
  Variable P : lval -> Prop.
  Hypothesis Hnull : P LNull.
  Hypothesis Hbool : forall b, P (LBool b).
  Hypothesis Hnum : forall x, P (LNum x).
  Hypothesis Hstr : forall s, P (LStr s).
  Hypothesis Harr : forall xs, Forall P xs -> P (LArr xs).
  Hypothesis Hobj : forall a fs, Forall (fun f => P (fval f)) fs -> P (LObj a fs).
  Hypothesis Hfun : P LFun.
  Hypothesis Hfail : forall e, P (LFail e).

  Fixpoint lval_ind2 (v : lval) : P v :=
    match v with
    | LNull => Hnull
    | LBool b => Hbool b
    | LNum x => Hnum x
    | LStr s => Hstr s
    | LArr xs => Harr xs ((fix go (l : list lval) : Forall P l :=
                             match l with [] => Forall_nil _ | x :: r => Forall_cons _ (lval_ind2 x) (go r) end) xs)
    | LObj a fs => Hobj a fs ((fix go (l : list field) : Forall (fun f => P (fval f)) l :=
                             match l with [] => Forall_nil _ | f :: r => Forall_cons _ (lval_ind2 (fval f)) (go r) end) fs)
    | LFun => Hfun
    | LFail e => Hfail e
    end.
End LvalInd.

(* the loops of the model as top-level functions *)
Fixpoint eq_items (xs ys : list lval) {struct xs} : outcome bool err :=
  match xs, ys with
  | x :: xs', y :: ys' =>
      do r <- equals x y;
      if r then eq_items xs' ys' else Ok false
  | _, _ => Ok true
  end.

Definition eq_fields (fb : list field) : list field -> outcome bool err :=
  fix eq_fields (fa : list field) {struct fa} : outcome bool err :=
  match fa with
  | [] => Ok true
  | (n, v, x) :: fa' =>
      if visible v then
        match lookup n fb with
        | None => Panic site_unwrap_field
        | Some y =>
            do r <- equals x y;
            if r then eq_fields fa' else Ok false
        end
      else eq_fields fa'
  end.

Fixpoint cmp_items (xs ys : list lval) {struct xs} : outcome comparison err :=
  match xs, ys with
  | [], [] => Ok Eq
  | [], _ :: _ => Ok Lt
  | _ :: _, [] => Ok Gt
  | x :: xs', y :: ys' =>
      do c <- compare x y;
      match c with Eq => cmp_items xs' ys' | _ => Ok c end
  end.

Lemma equals_arr xs ys :
  equals (LArr xs) (LArr ys) = if Nat.eqb (length xs) (length ys) then eq_items xs ys else Ok false.
Proof. reflexivity. Qed.

Lemma equals_obj aa fa ab fb :
  equals (LObj aa fa) (LObj ab fb) =
  if names_eqb (vis_names fa) (vis_names fb) then
    match vis_names fa with
    | [] => Ok true
    | _ :: _ => do _ <- run_asserts aa; do _ <- run_asserts ab; eq_fields fb fa
    end
  else Ok false.
Proof. reflexivity. Qed.

Lemma compare_arr xs ys : compare (LArr xs) (LArr ys) = cmp_items xs ys.
Proof. reflexivity. Qed.

Fixpoint vfields (fs : list field) : list field :=
  match fs with
  | [] => []
  | f :: r => if visible (fvis f) then f :: vfields r else vfields r
  end.
Definition vvals (fs : list field) : list lval := map fval (vfields fs).

Lemma vis_names_vfields fs : vis_names fs = map fname (vfields fs).
Proof. induction fs as [|f r IH]; cbn; [reflexivity|]. destruct (visible (fvis f)); cbn; now rewrite IH. Qed.

Lemma vfields_incl fs : incl (vfields fs) fs.
Proof.
  induction fs as [|f r IH]; cbn; [apply incl_refl|].
  destruct (visible (fvis f)); [apply incl_cons; [now left | now apply incl_tl] | now apply incl_tl].
Qed.

Lemma names_eqb_iff a : forall b, names_eqb a b = true <-> a = b.
Proof.
  induction a as [|x a IH]; intros [|y b]; cbn [names_eqb]; split; intros H; try discriminate; try reflexivity.
  - apply andb_true_iff in H as [H1 H2]. apply list_eqb_iff in H1. apply IH in H2. congruence.
  - injection H as -> ->. apply andb_true_iff. split; [now apply list_eqb_iff | now apply IH].
Qed.

Lemma lookup_in fb : NoDup (map fname fb) -> forall g, In g fb -> lookup (fname g) fb = Some (fval g).
Proof.
  induction fb as [|f r IH]; intros ND g Hin; [contradiction|].
  cbn [map] in ND. inversion ND as [|? ? Hnotin ND']; subst. cbn [lookup].
  destruct Hin as [->|Hin].
  - assert (E : list_eqb (fname g) (fname g) = true) by now apply list_eqb_iff. now rewrite E.
  - destruct (list_eqb (fname f) (fname g)) eqn:E.
    + apply list_eqb_iff in E. exfalso. apply Hnotin. rewrite E. now apply in_map.
    + now apply IH.
Qed.

Lemma eq_fields_view fb : NoDup (map fname fb) -> forall fa sub,
  incl sub fb -> map fname sub = vis_names fa -> eq_fields fb fa = eq_items (vvals fa) (map fval sub).
Proof.
  intros ND. induction fa as [|[[n v] x] fa' IH]; intros sub Hincl Hnames.
  - reflexivity.
  - cbn [eq_fields]. unfold vvals in *. cbn [vis_names vfields fvis fname fst snd] in *.
    destruct (visible v).
    + destruct sub as [|g sub']; [discriminate|]. cbn [map] in Hnames. injection Hnames as Hg Hrest.
      assert (Hl : lookup n fb = Some (fval g)).
      { rewrite <- Hg. apply lookup_in; [assumption|]. apply Hincl. now left. }
      rewrite Hl. cbn [map eq_items fval snd].
      rewrite (IH sub'); [reflexivity | | assumption].
      intros z Hz. apply Hincl. now right.
    + now apply IH.
Qed.

Lemma equals_obj_view aa fa ab fb : NoDup (map fname fb) ->
  equals (LObj aa fa) (LObj ab fb) =
  if names_eqb (vis_names fa) (vis_names fb) then
    match vis_names fa with
    | [] => Ok true
    | _ :: _ => do _ <- run_asserts aa; do _ <- run_asserts ab; eq_items (vvals fa) (vvals fb)
    end
  else Ok false.
Proof.
  intros ND. rewrite equals_obj. destruct (names_eqb (vis_names fa) (vis_names fb)) eqn:E; [|reflexivity].
  apply names_eqb_iff in E.
  rewrite (eq_fields_view fb ND fa (vfields fb)); [reflexivity | apply vfields_incl |].
  now rewrite <- vis_names_vfields.
Qed.

Lemma vvals_length fs : length (vvals fs) = length (vis_names fs).
Proof. unfold vvals. now rewrite vis_names_vfields, !map_length. Qed.

(* objects without asserts: no visible field is the same as no item *)
Lemma equals_obj_none fa fb : NoDup (map fname fb) ->
  equals (LObj None fa) (LObj None fb) =
  if names_eqb (vis_names fa) (vis_names fb) then eq_items (vvals fa) (vvals fb) else Ok false.
Proof.
  intros ND. rewrite (equals_obj_view _ _ _ _ ND). destruct (names_eqb _ _); [|reflexivity].
  pose proof (vvals_length fa) as Hl.
  destruct (vis_names fa); [|reflexivity]. destruct (vvals fa); [reflexivity | discriminate].
Qed.

Inductive wf : lval -> Prop :=
| wf_null : wf LNull
| wf_bool b : wf (LBool b)
| wf_num x : f_is_finite x = true -> wf (LNum x)
| wf_str s : str_ok s -> wf (LStr s)
| wf_arr xs : Forall wf xs -> wf (LArr xs)
| wf_obj a fs : NoDup (map fname fs) -> Forall (fun f => wf (fval f)) fs -> wf (LObj a fs)
| wf_fun : wf LFun
| wf_fail e : wf (LFail e).

Lemma wf_inv a : wf a ->
  match a with
  | LNum x => f_is_finite x = true
  | LStr s => str_ok s
  | LArr xs => Forall wf xs
  | LObj _ fs => NoDup (map fname fs) /\ Forall (fun f => wf (fval f)) fs
  | _ => True
  end.
Proof. destruct 1; auto. Qed.

Inductive json :=
| JNull | JBool (b : bool) | JNum (x : f64) | JStr (s : list N)
| JArr (l : list json) | JObj (fs : list (list N * json)).

(* the JSON value of a tree: visible fields only, -0 = 0; None when a visible part fails, is a
   function, or an object's asserts fail (manifestation would fail) *)
Fixpoint to_json (a : lval) : option json :=
  match a with
  | LNull => Some JNull
  | LBool b => Some (JBool b)
  | LNum x => Some (JNum (fnorm x))
  | LStr s => Some (JStr s)
  | LArr xs => option_map JArr
      ((fix go (l : list lval) : option (list json) :=
          match l with
          | [] => Some []
          | x :: r => match to_json x, go r with Some j, Some js => Some (j :: js) | _, _ => None end
          end) xs)
  | LObj (Some _) _ => None
  | LObj None fs => option_map JObj
      ((fix go (l : list field) : option (list (list N * json)) :=
          match l with
          | [] => Some []
          | (n, v, x) :: r =>
              if visible v
              then match to_json x, go r with Some j, Some js => Some ((n, j) :: js) | _, _ => None end
              else go r
          end) fs)
  | LFun => None
  | LFail _ => None
  end.

Fixpoint jsons (l : list lval) : option (list json) :=
  match l with
  | [] => Some []
  | x :: r => match to_json x, jsons r with Some j, Some js => Some (j :: js) | _, _ => None end
  end.

Lemma to_json_arr xs : to_json (LArr xs) = option_map JArr (jsons xs).
Proof. reflexivity. Qed.

Lemma to_json_obj fs :
  to_json (LObj None fs) = option_map JObj (option_map (combine (vis_names fs)) (jsons (vvals fs))).
Proof.
  cbn [to_json]. f_equal. unfold vvals.
  induction fs as [|[[n v] x] r IH]; [reflexivity|].
  cbn [vis_names vfields fvis fname fst snd]. destruct (visible v); [|exact IH].
  cbn [map jsons fval snd]. rewrite IH. destruct (to_json x); [|reflexivity].
  destruct (jsons (map fval (vfields r))); reflexivity.
Qed.

Lemma jsons_length xs : forall js, jsons xs = Some js -> length js = length xs.
Proof.
  induction xs as [|x r IH]; cbn [jsons]; intros js H.
  - now injection H as <-.
  - destruct (to_json x); [|discriminate]. destruct (jsons r) eqn:E; [|discriminate].
    injection H as <-. cbn. f_equal. now apply IH.
Qed.

Lemma to_json_shape b jb : to_json b = Some jb ->
  match b, jb with
  | LNull, JNull => True
  | LBool x, JBool y => y = x
  | LNum x, JNum y => y = fnorm x
  | LStr s, JStr t => t = s
  | LArr ys, JArr js => jsons ys = Some js
  | LObj o fs, JObj l => o = None /\ exists js, jsons (vvals fs) = Some js /\ l = combine (vis_names fs) js
  | _, _ => False
  end.
Proof.
  destruct b as [| | | |ys|o fs| |]; try discriminate; try (intros [= <-]; reflexivity).
  - rewrite to_json_arr. destruct (jsons ys); [|discriminate]. intros [= <-]. reflexivity.
  - destruct o; [discriminate|]. rewrite to_json_obj.
    destruct (jsons (vvals fs)) as [js|]; [|discriminate]. intros [= <-]. eauto.
Qed.

Lemma combine_inj {A B} (n : list A) : forall n' (a b : list B),
  length a = length n -> length b = length n' -> combine n a = combine n' b -> n = n' /\ a = b.
Proof.
  induction n as [|x n IH]; intros [|x' n'] [|p a] [|q b] Ha Hb H; try discriminate; [auto|].
  injection H as -> -> H. injection Ha as Ha. injection Hb as Hb.
  destruct (IH n' a b Ha Hb H) as [-> ->]. auto.
Qed.

(* == decides equality of the JSON values *)
Definition eq_json_at (a : lval) : Prop :=
  forall b ja jb, wf a -> wf b -> to_json a = Some ja -> to_json b = Some jb ->
    exists r, equals a b = Ok r /\ (r = true <-> ja = jb).

Lemma items_json xs : Forall eq_json_at xs -> forall ys js js',
  Forall wf xs -> Forall wf ys -> jsons xs = Some js -> jsons ys = Some js' -> length xs = length ys ->
  exists r, eq_items xs ys = Ok r /\ (r = true <-> js = js').
Proof.
  induction 1 as [|x xs Hx _ IH]; intros [|y ys] js js' Wx Wy Jx Jy Hlen; try discriminate.
  - cbn in *. injection Jx as <-. injection Jy as <-. exists true. split; [reflexivity | tauto].
  - cbn [jsons] in Jx, Jy.
    destruct (to_json x) as [j|] eqn:Ex; [|discriminate]. destruct (jsons xs) as [js0|] eqn:Exs; [|discriminate].
    destruct (to_json y) as [j'|] eqn:Ey; [|discriminate]. destruct (jsons ys) as [js0'|] eqn:Eys; [|discriminate].
    injection Jx as <-. injection Jy as <-.
    inversion Wx as [|? ? Wx1 Wx2]; inversion Wy as [|? ? Wy1 Wy2]; subst.
    destruct (Hx y j j' Wx1 Wy1 Ex Ey) as (r1 & E1 & I1).
    cbn [eq_items]. rewrite E1. cbn [obind].
    destruct r1.
    + destruct (IH ys js0 js0' Wx2 Wy2 eq_refl Eys) as (r2 & E2 & I2); [cbn in Hlen; lia|].
      exists r2. split; [assumption|]. rewrite I2. assert (j = j') by now apply I1. subst.
      split; [now intros -> | now intros [= ->]].
    + exists false. split; [reflexivity|]. split; [discriminate|]. intros [= -> _]. now apply I1.
Qed.

Lemma vvals_forall (Q : lval -> Prop) fs : Forall (fun f => Q (fval f)) fs -> Forall Q (vvals fs).
Proof.
  unfold vvals. induction 1 as [|f r Hf _ IH]; cbn; [constructor|].
  destruct (visible (fvis f)); cbn; [constructor|]; assumption.
Qed.

Lemma run_asserts_none {R} (k : outcome R err) : (do _ <- run_asserts None; k) = k.
Proof. reflexivity. Qed.

Lemma equals_json a : eq_json_at a.
Proof.
  induction a as [|x|x|s|xs IH|aa fa IH| |e] using lval_ind2; intros b ja jb Wa Wb Ja Jb;
    apply to_json_shape in Ja, Jb; destruct ja as [|p|p|p|js|l]; try contradiction;
    destruct b as [|y|y|t|ys|ab fb| |e'], jb as [|q|q|q|js'|l']; try contradiction;
    try (exists false; split; [reflexivity | split; discriminate]); subst.
  - exists true. split; [reflexivity | tauto].
  - exists (Bool.eqb x y). split; [reflexivity|]. rewrite Bool.eqb_true_iff. split; [now intros -> | now intros [= ->]].
  - exists (f_eqb x y). split; [reflexivity|].
    apply wf_inv in Wa, Wb. rewrite f_eqb_iff by now apply finite_nn.
    split; [now intros -> | now intros [= ->]].
  - exists (str_eqb s t). split; [reflexivity|].
    rewrite str_eqb_is_eq. split; [now intros -> | now intros [= ->]].
  - apply wf_inv in Wa, Wb. rewrite equals_arr.
    destruct (Nat.eqb (length xs) (length ys)) eqn:El.
    + apply Nat.eqb_eq in El. destruct (items_json xs IH ys js js') as (r & E & I); auto.
      exists r. split; [assumption|]. rewrite I. split; [now intros -> | now intros [= ->]].
    + apply Nat.eqb_neq in El. exists false. split; [reflexivity|]. split; [discriminate|].
      intros [= ->]. apply jsons_length in Ja, Jb. congruence.
  - destruct Ja as (-> & js & Jx & ->). destruct Jb as (-> & js' & Jy & ->).
    apply wf_inv in Wa as [NDa Wfa], Wb as [NDb Wfb].
    rewrite (equals_obj_none _ _ NDb).
    pose proof (jsons_length _ _ Jx) as Lx. pose proof (jsons_length _ _ Jy) as Ly. rewrite vvals_length in Lx, Ly.
    destruct (names_eqb (vis_names fa) (vis_names fb)) eqn:En.
    + apply names_eqb_iff in En.
      destruct (items_json (vvals fa) (vvals_forall _ _ IH) (vvals fb) js js') as (r & E & I); auto using vvals_forall.
      { rewrite !vvals_length. congruence. }
      exists r. split; [assumption|]. rewrite I. split; [intros ->; now rewrite En|].
      intros [= H]. apply (combine_inj _ _ _ _ Lx Ly), H.
    + exists false. split; [reflexivity|]. split; [discriminate|]. intros [= H].
      apply (combine_inj _ _ _ _ Lx Ly) in H as [H _]. apply names_eqb_iff in H. congruence.
Qed.

Theorem equals_total a b ja jb : wf a -> wf b -> to_json a = Some ja -> to_json b = Some jb ->
  exists r, equals a b = Ok r.
Proof. intros Wa Wb Ja Jb. destruct (equals_json a b ja jb Wa Wb Ja Jb) as (r & E & _). eauto. Qed.

Theorem equals_iff_same_json a b ja jb : wf a -> wf b -> to_json a = Some ja -> to_json b = Some jb ->
  (equals a b = Ok true <-> ja = jb).
Proof.
  intros Wa Wb Ja Jb. destruct (equals_json a b ja jb Wa Wb Ja Jb) as (r & E & I). rewrite E, <- I.
  split; [now intros [= ->] | now intros ->].
Qed.

Theorem equals_refl a ja : wf a -> to_json a = Some ja -> equals a a = Ok true.
Proof. intros Wa Ja. now apply (equals_iff_same_json a a ja ja). Qed.

Theorem equals_sym a b ja jb : wf a -> wf b -> to_json a = Some ja -> to_json b = Some jb ->
  equals b a = equals a b.
Proof.
  intros Wa Wb Ja Jb.
  destruct (equals_json a b ja jb Wa Wb Ja Jb) as (r & E & I).
  destruct (equals_json b a jb ja Wb Wa Jb Ja) as (r' & E' & I').
  rewrite E, E'. f_equal. apply Bool.eq_true_iff_eq. rewrite I, I'. split; congruence.
Qed.

(* no JSON-value hypothesis: two answers `true` are enough, whatever the hidden or unvisited parts are;
   of the invariants only the distinct field names of the right operands are used (for [lookup]) *)
Definition eq_trans_at (a : lval) : Prop := forall b c, wf b -> wf c ->
  equals a b = Ok true -> equals b c = Ok true -> equals a c = Ok true.

Lemma f_eqb_trans x y z : f_eqb x y = true -> f_eqb y z = true -> f_eqb x z = true.
Proof.
  rewrite !f_eqb_compare. intros H1 H2.
  destruct (f_compare x y) as [[]|] eqn:E1; try discriminate.
  destruct (f_compare y z) as [[]|] eqn:E2; try discriminate.
  now rewrite (f_compare_gtrans x y z Eq Eq Eq E1 E2 eq_refl).
Qed.

Lemma str_eqb_trans s t u : str_eqb s t = true -> str_eqb t u = true -> str_eqb s u = true.
Proof. unfold str_eqb. rewrite !list_eqb_iff. congruence. Qed.

Lemma eq_items_true_inv x xs y ys : eq_items (x :: xs) (y :: ys) = Ok true ->
  equals x y = Ok true /\ eq_items xs ys = Ok true.
Proof.
  cbn [eq_items]. intros H. apply obind_ok_inv in H as (r & E & H). destruct r; [auto | discriminate].
Qed.

Lemma eq_items_trans xs : Forall eq_trans_at xs -> forall ys zs,
  Forall wf ys -> Forall wf zs -> length xs = length ys -> length ys = length zs ->
  eq_items xs ys = Ok true -> eq_items ys zs = Ok true -> eq_items xs zs = Ok true.
Proof.
  induction 1 as [|x xs Hx _ IH]; intros [|y ys] [|z zs] Wy Wz L1 L2 H1 H2; try discriminate; try reflexivity.
  apply eq_items_true_inv in H1 as [E1 R1]. apply eq_items_true_inv in H2 as [E2 R2].
  inversion Wy; inversion Wz; subst.
  cbn [eq_items]. rewrite (Hx y z) by assumption. cbn [obind]. cbn in L1, L2. injection L1 as L1. injection L2 as L2. apply (IH ys zs); auto.
Qed.

Lemma equals_obj_true aa fa ab fb : NoDup (map fname fb) -> equals (LObj aa fa) (LObj ab fb) = Ok true ->
  vis_names fa = vis_names fb /\
  (vis_names fa = [] \/ (aa = None /\ ab = None /\ eq_items (vvals fa) (vvals fb) = Ok true)).
Proof.
  intros ND. rewrite (equals_obj_view _ _ _ _ ND).
  destruct (names_eqb (vis_names fa) (vis_names fb)) eqn:En; [|discriminate].
  apply names_eqb_iff in En. split; [assumption|].
  destruct (vis_names fa); [now left|]. right.
  destruct aa; [discriminate|]. destruct ab; [discriminate|]. auto.
Qed.

Theorem equals_trans_lazy a : eq_trans_at a.
Proof.
  induction a as [|x|x|s|xs IH|aa fa IH| |e] using lval_ind2; intros b c Wb Wc H1 H2;
    destruct b as [|y|y|t|ys|ab fb| |e']; try discriminate;
    destruct c as [|z|z|u|zs|ac fc| |e'']; try discriminate; try reflexivity.
  1-3: cbn [equals] in *; injection H1 as H1; injection H2 as H2; f_equal.
  - apply Bool.eqb_prop in H1, H2. subst. apply Bool.eqb_reflx.
  - eapply f_eqb_trans; eauto.
  - eapply str_eqb_trans; eauto.
  - rewrite equals_arr in *. apply wf_inv in Wb, Wc.
    destruct (Nat.eqb (length xs) (length ys)) eqn:L1; [|discriminate].
    destruct (Nat.eqb (length ys) (length zs)) eqn:L2; [|discriminate].
    apply Nat.eqb_eq in L1, L2.
    assert (L3 : Nat.eqb (length xs) (length zs) = true) by (apply Nat.eqb_eq; congruence). rewrite L3.
    apply (eq_items_trans xs IH ys zs); auto.
  - apply wf_inv in Wb as [NDb Wfb], Wc as [NDc Wfc].
    apply (equals_obj_true _ _ _ _ NDb) in H1 as [N1 C1]. apply (equals_obj_true _ _ _ _ NDc) in H2 as [N2 C2].
    rewrite (equals_obj_view _ _ _ _ NDc).
    assert (En : names_eqb (vis_names fa) (vis_names fc) = true) by (apply names_eqb_iff; congruence). rewrite En.
    destruct C1 as [C1|(-> & -> & C1)]; [now rewrite C1|].
    destruct C2 as [C2|(_ & -> & C2)]; [rewrite N1, C2; reflexivity|].
    destruct (vis_names fa) eqn:Ev; [reflexivity|]. cbn [run_asserts obind].
    apply (eq_items_trans (vvals fa) (vvals_forall _ _ IH) (vvals fb) (vvals fc)); auto using vvals_forall;
      rewrite !vvals_length, ?Ev; congruence.
Qed.

Corollary equals_trans a b c ja jb jc :
  wf a -> wf b -> wf c -> to_json a = Some ja -> to_json b = Some jb -> to_json c = Some jc ->
  equals a b = Ok true -> equals b c = Ok true -> equals a c = Ok true.
Proof. intros _ Wb Wc _ _ _. now apply equals_trans_lazy. Qed.

Definition is_eqc (c : comparison) : bool := match c with Eq => true | _ => false end.

Definition opp_at (a : lval) : Prop := forall b c, compare a b = Ok c -> compare b a = Ok (CompOpp c).

Lemma cmp_items_opp xs : Forall opp_at xs -> forall ys c, cmp_items xs ys = Ok c -> cmp_items ys xs = Ok (CompOpp c).
Proof.
  induction 1 as [|x xs Hx _ IH]; intros [|y ys] c H; cbn [cmp_items] in *; try (injection H as <-; reflexivity).
  apply obind_ok_inv in H as (c1 & E1 & H). rewrite (Hx _ _ E1). cbn [obind].
  destruct c1; cbn [CompOpp]; try (injection H as <-; reflexivity). now apply IH.
Qed.

Lemma compare_opp a : opp_at a.
Proof.
  induction a as [|x|x|s|xs IH|aa fa IH| |e] using lval_ind2; intros b c H;
    destruct b as [|y|y|t|ys|ab fb| |e']; try discriminate.
  - cbn [compare] in *. destruct (f_compare x y) as [c'|] eqn:E; [|discriminate]. injection H as <-.
    now rewrite (f_compare_opp _ _ _ E).
  - cbn [compare] in *. injection H as <-. unfold str_compare. now rewrite (lex_opp (utf8 s) (utf8 t)).
  - rewrite compare_arr in *. now apply cmp_items_opp.
Qed.

Definition cmpeq_at (a : lval) : Prop := forall b c, compare a b = Ok c -> equals a b = Ok (is_eqc c).

Lemma cmp_items_eq xs : Forall cmpeq_at xs -> forall ys c, cmp_items xs ys = Ok c ->
  (if Nat.eqb (length xs) (length ys) then eq_items xs ys else Ok false) = Ok (is_eqc c).
Proof.
  induction 1 as [|x xs Hx _ IH]; intros [|y ys] c H; cbn [cmp_items] in *; try (injection H as <-; reflexivity).
  apply obind_ok_inv in H as (c1 & E1 & H). cbn [length Nat.eqb eq_items]. rewrite (Hx _ _ E1). cbn [obind].
  destruct c1; cbn [is_eqc]; try (injection H as <-; cbn; now destruct (Nat.eqb _ _)). now apply IH.
Qed.

Lemma compare_eq a : cmpeq_at a.
Proof.
  induction a as [|x|x|s|xs IH|aa fa IH| |e] using lval_ind2; intros b c H;
    destruct b as [|y|y|t|ys|ab fb| |e']; try discriminate.
  - cbn [compare equals] in *. rewrite f_eqb_compare. destruct (f_compare x y) as [c'|]; [|discriminate].
    injection H as <-. now destruct c'.
  - cbn [compare equals] in *. injection H as <-. rewrite str_eqb_compare. now destruct (str_compare s t).
  - rewrite compare_arr in H. rewrite equals_arr. now apply cmp_items_eq.
Qed.

(* transitivity in the general form: Eq composes with anything *)
Definition trans_at (a : lval) : Prop := forall b c c1 c2 c3,
  compare a b = Ok c1 -> compare b c = Ok c2 -> ctrans c1 c2 = Some c3 -> compare a c = Ok c3.

Lemma ctrans_neq_r c1 c2 c3 : ctrans c1 c2 = Some c3 -> c2 <> Eq -> c3 = c2.
Proof. destruct c1, c2; cbn; intros H N; congruence. Qed.
Lemma ctrans_neq_l c1 c2 c3 : ctrans c1 c2 = Some c3 -> c1 <> Eq -> c3 = c1.
Proof. destruct c1, c2; cbn; intros H N; congruence. Qed.

Lemma cmp_items_trans xs : Forall trans_at xs -> forall ys zs c1 c2 c3,
  cmp_items xs ys = Ok c1 -> cmp_items ys zs = Ok c2 -> ctrans c1 c2 = Some c3 -> cmp_items xs zs = Ok c3.
Proof.
  induction 1 as [|x xs Hx _ IH]; intros [|y ys] [|z zs] c1 c2 c3 H1 H2 H3; cbn [cmp_items] in *;
    try (injection H1 as <-); try (injection H2 as <-); try (cbn in H3; congruence).
  - (* [] , y::ys, z::zs *)
    apply obind_ok_inv in H2 as (d2 & E2 & H2). f_equal. symmetry. eapply ctrans_neq_l; eauto. discriminate.
  - (* x::xs, y::ys, [] *)
    apply obind_ok_inv in H1 as (d1 & E1 & H1). f_equal. symmetry. eapply ctrans_neq_r; eauto. discriminate.
  - apply obind_ok_inv in H1 as (d1 & E1 & H1). apply obind_ok_inv in H2 as (d2 & E2 & H2).
    destruct d1.
    + (* equal heads: the pair (y, z) decides as it did *)
      rewrite (Hx y z Eq d2 d2 E1 E2 eq_refl). cbn [obind].
      destruct d2; [eapply IH; eauto | |];
        injection H2 as <-; f_equal; symmetry; eapply ctrans_neq_r; eauto; discriminate.
    + injection H1 as <-. assert (c3 = Lt) as -> by (eapply ctrans_neq_l; eauto; discriminate).
      destruct d2; [| |injection H2 as <-; discriminate H3]; now rewrite (Hx y z Lt _ Lt E1 E2 eq_refl).
    + injection H1 as <-. assert (c3 = Gt) as -> by (eapply ctrans_neq_l; eauto; discriminate).
      destruct d2; [|injection H2 as <-; discriminate H3|]; now rewrite (Hx y z Gt _ Gt E1 E2 eq_refl).
Qed.

Lemma compare_gtrans a : trans_at a.
Proof.
  induction a as [|x|x|s|xs IH|aa fa IH| |e] using lval_ind2; intros b c c1 c2 c3 H1 H2 H3;
    destruct b as [|y|y|t|ys|ab fb| |e']; try discriminate;
    destruct c as [|z|z|u|zs|ac fc| |e'']; try discriminate.
  - cbn [compare] in *.
    destruct (f_compare x y) as [d1|] eqn:E1; [|discriminate]. destruct (f_compare y z) as [d2|] eqn:E2; [|discriminate].
    injection H1 as <-. injection H2 as <-. now rewrite (f_compare_gtrans _ _ _ _ _ _ E1 E2 H3).
  - cbn [compare] in *. injection H1 as H1. injection H2 as H2. f_equal.
    unfold str_compare in *. eapply (ol_gtrans _ _ lex_ord_laws); eauto.
  - rewrite compare_arr in *. eapply cmp_items_trans; eauto.
Qed.

Inductive oty := TNum | TStr | TArr (t : oty).
Inductive has_ty : oty -> lval -> Prop :=
| ht_num x : f_is_finite x = true -> has_ty TNum (LNum x)
| ht_str s : has_ty TStr (LStr s)
| ht_arr t xs : Forall (has_ty t) xs -> has_ty (TArr t) (LArr xs).

Lemma cmp_items_total (Q : lval -> Prop) :
  (forall a b, Q a -> Q b -> exists c, compare a b = Ok c) ->
  forall xs ys, Forall Q xs -> Forall Q ys -> exists c, cmp_items xs ys = Ok c.
Proof.
  intros HQ. induction xs as [|x xs IH]; intros [|y ys] Hx Hy; cbn [cmp_items]; eauto.
  inversion Hx; inversion Hy; subst. destruct (HQ x y) as (c & ->); auto. cbn [obind].
  destruct c; eauto.
Qed.

Theorem compare_total t : forall a b, has_ty t a -> has_ty t b -> exists c, compare a b = Ok c.
Proof.
  induction t as [| |t IH]; intros a b Ha Hb; inversion Ha; inversion Hb; subst.
  - cbn [compare]. destruct (f_compare_total x x0) as (c & ->); eauto using finite_nn.
  - cbn [compare]. eauto.
  - rewrite compare_arr. eapply cmp_items_total; eauto.
Qed.

(* values without an order: an error, never an answer *)
Definition is_fail (a : lval) : bool := match a with LFail _ => true | _ => false end.
Definition ordered_pair (a b : lval) : bool :=
  match a, b with
  | LNum _, LNum _ | LStr _, LStr _ | LArr _, LArr _ => true
  | _, _ => false
  end.
Definition unordered_err (a b : lval) : err :=
  match a, b with
  | LNull, LNull => ECompareNull
  | LBool _, LBool _ => ECompareBool
  | LObj _ _, LObj _ _ => ECompareObject
  | LFun, LFun => ECompareFunctions
  | _, _ => ECompareDifferentTypes (ty_of a) (ty_of b)
  end.

Theorem compare_unordered_errors a b :
  is_fail a = false -> is_fail b = false -> ordered_pair a b = false ->
  compare a b = Err (unordered_err a b).
Proof. destruct a, b; intros; try discriminate; reflexivity. Qed.

Definition no_panic {A} (o : outcome A err) : Prop :=
  match o with Panic _ | OutOfFuel => False | _ => True end.

Lemma no_panic_bind {A B} (x : outcome A err) (f : A -> outcome B err) :
  no_panic x -> (forall a, x = Ok a -> no_panic (f a)) -> no_panic (obind x f).
Proof. destruct x; cbn; auto. Qed.

Definition cmp_np_at (a : lval) : Prop := forall b, wf a -> wf b -> no_panic (compare a b).

Lemma cmp_items_np xs : Forall cmp_np_at xs -> forall ys, Forall wf xs -> Forall wf ys -> no_panic (cmp_items xs ys).
Proof.
  induction 1 as [|x xs Hx _ IH]; intros [|y ys] Wx Wy; cbn [cmp_items]; try exact I.
  inversion Wx; inversion Wy; subst. apply no_panic_bind; [now apply Hx|].
  intros c _. destruct c; try exact I. now apply IH.
Qed.

Theorem compare_no_panic a : cmp_np_at a.
Proof.
  induction a as [|x|x|s|xs IH|aa fa IH| |e] using lval_ind2; intros b Wa Wb;
    destruct b as [|y|y|t|ys|ab fb| |e']; try exact I.
  - cbn [compare]. apply wf_inv in Wa, Wb.
    destruct (f_compare_total x y) as (c & ->); eauto using finite_nn. exact I.
  - rewrite compare_arr. apply wf_inv in Wa, Wb. now apply cmp_items_np.
Qed.

(* the one panic site of [equals] is a failed [lookup] in the right operand *)
Definition eq_np_at (a : lval) : Prop := forall b, wf b -> no_panic (equals a b).

Lemma eq_items_np xs : Forall eq_np_at xs -> forall ys, Forall wf ys -> no_panic (eq_items xs ys).
Proof.
  induction 1 as [|x xs Hx _ IH]; intros [|y ys] Wy; cbn [eq_items]; try exact I.
  inversion Wy; subst. apply no_panic_bind; [now apply Hx|].
  intros r _. destruct r; try exact I. now apply IH.
Qed.

Theorem equals_no_panic a : eq_np_at a.
Proof.
  induction a as [|x|x|s|xs IH|aa fa IH| |e] using lval_ind2; intros b Wb;
    destruct b as [|y|y|t|ys|ab fb| |e']; try exact I.
  - rewrite equals_arr. apply wf_inv in Wb.
    destruct (Nat.eqb _ _); [|exact I]. now apply eq_items_np.
  - apply wf_inv in Wb as [NDb Wfb].
    rewrite (equals_obj_view _ _ _ _ NDb). destruct (names_eqb _ _); [|exact I].
    destruct (vis_names fa); [exact I|].
    destruct aa; [exact I|]. destruct ab; [exact I|]. cbn [run_asserts obind].
    apply eq_items_np; auto using vvals_forall.
Qed.

Lemma Forall2_len {A B} (R : A -> B -> Prop) l l' : Forall2 R l l' -> length l = length l'.
Proof. induction 1; cbn; congruence. Qed.

Definition eq_true (u v : lval) : Prop := equals u v = Ok true.
Definition cmp_Eq (u v : lval) : Prop := compare u v = Ok Eq.

Lemma eq_items_decided pa pb : Forall2 eq_true pa pb -> forall x y qa qb,
  equals x y <> Ok true -> eq_items (pa ++ x :: qa) (pb ++ y :: qb) = equals x y.
Proof.
  induction 1 as [|u v pa pb Huv _ IH]; intros x y qa qb Hne; cbn [app eq_items].
  - destruct (equals x y) as [[]| | |]; try reflexivity. congruence.
  - unfold eq_true in Huv. rewrite Huv. cbn [obind]. now apply IH.
Qed.

Theorem equals_early_exit pa pb x y qa qb : Forall2 eq_true pa pb -> equals x y <> Ok true ->
  length qa = length qb -> equals (LArr (pa ++ x :: qa)) (LArr (pb ++ y :: qb)) = equals x y.
Proof.
  intros Hp Hne Hq. rewrite equals_arr.
  assert (El : Nat.eqb (length (pa ++ x :: qa)) (length (pb ++ y :: qb)) = true).
  { apply Nat.eqb_eq. rewrite !app_length. cbn. apply Forall2_len in Hp. lia. }
  rewrite El. now apply eq_items_decided.
Qed.

Theorem equals_length_first xs ys : length xs <> length ys -> equals (LArr xs) (LArr ys) = Ok false.
Proof. intros H. rewrite equals_arr. apply Nat.eqb_neq in H. now rewrite H. Qed.

(* objects: after the first visible field that differs (or fails) nothing is forced *)
Theorem equals_object_early_exit fa fb pa pb x y qa qb :
  NoDup (map fname fb) -> vis_names fa = vis_names fb ->
  vvals fa = pa ++ x :: qa -> vvals fb = pb ++ y :: qb ->
  Forall2 eq_true pa pb -> equals x y <> Ok true ->
  equals (LObj None fa) (LObj None fb) = equals x y.
Proof.
  intros ND En Ea Eb Hp Hne. rewrite (equals_obj_none _ _ ND).
  apply names_eqb_iff in En. rewrite En, Ea, Eb. now apply eq_items_decided.
Qed.

(* hidden fields are never forced: their values can be replaced by anything *)
Definition map_hidden (g : lval -> lval) (fs : list field) : list field :=
  map (fun f => if visible (fvis f) then f else (fname f, fvis f, g (fval f))) fs.

Lemma map_hidden_names g fs : map fname (map_hidden g fs) = map fname fs.
Proof. unfold map_hidden. rewrite map_map. apply map_ext. intros [[n v] x]. cbn. now destruct (visible v). Qed.
Lemma map_hidden_vfields g fs : vfields (map_hidden g fs) = vfields fs.
Proof.
  induction fs as [|[[n v] x] r IH]; [reflexivity|]. cbn [map_hidden map vfields fvis fst snd].
  destruct (visible v) eqn:E; cbn [fvis fst snd]; rewrite E; fold (map_hidden g r); now rewrite IH.
Qed.

Theorem equals_hidden_never_forced g h aa fa ab fb : NoDup (map fname fb) ->
  equals (LObj aa (map_hidden g fa)) (LObj ab (map_hidden h fb)) = equals (LObj aa fa) (LObj ab fb).
Proof.
  intros ND. rewrite !equals_obj_view by (try rewrite map_hidden_names; assumption).
  unfold vvals. now rewrite !vis_names_vfields, !map_hidden_vfields.
Qed.

Lemma cmp_items_skip pa pb : Forall2 cmp_Eq pa pb -> forall ra rb,
  cmp_items (pa ++ ra) (pb ++ rb) = cmp_items ra rb.
Proof.
  induction 1 as [|u v pa pb Huv _ IH]; intros ra rb; cbn [app cmp_items]; [reflexivity|].
  unfold cmp_Eq in Huv. rewrite Huv. apply IH.
Qed.

Theorem compare_early_exit pa pb x y qa qb : Forall2 cmp_Eq pa pb -> compare x y <> Ok Eq ->
  compare (LArr (pa ++ x :: qa)) (LArr (pb ++ y :: qb)) = compare x y.
Proof.
  intros Hp Hne. rewrite compare_arr, (cmp_items_skip _ _ Hp). cbn [cmp_items].
  destruct (compare x y) as [[]| | |]; try reflexivity. congruence.
Qed.

Theorem compare_prefix_early_exit pa pb y qb x qa : Forall2 cmp_Eq pa pb ->
  compare (LArr pa) (LArr (pb ++ y :: qb)) = Ok Lt /\ compare (LArr (pa ++ x :: qa)) (LArr pb) = Ok Gt.
Proof.
  intros Hp. rewrite !compare_arr.
  pose proof (cmp_items_skip _ _ Hp [] (y :: qb)) as Hl. pose proof (cmp_items_skip _ _ Hp (x :: qa) []) as Hg.
  rewrite app_nil_r in Hl, Hg. auto.
Qed.

(* arrays are ordered lexicographically *)
Definition lex_lt (xs ys : list lval) : Prop :=
  exists pa pb, Forall2 cmp_Eq pa pb /\
    ((xs = pa /\ exists y qb, ys = pb ++ y :: qb) \/
     (exists x y qa qb, xs = pa ++ x :: qa /\ ys = pb ++ y :: qb /\ compare x y = Ok Lt)).

Lemma cmp_items_Eq_inv xs : forall ys, cmp_items xs ys = Ok Eq -> Forall2 cmp_Eq xs ys.
Proof.
  induction xs as [|x xs IH]; intros [|y ys] H; cbn [cmp_items] in H; try discriminate; [constructor|].
  apply obind_ok_inv in H as (c & E & H). destruct c; try discriminate. constructor; [exact E | now apply IH].
Qed.

Lemma cmp_items_Lt_inv xs : forall ys, cmp_items xs ys = Ok Lt -> lex_lt xs ys.
Proof.
  induction xs as [|x xs IH]; intros [|y ys] H; cbn [cmp_items] in H; try discriminate.
  - exists [], []. split; [constructor|]. left. split; [reflexivity|]. exists y, ys. reflexivity.
  - apply obind_ok_inv in H as (c & E & H). destruct c; try discriminate.
    + destruct (IH _ H) as (pa & pb & Hp & Hcase). exists (x :: pa), (y :: pb). split; [now constructor|].
      destruct Hcase as [(-> & y' & qb & ->)|(x' & y' & qa & qb & -> & -> & Hlt)].
      * left. split; [reflexivity|]. exists y', qb. reflexivity.
      * right. exists x', y', qa, qb. auto.
    + exists [], []. split; [constructor|]. right. exists x, y, xs, ys. auto.
Qed.

(* the converse directions are the early exits above *)
Theorem compare_array_lex xs ys :
  (compare (LArr xs) (LArr ys) = Ok Eq <-> Forall2 cmp_Eq xs ys) /\
  (compare (LArr xs) (LArr ys) = Ok Lt <-> lex_lt xs ys).
Proof.
  split; split.
  - rewrite compare_arr. apply cmp_items_Eq_inv.
  - intros Hp. pose proof (cmp_items_skip _ _ Hp [] []) as H. rewrite !app_nil_r in H. exact H.
  - rewrite compare_arr. apply cmp_items_Lt_inv.
  - intros (pa & pb & Hp & [(-> & y & qb & ->)|(x & y & qa & qb & -> & -> & Hlt)]).
    + apply (compare_prefix_early_exit pa pb y qb y [] Hp).
    + rewrite (compare_early_exit pa pb x y qa qb Hp) by congruence. exact Hlt.
Qed.

Lemma omap_ok {A B} (f : A -> B) (x : outcome A err) b : omap f x = Ok b -> exists a, x = Ok a /\ b = f a.
Proof. destruct x; cbn; intros H; try discriminate. injection H as <-. eauto. Qed.

Theorem ne_is_negb_eq a b : op_ne a b = omap negb (op_eq a b).
Proof. reflexivity. Qed.

Theorem std_equals_agrees a b : std_equals a b = op_eq a b.
Proof. reflexivity. Qed.

Definition is_prim (a : lval) : bool :=
  match a with LNull | LBool _ | LNum _ | LStr _ => true | _ => false end.

Theorem primitive_equals_agrees a b : is_prim a = true \/ is_prim b = true ->
  std_primitive_equals a b = op_eq a b.
Proof. destruct a, b; intros [H|H]; try discriminate H; reflexivity. Qed.

Theorem primitive_equals_non_primitive :
  (forall xs ys, std_primitive_equals (LArr xs) (LArr ys) = Err (EPrimEqNonPrimitive TyArray)) /\
  (forall a fa b fb, std_primitive_equals (LObj a fa) (LObj b fb) = Err (EPrimEqNonPrimitive TyObject)) /\
  (forall a b, is_fail a = false -> is_fail b = false -> ty_of a <> ty_of b -> std_primitive_equals a b = Ok false).
Proof. repeat split; try reflexivity. intros a b; destruct a, b; intros; try discriminate; try reflexivity; cbn in *; congruence. Qed.

Definition exactly_one (l e g : bool) : Prop :=
  (l = true /\ e = false /\ g = false) \/ (l = false /\ e = true /\ g = false) \/ (l = false /\ e = false /\ g = true).

Theorem compare_trichotomy_gen a b c : compare a b = Ok c ->
  op_lt a b = Ok (is_lt c) /\ op_eq a b = Ok (is_eqc c) /\ op_gt a b = Ok (is_gt c) /\
  exactly_one (is_lt c) (is_eqc c) (is_gt c).
Proof.
  intros H. unfold op_lt, op_gt, op_eq. rewrite H, (compare_eq a b c H). cbn.
  repeat split; unfold exactly_one; destruct c; cbn; tauto.
Qed.

Theorem compare_trichotomy t a b : has_ty t a -> has_ty t b ->
  exists l e g, op_lt a b = Ok l /\ op_eq a b = Ok e /\ op_gt a b = Ok g /\ exactly_one l e g.
Proof.
  intros Ha Hb. destruct (compare_total t a b Ha Hb) as (c & H).
  destruct (compare_trichotomy_gen a b c H) as (? & ? & ? & ?). eauto 8.
Qed.

Theorem compare_eq_iff_equals a b c : compare a b = Ok c -> (c = Eq <-> equals a b = Ok true).
Proof. intros H. rewrite (compare_eq a b c H). destruct c; cbn; split; intros; congruence. Qed.

Theorem compare_antisym a b r :
  (op_lt a b = Ok r -> op_gt b a = Ok r) /\ (op_gt a b = Ok r -> op_lt b a = Ok r) /\
  (op_le a b = Ok r -> op_ge b a = Ok r) /\ (op_ge a b = Ok r -> op_le b a = Ok r).
Proof.
  unfold op_lt, op_gt, op_le, op_ge. repeat split; intros H; apply omap_ok in H as (c & E & ->);
    rewrite (compare_opp a b c E); destruct c; reflexivity.
Qed.

Theorem compare_trans a b c :
  op_lt a b = Ok true -> op_lt b c = Ok true -> op_lt a c = Ok true.
Proof.
  unfold op_lt. intros H1 H2. apply omap_ok in H1 as (c1 & E1 & H1). apply omap_ok in H2 as (c2 & E2 & H2).
  destruct c1; try discriminate. destruct c2; try discriminate.
  now rewrite (compare_gtrans a b c Lt Lt Lt E1 E2 eq_refl).
Qed.

Theorem compare_le_trans a b c :
  op_le a b = Ok true -> op_le b c = Ok true -> op_le a c = Ok true.
Proof.
  unfold op_le. intros H1 H2. apply omap_ok in H1 as (c1 & E1 & H1). apply omap_ok in H2 as (c2 & E2 & H2).
  assert (H : exists c3, ctrans c1 c2 = Some c3 /\ is_le c3 = true) by (destruct c1, c2; try discriminate; cbn; eauto).
  destruct H as (c3 & Hc & Hle). rewrite (compare_gtrans a b c c1 c2 c3 E1 E2 Hc). cbn. now rewrite Hle.
Qed.

Theorem le_ge_consistent a b r : op_le a b = Ok r ->
  op_ge b a = Ok r /\ op_gt a b = Ok (negb r) /\
  exists l e, op_lt a b = Ok l /\ op_eq a b = Ok e /\ r = (l || e)%bool.
Proof.
  intros H. split; [now apply compare_antisym|].
  unfold op_le in H. apply omap_ok in H as (c & E & ->).
  destruct (compare_trichotomy_gen a b c E) as (Hl & He & Hg & _).
  split; [rewrite Hg; now destruct c|]. exists (is_lt c), (is_eqc c). repeat split; auto. now destruct c.
Qed.

Theorem std_compare_agrees a b :
  (forall z, std_compare a b = Ok z ->
     (z = (-1)%Z /\ op_lt a b = Ok true) \/ (z = 0%Z /\ op_eq a b = Ok true) \/ (z = 1%Z /\ op_gt a b = Ok true)) /\
  (forall e, op_lt a b = Err e -> std_compare a b = Err e) /\
  (forall r, op_lt a b = Ok r -> exists z, std_compare a b = Ok z).
Proof.
  unfold std_compare. repeat split.
  - intros z H. apply omap_ok in H as (c & E & ->).
    destruct (compare_trichotomy_gen a b c E) as (Hl & He & Hg & _). rewrite Hl, He, Hg. destruct c; cbn; auto.
  - unfold op_lt. destruct (compare a b); cbn; congruence.
  - unfold op_lt. destruct (compare a b); cbn; intros; try discriminate. eauto.
Qed.

Theorem std_compare_array_agrees :
  (forall xs ys, std_compare_array (LArr xs) (LArr ys) = std_compare (LArr xs) (LArr ys)) /\
  (forall a b, is_fail a = false -> is_fail b = false -> is_arr a = false ->
     std_compare_array a b = Err (EInvalidArg 0 (ty_of a))) /\
  (forall a b, is_fail a = false -> is_fail b = false -> is_arr a = true -> is_arr b = false ->
     std_compare_array a b = Err (EInvalidArg 1 (ty_of b))).
Proof.
  repeat split; try reflexivity; intros a b; destruct a, b; intros; try discriminate; reflexivity.
Qed.

Local Open Scope Z_scope.

(* canonical finite doubles: what [f_of_bits] produces (subnormal / first binade: exponent -1074; else 53-bit mantissa) *)
Definition canon (x : f64) : Prop :=
  match x with
  | S754_zero _ => True
  | S754_finite _ m e => (e = -1074 /\ Z.pos m < 2 ^ 53) \/ (-1074 < e /\ 2 ^ 52 <= Z.pos m < 2 ^ 53)
  | _ => False
  end.

(* the exact value, scaled by 2^1074 (an integer for every canonical double) *)
Definition zval (x : f64) : Z :=
  match x with
  | S754_finite s m e => (if s then -1 else 1) * (Z.pos m * 2 ^ (e + 1074))
  | _ => 0
  end.

Lemma pos_scaled m e : -1074 <= e -> 0 < Z.pos m * 2 ^ (e + 1074).
Proof. intros H. apply Z.mul_pos_pos; [lia|]. apply Z.pow_pos_nonneg; lia. Qed.

Lemma scaled_compare m1 e1 m2 e2 :
  ((e1 = -1074 /\ Z.pos m1 < 2 ^ 53) \/ (-1074 < e1 /\ 2 ^ 52 <= Z.pos m1 < 2 ^ 53)) ->
  ((e2 = -1074 /\ Z.pos m2 < 2 ^ 53) \/ (-1074 < e2 /\ 2 ^ 52 <= Z.pos m2 < 2 ^ 53)) ->
  (Z.pos m1 * 2 ^ (e1 + 1074) ?= Z.pos m2 * 2 ^ (e2 + 1074)) =
  match e1 ?= e2 with Lt => Lt | Gt => Gt | Eq => (m1 ?= m2)%positive end.
Proof.
  assert (Hlt : forall a ea b eb, -1074 <= ea -> ea < eb -> Z.pos a < 2 ^ 53 -> 2 ^ 52 <= Z.pos b ->
                 Z.pos a * 2 ^ (ea + 1074) < Z.pos b * 2 ^ (eb + 1074)).
  { intros a ea b eb Hea Hlt Ha Hb.
    replace (eb + 1074) with ((eb - ea) + (ea + 1074)) by lia.
    rewrite (Z.pow_add_r 2 (eb - ea) (ea + 1074)) by lia. rewrite Z.mul_assoc.
    apply Z.mul_lt_mono_pos_r; [apply Z.pow_pos_nonneg; lia|].
    assert (2 ^ 1 <= 2 ^ (eb - ea)) by (apply Z.pow_le_mono_r; lia).
    change (2 ^ 1) with 2 in *. change (2 ^ 53) with (2 * 2 ^ 52) in Ha. nia. }
  intros C1 C2. destruct (Z.compare_spec e1 e2) as [E|E|E].
  - subst. rewrite <- Zmult_compare_compat_r; [reflexivity|]. apply Z.lt_gt. apply Z.pow_pos_nonneg; lia.
  - apply Z.compare_lt_iff. apply Hlt; lia.
  - apply Z.compare_gt_iff. apply Hlt; lia.
Qed.

Theorem f_compare_value x y : canon x -> canon y -> f_compare x y = Some (zval x ?= zval y).
Proof.
  unfold f_compare.
  destruct x as [sx|sx| |sx mx ex], y as [sy|sy| |sy my ey]; cbn [canon]; intros Cx Cy; try contradiction.
  - reflexivity.
  - assert (P := pos_scaled my ey ltac:(lia)). cbn [SFcompare zval]. f_equal. symmetry.
    destruct sy; [apply Z.compare_gt_iff | apply Z.compare_lt_iff]; lia.
  - assert (P := pos_scaled mx ex ltac:(lia)). cbn [SFcompare zval]. f_equal. symmetry.
    destruct sx; [apply Z.compare_lt_iff | apply Z.compare_gt_iff]; lia.
  - assert (Px := pos_scaled mx ex ltac:(lia)). assert (Py := pos_scaled my ey ltac:(lia)).
    pose proof (scaled_compare mx ex my ey Cx Cy) as S.
    cbn [SFcompare zval]. f_equal. destruct sx, sy.
    + set (A := Z.pos mx * 2 ^ (ex + 1074)) in *. set (B := Z.pos my * 2 ^ (ey + 1074)) in *.
      replace (-1 * A) with (- A) by lia. replace (-1 * B) with (- B) by lia.
      rewrite Z.compare_opp, (Z.compare_antisym A B), S.
      destruct (ex ?= ey); reflexivity.
    + symmetry. apply Z.compare_lt_iff. lia.
    + symmetry. apply Z.compare_gt_iff. lia.
    + set (A := Z.pos mx * 2 ^ (ex + 1074)) in *. set (B := Z.pos my * 2 ^ (ey + 1074)) in *.
      replace (1 * A) with A by lia. replace (1 * B) with B by lia. rewrite S. reflexivity.
Qed.

Lemma f_of_bits_canon b : f_is_finite (f_of_bits b) = true -> canon (f_of_bits b).
Proof.
  unfold f_of_bits.
  set (ex := Z.land (Z.shiftr (Z.of_N b) 52) 2047). set (mant := Z.land (Z.of_N b) (2 ^ 52 - 1)).
  assert (Hm : 0 <= mant < 2 ^ 52).
  { unfold mant. change (2 ^ 52 - 1) with (Z.ones 52). rewrite Z.land_ones by lia. apply Z.mod_pos_bound. lia. }
  assert (He : 0 <= ex).
  { unfold ex. apply Z.land_nonneg. right. lia. }
  cbv zeta.
  destruct (ex =? 0) eqn:E0.
  - destruct mant as [|p|p] eqn:Em; cbn [f_is_finite canon]; auto. intros _. left. split; [reflexivity|]. lia.
  - destruct (ex =? 2047) eqn:E1.
    + destruct (mant =? 0); discriminate.
    + apply Z.eqb_neq in E0. destruct (mant + 2 ^ 52) as [|p|p] eqn:Ep; cbn [f_is_finite canon]; try discriminate.
      intros _. destruct (Z.eq_dec ex 1) as [->|N1].
      * left. split; [reflexivity|]. lia.
      * right. lia.
Qed.

Corollary f_compare_bits_value a b :
  f_is_finite (f_of_bits a) = true -> f_is_finite (f_of_bits b) = true ->
  f_compare (f_of_bits a) (f_of_bits b) = Some (zval (f_of_bits a) ?= zval (f_of_bits b)).
Proof. intros Ha Hb. apply f_compare_value; now apply f_of_bits_canon. Qed.
