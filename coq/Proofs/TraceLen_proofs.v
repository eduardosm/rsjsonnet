(* Proofs/TraceLen_proofs.v — the balance invariant of the trace accounting and
   its consequences; soundness of the tree analysis used on the translated
   handler words; a topologically numbered call graph has no cycle. *)
From RJ Require Import Base.Outcome Model.TraceLen.
From Coq Require Import Lia Relations.
Local Open Scope N_scope.

(* every bottom-up prefix of the state stack (= every suffix of the list,
   whose head is the top) has at least as many Trace as Delayed items *)
Fixpoint suffix_ok (l : list item) : Prop :=
  match l with
  | [] => True
  | i :: r => (0 <= net (i :: r))%Z /\ suffix_ok r
  end.

Definition wf (s : tstate) : Prop :=
  suffix_ok (stack s) /\ Z.of_N (len s) = net (stack s).

Lemma net_app : forall a b, net (a ++ b) = (net a + net b)%Z.
Proof. induction a as [|i a IH]; intros b; cbn [net app]; [lia | rewrite IH; lia]. Qed.

Lemma net_rev : forall l, net (rev l) = net l.
Proof.
  induction l as [|i l IH]; cbn [rev net]; [reflexivity|].
  rewrite net_app, IH. cbn [net]. lia.
Qed.

Lemma suffix_ok_net_nonneg : forall l, suffix_ok l -> (0 <= net l)%Z.
Proof. destruct l as [|i r]; cbn [suffix_ok net]; [lia | tauto]. Qed.

Lemma wf_empty : wf empty_state.
Proof. split; cbn; [exact I | reflexivity]. Qed.

Lemma balanced_from_cons : forall a i w, balanced_from a (i :: w) = true <->
  (0 <= a + weight i)%Z /\ balanced_from (a + weight i) w = true.
Proof. intros a i w. cbn [balanced_from]. rewrite andb_true_iff, Z.leb_le. reflexivity. Qed.

Lemma balanced_from_mono : forall w a b, (a <= b)%Z ->
  balanced_from a w = true -> balanced_from b w = true.
Proof.
  induction w as [|i w IH]; intros a b Hab H; [reflexivity|].
  apply balanced_from_cons in H as [H1 H2]. apply balanced_from_cons. split; [lia|].
  apply (IH (a + weight i)%Z); [lia | exact H2].
Qed.

Lemma balanced_from_app : forall w1 w2 a,
  balanced_from a (w1 ++ w2) = balanced_from a w1 && balanced_from (a + net w1) w2.
Proof.
  induction w1 as [|i w1 IH]; intros w2 a; cbn [app balanced_from net].
  - rewrite Z.add_0_r. reflexivity.
  - rewrite IH, Z.add_assoc, andb_assoc. reflexivity.
Qed.

Lemma balanced_from_net : forall w a, balanced_from a w = true -> (0 <= a -> 0 <= a + net w)%Z.
Proof.
  induction w as [|i w IH]; intros a H Ha; cbn [net]; [lia|].
  apply balanced_from_cons in H as [H1 H2]. specialize (IH _ H2 H1). lia.
Qed.

(* semantic reading of [balanced_from]: every prefix sum is non-negative *)
Lemma balanced_from_prefix : forall w a, balanced_from a w = true ->
  forall w1 w2, w = w1 ++ w2 -> (0 <= a -> 0 <= a + net w1)%Z.
Proof.
  intros w a H w1 w2 ->. rewrite balanced_from_app in H.
  apply andb_true_iff in H as [H _]. exact (balanced_from_net w1 a H).
Qed.

Lemma prefix_balanced_from : forall w a,
  (forall w1 w2, w = w1 ++ w2 -> 0 <= a + net w1)%Z -> balanced_from a w = true.
Proof.
  induction w as [|i w IH]; intros a H; [reflexivity|]. apply balanced_from_cons. split.
  - specialize (H [i] w eq_refl). cbn [net] in H. lia.
  - apply IH. intros w1 w2 ->. specialize (H (i :: w1) w2 eq_refl). cbn [net] in H. lia.
Qed.

Lemma prefix_balanced : forall w (H : forall w1 w2, w = w1 ++ w2 -> (0 <= net w1)%Z),
  balanced w = true.
Proof. intros w H. apply prefix_balanced_from. intros w1 w2 E. specialize (H w1 w2 E). lia. Qed.

(* at [l = []]: the state stack read bottom-up is a balanced word *)
Lemma suffix_ok_rev_app : forall w l,
  suffix_ok (rev w ++ l) <-> suffix_ok l /\ balanced_from (net l) w = true.
Proof.
  induction w as [|i w IH]; intros l; cbn [rev app]; [cbn [balanced_from]; tauto|].
  rewrite <- app_assoc, IH, balanced_from_cons. cbn [app suffix_ok net].
  rewrite (Z.add_comm (weight i)). tauto.
Qed.

Lemma push_item_ok : forall i s, (0 <= Z.of_N (len s) + weight i)%Z ->
  exists s', push_item i s = Ok s' /\ stack s' = i :: stack s /\
             Z.of_N (len s') = (Z.of_N (len s) + weight i)%Z.
Proof.
  intros [id| |] s H; cbn [push_item weight] in *.
  - eexists. repeat split. cbn [push_trace_item inc_trace_len push_state len]. lia.
  - unfold delay_trace_item, dec_trace_len. cbn [push_state len stack].
    destruct (N.eqb_spec (len s) 0) as [E|E]; [lia|]. eexists. repeat split. cbn [len]. lia.
  - eexists. repeat split. cbn [push_state len]. lia.
Qed.

Lemma push_word_ok : forall w s, balanced_from (Z.of_N (len s)) w = true ->
  exists s', push_word w s = Ok s' /\ stack s' = rev w ++ stack s /\
             Z.of_N (len s') = (Z.of_N (len s) + net w)%Z.
Proof.
  induction w as [|i w IH]; intros s Hb; cbn [push_word rev app net].
  - exists s. repeat split. lia.
  - apply balanced_from_cons in Hb as [H1 H2].
    destruct (push_item_ok i s H1) as (s1 & -> & St1 & L1). cbn [obind].
    rewrite <- L1 in H2. destruct (IH s1 H2) as (s2 & E2 & St2 & L2).
    exists s2. rewrite St2, St1, <- app_assoc, L2, L1. repeat split; [exact E2 | lia].
Qed.

Lemma push_word_wf : forall w s, wf s -> balanced w = true ->
  exists s', push_word w s = Ok s' /\ wf s' /\ Z.of_N (len s') = (Z.of_N (len s) + net w)%Z.
Proof.
  intros w s [Hs Hl] Hb.
  apply (balanced_from_mono _ _ (net (stack s))) in Hb; [|exact (suffix_ok_net_nonneg _ Hs)].
  destruct (push_word_ok w s) as (s' & E & St & L); [rewrite Hl; exact Hb|].
  exists s'. split; [exact E|]. split; [|exact L]. split.
  - rewrite St. apply suffix_ok_rev_app. auto.
  - rewrite L, St, net_app, net_rev. lia.
Qed.

(* [walk] keeps the length of its accumulator equal to the running balance, so
   on a balanced word it never hits stack_trace.pop().unwrap() *)
Lemma walk_ok : forall l tr a, Z.of_nat (length tr) = a -> balanced_from a l = true ->
  exists tr', walk l tr = Ok tr' /\ Z.of_nat (length tr') = (a + net l)%Z.
Proof.
  induction l as [|i l IH]; intros tr a La H; cbn [walk net].
  - exists tr. split; [reflexivity | lia].
  - apply balanced_from_cons in H as [H1 H2]. rewrite Z.add_assoc.
    destruct i as [id| |]; cbn [weight] in *.
    + apply IH; [cbn [length]; lia | exact H2].
    + destruct tr as [|x tr]; cbn [length] in La; [lia|]. apply IH; [lia | exact H2].
    + apply IH; [lia | exact H2].
Qed.

Lemma get_stack_trace_ok : forall s, wf s ->
  exists tr, get_stack_trace s = Ok tr /\ N.of_nat (length tr) = len s.
Proof.
  intros s [Hs Hl]. unfold get_stack_trace.
  assert (Hb : balanced (rev (stack s)) = true).
  { apply (suffix_ok_rev_app (rev (stack s)) []). rewrite app_nil_r, rev_involutive. exact Hs. }
  destruct (walk_ok (rev (stack s)) [] 0%Z eq_refl Hb) as (tr & E & L).
  rewrite E. cbn [obind]. exists (rev tr). split; [reflexivity|].
  rewrite rev_length. rewrite net_rev in L. lia.
Qed.

Definition safe (P : list N -> Prop) (r : res tstate) : Prop :=
  match r with
  | Ok s => wf s
  | Err (StackOverflow tr) => P tr
  | Err (HandlerError _) => True
  | Panic _ | OutOfFuel => False
  end.

Lemma overflow_test_safe : forall max n s1, wf s1 -> (Z.of_N (len s1) <= n)%Z ->
  safe (fun tr => max < N.of_nat (length tr) /\ (Z.of_nat (length tr) <= n)%Z)
    (if max <? len s1 then obind (get_stack_trace s1) (fun tr => Err (StackOverflow tr)) else Ok s1).
Proof.
  intros max n s1 H1 Hn. destruct (N.ltb_spec max (len s1)) as [Hm|_]; [|exact H1].
  destruct (get_stack_trace_ok s1 H1) as (tr & E & L). rewrite E. cbn [obind safe]. lia.
Qed.

Lemma step_spec : forall max a s, wf s -> balanced (action_word a) = true ->
  safe (fun tr => max < N.of_nat (length tr) /\
                  (Z.of_nat (length tr) <= Z.of_N (len s) + Z.max 1 (net (action_word a)))%Z)
       (step max a s).
Proof.
  intros max a [[|top rest] l] Hwf Hb; [exact Hwf|]. unfold step. cbn [stack len].
  destruct Hwf as [[_ Hs] Hl]. cbn [stack len net] in Hl.
  pose proof (suffix_ok_net_nonneg _ Hs) as Hn.
  destruct top as [id| |]; cbn [weight] in Hl.
  - (* a counted frame is popped: 1 <= l *)
    unfold dec_trace_len. cbn [len stack]. destruct (N.eqb_spec l 0) as [E|E]; [lia|].
    cbn [obind]. apply overflow_test_safe; [split|]; cbn [stack len]; [assumption | lia | lia].
  - cbn [obind]. apply overflow_test_safe; [split|]; cbn [inc_trace_len stack len]; [assumption | lia | lia].
  - (* the handler pushes its word on the rest, which is well formed with the same count *)
    destruct a as [w fail]. cbn [action_word] in *.
    assert (Hwf0 : wf {| stack := rest; len := l |}) by (split; cbn [stack len]; [assumption | lia]).
    destruct (push_word_wf w _ Hwf0 Hb) as (s' & E & Hwf' & L).
    rewrite E. cbn [obind]. destruct fail; cbn [obind].
    + destruct (get_stack_trace_ok s' Hwf') as (tr & E2 & _). rewrite E2. exact I.
    + apply overflow_test_safe; [exact Hwf'|]. cbn [len] in L. lia.
Qed.

Definition script_balanced (script : list action) : Prop :=
  Forall (fun a => balanced (action_word a) = true) script.

Lemma run_safe : forall max script s, wf s -> script_balanced script ->
  safe (fun tr => max < N.of_nat (length tr)) (run max script s).
Proof.
  intros max script s Hwf Hb. revert s Hwf.
  induction Hb as [|a r Ha _ IH]; intros s Hwf; cbn [run]; [exact Hwf|].
  pose proof (step_spec max a s Hwf Ha) as H1.
  destruct (step max a s) as [s1|[tr|tr]|site|]; cbn [obind safe] in *.
  - apply IH, H1.
  - apply H1.
  - exact I.
  - contradiction.
  - contradiction.
Qed.

Lemma eval_safe : forall max init script s0,
  balanced init = true -> script_balanced script -> push_word init empty_state = Ok s0 ->
  safe (fun tr => max < N.of_nat (length tr)) (run max script s0).
Proof.
  intros max init script s0 Hi Hs E0.
  destruct (push_word_wf init empty_state wf_empty Hi) as (s0' & E0' & Hwf0 & _).
  rewrite E0 in E0'. injection E0' as <-. exact (run_safe max script s0 Hwf0 Hs).
Qed.

Theorem tracelen_invariant : forall max init script s0 s,
  balanced init = true -> script_balanced script ->
  push_word init empty_state = Ok s0 -> run max script s0 = Ok s ->
  suffix_ok (stack s) /\ Z.of_N (len s) = net (stack s).
Proof.
  intros max init script s0 s Hi Hs E0 E.
  pose proof (eval_safe max init script s0 Hi Hs E0) as H. rewrite E in H. exact H.
Qed.

(* no panic site of the accounting is reached: neither checked_sub(1).unwrap()
   nor stack_trace.pop().unwrap() nor the final assert_eq!(stack_trace_len, 0) *)
Theorem eval_run_no_panic : forall max init script,
  balanced init = true -> script_balanced script ->
  is_panic (eval_run max init script) = false.
Proof.
  intros max init script Hi Hs. unfold eval_run.
  destruct (push_word_wf init empty_state wf_empty Hi) as (s0 & E0 & Hwf0 & _).
  rewrite E0. cbn [obind].
  pose proof (run_safe max script s0 Hwf0 Hs) as H.
  destruct (run max script s0) as [s|e|site|]; cbn [obind safe] in *; try contradiction; try reflexivity.
  destruct (stack s) as [|i r] eqn:Est; [|reflexivity].
  destruct H as [_ Hl]. rewrite Est in Hl. cbn [net] in Hl.
  destruct (N.eqb_spec (len s) 0); [reflexivity | lia].
Qed.

Theorem dec_no_underflow : forall max init script s0,
  balanced init = true -> script_balanced script ->
  push_word init empty_state = Ok s0 ->
  is_panic (run max script s0) = false.
Proof.
  intros max init script s0 Hi Hs E0.
  pose proof (eval_safe max init script s0 Hi Hs E0) as H.
  destruct (run max script s0); [reflexivity | reflexivity | contradiction | reflexivity].
Qed.

Theorem len_zero_at_end : forall max init script s0 s,
  balanced init = true -> script_balanced script ->
  push_word init empty_state = Ok s0 -> run max script s0 = Ok s ->
  stack s = [] -> len s = 0.
Proof.
  intros max init script s0 s Hi Hs E0 E Hst.
  destruct (tracelen_invariant max init script s0 s Hi Hs E0 E) as [_ Hl].
  rewrite Hst in Hl. cbn [net] in Hl. lia.
Qed.

Theorem get_stack_trace_pop_ok : forall max init script s0 s,
  balanced init = true -> script_balanced script ->
  push_word init empty_state = Ok s0 -> run max script s0 = Ok s ->
  exists tr, get_stack_trace s = Ok tr /\ N.of_nat (length tr) = len s.
Proof.
  intros max init script s0 s Hi Hs E0 E.
  apply get_stack_trace_ok. exact (tracelen_invariant max init script s0 s Hi Hs E0 E).
Qed.

Lemma step_bound : forall max a s s', step max a s = Ok s' -> len s <= max -> len s' <= max.
Proof.
  intros max a s s' E Hl. unfold step in E. destruct (stack s) as [|top rest].
  - injection E as <-. exact Hl.
  - apply obind_ok_inv in E as (s1 & _ & E). destruct (N.ltb_spec max (len s1)) as [Hm|Hm].
    + destruct (get_stack_trace s1); discriminate.
    + injection E as <-. exact Hm.
Qed.

Theorem len_never_exceeds : forall max script s s',
  run max script s = Ok s' -> len s <= max -> len s' <= max.
Proof.
  intros max script. induction script as [|a r IH]; intros s s' E Hl; cbn [run] in E.
  - injection E as <-. exact Hl.
  - apply obind_ok_inv in E as (s1 & E1 & E). exact (IH s1 s' E (step_bound max a s s1 E1 Hl)).
Qed.

Theorem overflow_trace_exceeds_limit : forall max init script s0 tr,
  balanced init = true -> script_balanced script ->
  push_word init empty_state = Ok s0 ->
  run max script s0 = Err (StackOverflow tr) -> max < N.of_nat (length tr).
Proof.
  intros max init script s0 tr Hi Hs E0 E.
  pose proof (eval_safe max init script s0 Hi Hs E0) as H. rewrite E in H. exact H.
Qed.

(* [c] bounds the net of a completed word from below; the word is balanced
   from [- p], i.e. no prefix sum falls below [p] *)
Lemma exec_sound : forall t w f, exec t w f ->
  match analyse t with
  | Some (c, p) => (f = false -> c <= net w)%Z /\ balanced_from (- p) w = true
  | None => True
  end.
Proof.
  induction 1 as [t| |s id|a b w H IH|a b w1 w2 f H1 IH1 H2 IH2|a|a w f H IH|a|a w1 f1 w2 f2 H1 IH1 H2 IH2|a w H IH];
    cbn [analyse] in *.
  (* where a subtree has no bounds, or a loop body a negative one, nothing is claimed *)
  4-10: destruct (analyse a) as [[ca pa]|]; [|exact I].
  4-5: destruct (analyse b) as [[cb pb]|]; [|exact I].
  8-10: destruct (Z.ltb_spec pa 0) as [Hpa|Hpa]; [exact I|].
  - destruct (analyse t) as [[c p]|]; [|exact I]. split; [discriminate | reflexivity].
  - split; [cbn; lia | reflexivity].
  - destruct s; (split; [cbn; lia | reflexivity]).
  - destruct IH as [_ Hp]. split; [discriminate|]. eapply balanced_from_mono; [|exact Hp]. lia.
  - destruct IH1 as [Hc1 Hp1]. destruct IH2 as [Hc2 Hp2]. specialize (Hc1 eq_refl). split.
    + intros ->. specialize (Hc2 eq_refl). rewrite net_app. lia.
    + rewrite balanced_from_app. apply andb_true_iff. split.
      * eapply balanced_from_mono; [|exact Hp1]. lia.
      * eapply balanced_from_mono; [|exact Hp2]. lia.
  - split; [cbn; lia | reflexivity].
  - destruct IH as [Hc Hp]. split; [|exact Hp]. intros ->. specialize (Hc eq_refl). lia.
  - split; [cbn; lia | reflexivity].
  - destruct IH1 as [_ Hp1]. destruct IH2 as [Hc2 Hp2].
    apply (balanced_from_mono _ _ 0%Z) in Hp1; [|lia].
    pose proof (balanced_from_net _ _ Hp1) as Hn1. split.
    + intros ->. specialize (Hc2 eq_refl). rewrite net_app. lia.
    + rewrite balanced_from_app. apply andb_true_iff. split; [exact Hp1|].
      eapply balanced_from_mono; [|exact Hp2]. lia.
  - destruct IH as [_ Hp]. split; [discriminate|]. eapply balanced_from_mono; [|exact Hp]. lia.
Qed.

Theorem tree_balanced_sound : forall t w f,
  tree_balanced t = true -> exec t w f -> balanced w = true.
Proof.
  intros t w f Hb Hex. unfold tree_balanced in Hb. pose proof (exec_sound t w f Hex) as H.
  destruct (analyse t) as [[c p]|]; [|discriminate]. apply Z.leb_le in Hb.
  destruct H as [_ Hp]. eapply balanced_from_mono; [|exact Hp]. lia.
Qed.

Lemma execc_exec : forall t w, execc t w -> exec t w false.
Proof. induction 1; econstructor; eassumption. Qed.

Lemma weight_item_of_sym : forall s id,
  weight (item_of_sym s id) = match s with ST => 1 | SD => -1 | SO => 0 end%Z.
Proof. destruct s; reflexivity. Qed.

Theorem gain_sound : forall t w, execc t w -> forall g, gain t = Some g -> (net w <= g)%Z.
Proof.
  induction 1 as [|s id|a b w1 w2 H1 IH1 H2 IH2|a|a w H IH|a|a w1 w2 H1 IH1 H2 IH2]; intros g G;
    cbn [gain] in *.
  3-7: destruct (gain a) as [ga|]; [|discriminate].
  - injection G as <-. cbn. lia.
  - cbn [net]. rewrite weight_item_of_sym. destruct s; injection G as <-; lia.
  - destruct (gain b) as [gb|]; [|discriminate]. injection G as <-.
    specialize (IH1 _ eq_refl). specialize (IH2 _ eq_refl). rewrite net_app. lia.
  - injection G as <-. cbn [net]. lia.
  - injection G as <-. specialize (IH _ eq_refl). lia.
  - destruct (0 <? ga)%Z; [discriminate|]. injection G as <-. cbn [net]. lia.
  - destruct (Z.ltb_spec 0 ga) as [Hg|Hg]; [discriminate|]. injection G as <-.
    specialize (IH1 _ eq_refl). specialize (IH2 _ eq_refl). rewrite net_app. lia.
Qed.

(* the counter after a completed handler is at most the limit plus the
   handler's gain: the overflow trace is at most that long *)
Theorem step_overflow_trace_bounded : forall max a s tr g, wf s -> balanced (action_word a) = true ->
  (net (action_word a) <= g)%Z -> (0 <= g)%Z -> len s <= max ->
  step max a s = Err (StackOverflow tr) ->
  (Z.of_nat (length tr) <= Z.of_N max + Z.max 1 g)%Z.
Proof.
  intros max a s tr g Hwf Hb Hg Hg0 Hmax E.
  pose proof (step_spec max a s Hwf Hb) as H. rewrite E in H. cbn [safe] in H. lia.
Qed.

Lemma graph_topo_edge : forall g a b, graph_topo g = true -> edge g a b -> b < a.
Proof.
  intros g a b H (succs & Hin & Hb). unfold graph_topo in H.
  rewrite forallb_forall in H. specialize (H _ Hin). cbn [fst snd] in H.
  rewrite forallb_forall in H. specialize (H _ Hb). apply N.ltb_lt in H. exact H.
Qed.

Lemma graph_topo_path : forall g a b, graph_topo g = true -> clos_trans N (edge g) a b -> b < a.
Proof.
  intros g a b H P. induction P as [x y E|x y z _ IH1 _ IH2].
  - eapply graph_topo_edge; eauto.
  - lia.
Qed.

Theorem graph_topo_acyclic : forall g, graph_topo g = true ->
  forall a, ~ clos_trans N (edge g) a a.
Proof. intros g H a P. pose proof (graph_topo_path g a a H P). lia. Qed.
