(* Proofs/Utf8Codec_proofs.v — Model/Utf8Codec.v: the strict decoder reads back what the encoder
   writes (one lemma per encoding length, over the 6-bit digits of the scalar value), the lossy
   decoder follows the strict one on every prefix that one accepts, and yields scalar values on
   any input. *)
From RJ Require Import Base.Outcome Model.Utf8Codec.
From Coq Require Import Lia Wf_nat.
Local Open Scope N_scope.

Lemma in_range_iff lo hi b : in_range lo hi b = true <-> lo <= b <= hi.
Proof. unfold in_range. now rewrite andb_true_iff, !N.leb_le. Qed.
Lemma in_range_false lo hi b : b < lo \/ hi < b -> in_range lo hi b = false.
Proof. intros H. apply not_true_iff_false. rewrite in_range_iff. lia. Qed.
Lemma is_cont_iff b : is_cont b = true <-> 128 <= b < 192.
Proof. unfold is_cont. now rewrite andb_true_iff, N.leb_le, N.ltb_lt. Qed.
Lemma is_scalar_iff c : is_scalar c = true <-> c < 55296 \/ 57344 <= c < 1114112.
Proof. unfold is_scalar. now rewrite orb_true_iff, andb_true_iff, N.leb_le, !N.ltb_lt. Qed.

(* after E0 no overlong form, after ED no surrogate *)
Lemma ok2_of3_iff b0 b1 :
  ok2_of3 b0 b1 = true <-> 128 <= b1 <= 191 /\ (b0 = 224 -> 160 <= b1) /\ (b0 = 237 -> b1 <= 159).
Proof.
  unfold ok2_of3. destruct (N.eqb_spec b0 224); [rewrite in_range_iff; lia|].
  destruct (in_range 225 236 b0) eqn:E; [apply in_range_iff in E; rewrite in_range_iff; lia|].
  destruct (N.eqb_spec b0 237); rewrite in_range_iff; lia.
Qed.
(* after F0 no overlong form, after F4 nothing above U+10FFFF *)
Lemma ok2_of4_iff b0 b1 : in_range 240 244 b0 = true ->
  ok2_of4 b0 b1 = true <-> 128 <= b1 <= 191 /\ (b0 = 240 -> 144 <= b1) /\ (b0 = 244 -> b1 <= 143).
Proof.
  intros H%in_range_iff. unfold ok2_of4. destruct (N.eqb_spec b0 240); [rewrite in_range_iff; lia|].
  destruct (in_range 241 243 b0) eqn:E; [apply in_range_iff in E|apply not_true_iff_false in E; rewrite in_range_iff in E];
    rewrite in_range_iff; lia.
Qed.

(* the 6-bit groups the encoder cuts a scalar value into *)
Lemma digits64 c :
  c = c / 64 * 64 + c mod 64 /\
  c = c / 4096 * 4096 + (c / 64) mod 64 * 64 + c mod 64 /\
  c = c / 262144 * 262144 + (c / 4096) mod 64 * 4096 + (c / 64) mod 64 * 64 + c mod 64.
Proof.
  change 4096 with (64 * 64). change 262144 with (64 * 64 * 64). rewrite <- !N.div_div by discriminate.
  pose proof (N.div_mod' c 64). pose proof (N.div_mod' (c / 64) 64). pose proof (N.div_mod' (c / 64 / 64) 64).
  lia.
Qed.

Lemma strict_enc2 c q t rest : c = q * 64 + t -> t < 64 -> 128 <= c < 2048 ->
  decode_strict (192 + q :: 128 + t :: rest) = option_map (cons c) (decode_strict rest).
Proof.
  intros -> Ht Hc. cbn [decode_strict].
  rewrite (proj2 (N.ltb_ge _ _)), (proj2 (in_range_iff 194 223 _)), (proj2 (is_cont_iff _)) by lia.
  cbn [andb]. do 2 f_equal. lia.
Qed.

Lemma strict_enc3 c q r t rest : c = q * 4096 + r * 64 + t -> r < 64 -> t < 64 ->
  2048 <= c < 65536 -> is_scalar c = true ->
  decode_strict (224 + q :: 128 + r :: 128 + t :: rest) = option_map (cons c) (decode_strict rest).
Proof.
  intros -> Hr Ht Hc Hs%is_scalar_iff. cbn [decode_strict].
  rewrite (proj2 (N.ltb_ge _ _)), (in_range_false 194 223), (proj2 (in_range_iff 224 239 _)),
    (proj2 (ok2_of3_iff _ _)), (proj2 (is_cont_iff _)) by lia.
  cbn [andb]. do 2 f_equal. lia.
Qed.

Lemma strict_enc4 c p q r t rest : c = p * 262144 + q * 4096 + r * 64 + t -> q < 64 -> r < 64 -> t < 64 ->
  65536 <= c < 1114112 ->
  decode_strict (240 + p :: 128 + q :: 128 + r :: 128 + t :: rest) = option_map (cons c) (decode_strict rest).
Proof.
  intros -> Hq Hr Ht Hc. cbn [decode_strict].
  assert (H0 : in_range 240 244 (240 + p) = true) by (apply in_range_iff; lia).
  rewrite (proj2 (N.ltb_ge _ _)), (in_range_false 194 223), (in_range_false 224 239), H0,
    (proj2 (ok2_of4_iff _ _ H0)), !(proj2 (is_cont_iff _)) by lia.
  cbn [andb]. do 2 f_equal. lia.
Qed.

Lemma decode_strict_char c rest : is_scalar c = true ->
  decode_strict (encode_char c ++ rest) = option_map (cons c) (decode_strict rest).
Proof.
  intros Hs. pose proof Hs as Hc%is_scalar_iff. destruct (digits64 c) as (D2 & D3 & D4).
  assert (Hm : forall x, x mod 64 < 64) by (intros; now apply N.mod_lt).
  unfold encode_char.
  destruct (N.ltb_spec c 128) as [L1|L1]; [cbn [app decode_strict]; now rewrite (proj2 (N.ltb_lt _ _) L1)|].
  destruct (N.ltb_spec c 2048); [apply (strict_enc2 c); auto; lia|].
  destruct (N.ltb_spec c 65536); [apply (strict_enc3 c); auto; lia | apply (strict_enc4 c); auto; lia].
Qed.

Definition scalars (s : str) : Prop := Forall (fun c => is_scalar c = true) s.

Theorem encode_valid : forall s, scalars s -> decode_strict (encode_utf8 s) = Some s.
Proof.
  induction s as [|c r IH]; intros H; [reflexivity|].
  apply Forall_cons_iff in H as [Hc Hr].
  cbn [encode_utf8]. now rewrite decode_strict_char, IH.
Qed.

Lemma encode_char_bytes c : is_scalar c = true -> Forall (fun b => b < 256) (encode_char c).
Proof.
  intros Hs%is_scalar_iff. unfold encode_char.
  assert (Hm : forall x, 128 + x mod 64 < 256) by (intros x; pose proof (N.mod_lt x 64); lia).
  assert (Hd : forall lead n, c < (256 - lead) * n -> lead + c / n < 256).
  { intros lead n H. enough (c / n < 256 - lead) by lia. apply N.div_lt_upper_bound; [intros ->|]; lia. }
  destruct (N.ltb_spec c 128); [repeat constructor; lia|].
  destruct (N.ltb_spec c 2048); [|destruct (N.ltb_spec c 65536)];
    repeat constructor; auto; apply Hd; lia.
Qed.

Theorem encode_bytes : forall s, scalars s -> Forall (fun b => b < 256) (encode_utf8 s).
Proof.
  induction s as [|c r IH]; intros H; [constructor|].
  apply Forall_cons_iff in H as [Hc Hr]. cbn [encode_utf8]. apply Forall_app. auto using encode_char_bytes.
Qed.

(* both decoders recurse on the input less the sequence just read, and a sequence that the
   strict one accepts is complete, so that what follows it plays no part *)
Theorem decode_lossy_app : forall p s rest,
  decode_strict p = Some s -> decode_lossy (p ++ rest) = s ++ decode_lossy rest.
Proof.
  intros p s rest. revert s.
  induction p as [p IH] using (induction_ltof1 _ (@length N)). unfold ltof in IH.
  assert (Hrec : forall r c s, (length r < length p)%nat ->
            option_map (cons c) (decode_strict r) = Some s ->
            c :: decode_lossy (r ++ rest) = s ++ decode_lossy rest).
  { intros r c s Hl H. destruct (decode_strict r) as [t|] eqn:E; [|discriminate].
    injection H as <-. cbn [app]. f_equal. now apply IH. }
  intros s H. destruct p as [|b0 r0]; [now injection H as <-|].
  cbn [decode_strict] in H. cbn [app decode_lossy].
  destruct (b0 <? 128); [apply Hrec in H; [assumption | cbn [length]; lia]|].
  destruct (in_range 194 223 b0).
  { destruct r0 as [|b1 r1]; [discriminate|]. cbn [app]. destruct (is_cont b1); [|discriminate].
    apply Hrec in H; [assumption | cbn [length]; lia]. }
  destruct (in_range 224 239 b0).
  { destruct r0 as [|b1 [|b2 r2]]; try discriminate. cbn [app].
    destruct (ok2_of3 b0 b1); [|discriminate]. destruct (is_cont b2); [|discriminate].
    apply Hrec in H; [assumption | cbn [length]; lia]. }
  destruct (in_range 240 244 b0); [|discriminate].
  destruct r0 as [|b1 [|b2 [|b3 r3]]]; try discriminate. cbn [app].
  destruct (ok2_of4 b0 b1); [|discriminate]. destruct (is_cont b2); [|discriminate].
  destruct (is_cont b3); [|discriminate].
  apply Hrec in H; [assumption | cbn [length]; lia].
Qed.

Theorem decode_is_lossy : forall bs s, decode_strict bs = Some s -> decode_lossy bs = s.
Proof. intros bs s H. rewrite <- (app_nil_r bs), (decode_lossy_app bs s [] H). apply app_nil_r. Qed.

Lemma decode_lossy_char c rest : is_scalar c = true ->
  decode_lossy (encode_char c ++ rest) = c :: decode_lossy rest.
Proof.
  intros Hs. apply (decode_lossy_app _ [c]).
  rewrite <- (app_nil_r (encode_char c)). now rewrite decode_strict_char.
Qed.

Theorem decode_encode : forall s, scalars s -> decode_lossy (encode_utf8 s) = s.
Proof. intros s H. apply decode_is_lossy, encode_valid, H. Qed.

Lemma scalar2 b0 b1 : in_range 194 223 b0 = true -> is_cont b1 = true ->
  is_scalar ((b0 - 192) * 64 + (b1 - 128)) = true.
Proof. rewrite in_range_iff, is_cont_iff, is_scalar_iff. lia. Qed.

Lemma scalar3 b0 b1 b2 : in_range 224 239 b0 = true -> ok2_of3 b0 b1 = true -> is_cont b2 = true ->
  is_scalar ((b0 - 224) * 4096 + (b1 - 128) * 64 + (b2 - 128)) = true.
Proof. rewrite in_range_iff, ok2_of3_iff, is_cont_iff, is_scalar_iff. lia. Qed.

Lemma scalar4 b0 b1 b2 b3 : in_range 240 244 b0 = true -> ok2_of4 b0 b1 = true ->
  is_cont b2 = true -> is_cont b3 = true ->
  is_scalar ((b0 - 240) * 262144 + (b1 - 128) * 4096 + (b2 - 128) * 64 + (b3 - 128)) = true.
Proof. intros H0. rewrite (ok2_of4_iff _ _ H0), !is_cont_iff, is_scalar_iff. apply in_range_iff in H0. lia. Qed.

(* whatever the input: a replacement character, an ASCII byte, or a decoded well-formed
   sequence *)
Theorem lossy_scalars bs : scalars (decode_lossy bs).
Proof.
  induction bs as [bs IH] using (induction_ltof1 _ (@length N)). unfold ltof in IH.
  assert (Hrepl : is_scalar repl = true) by reflexivity.
  assert (Hrec : forall c r, is_scalar c = true -> (length r < length bs)%nat -> scalars (c :: decode_lossy r))
    by (intros c r Hc Hl; constructor; [exact Hc | apply IH, Hl]).
  destruct bs as [|b0 r0]; [constructor|]. cbn [decode_lossy]. cbn [length] in Hrec.
  destruct (N.ltb_spec b0 128). { apply Hrec; [apply is_scalar_iff|]; lia. }
  destruct (in_range 194 223 b0) eqn:E2.
  { destruct r0 as [|b1 r1]; [now repeat constructor|]. cbn [length] in Hrec.
    destruct (is_cont b1) eqn:C1; apply Hrec; auto using scalar2; lia. }
  destruct (in_range 224 239 b0) eqn:E3.
  { destruct r0 as [|b1 r1]; [now repeat constructor|]. cbn [length] in Hrec.
    destruct (ok2_of3 b0 b1) eqn:O; [|apply Hrec; auto; lia].
    destruct r1 as [|b2 r2]; [now repeat constructor|]. cbn [length] in Hrec.
    destruct (is_cont b2) eqn:C2; apply Hrec; auto using scalar3; lia. }
  destruct (in_range 240 244 b0) eqn:E4; [|apply Hrec; auto; lia].
  destruct r0 as [|b1 r1]; [now repeat constructor|]. cbn [length] in Hrec.
  destruct (ok2_of4 b0 b1) eqn:O; [|apply Hrec; auto; lia].
  destruct r1 as [|b2 r2]; [now repeat constructor|]. cbn [length] in Hrec.
  destruct (is_cont b2) eqn:C2; [|apply Hrec; auto; lia].
  destruct r2 as [|b3 r3]; [now repeat constructor|]. cbn [length] in Hrec.
  destruct (is_cont b3) eqn:C3; apply Hrec; auto using scalar4; lia.
Qed.
