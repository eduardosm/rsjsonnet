(* Proofs/Pipeline_proofs.v — the whole pipeline from source bytes (Model/Pipeline.v):
   its lex / parse / static verdict is Front.load_model's; it never panics. *)
From RJ Require Import Base.Outcome Base.F64 Model.Token Model.Ast Model.Ir Model.Utf8 Model.Lexer Model.Parser
  Model.Analyze Model.Front Model.RefCore Model.RefValue Model.RefEval Model.Pipeline.
From RJ Require Import Proofs.Utf8_proofs Proofs.Front_proofs Proofs.RefNoPanic_main.

(* eval_model reports a front-end error exactly when load_model does, and the same one; when
   load_model accepts, eval_model is the reference interpreter on the tree the model parser built *)
Theorem pipeline_front_verdict bytes c :
  (forall x, load_model bytes = Err x <-> snd (eval_model bytes c) = Err (PFront x)) /\
  (forall i, load_model bytes = Ok i ->
     exists toks e, front_parse bytes = Ok (toks, e) /\
       eval_model bytes c = (fst (RefEval.run (p_fuel c) (p_cfg c) e),
                             inj_err PEval (snd (RefEval.run (p_fuel c) (p_cfg c) e)))).
Proof.
  unfold load_model, eval_model.
  destruct (front_parse bytes) as [[toks e]|x0|site|]; cbn [obind snd].
  - destruct (front_analyze e) as [i0|x0|site|].
    + destruct (RefEval.run (p_fuel c) (p_cfg c) e) as [t r] eqn:Er. cbn [fst snd]. split.
      * intros x. split; [discriminate|]. destruct r; cbn [inj_err]; discriminate.
      * intros i _. exists toks, e. split; [reflexivity|]. rewrite Er. reflexivity.
    + cbn [snd]. split; [|discriminate]. intros x. split; intros H; injection H as <-; reflexivity.
    + cbn [snd]. split; [|discriminate]. intros x. split; discriminate.
    + cbn [snd]. split; [|discriminate]. intros x. split; discriminate.
  - split; [|discriminate]. intros x. split; intros H; injection H as <-; reflexivity.
  - split; [|discriminate]. intros x. split; discriminate.
  - split; [|discriminate]. intros x. split; discriminate.
Qed.

(* from source bytes to the manifested value: no panic site of the lexer, parser, analyzer or
   reference interpreter is reachable, whatever the fuel, the stack limit and the switches *)
Theorem pipeline_no_panic bytes c site : bytes_ok bytes -> snd (eval_model bytes c) <> Panic site.
Proof.
  intros B. destruct (pipeline_front_verdict bytes c) as [Herr Hok].
  destruct (front_no_panic bytes B) as [[i Hi]|[x Hx]].
  - destruct (Hok i Hi) as (toks & e & _ & ->). cbn [snd].
    pose proof (run_no_panic e (p_fuel c) (p_cfg c) site).
    destruct (snd (RefEval.run (p_fuel c) (p_cfg c) e)); cbn [inj_err]; congruence.
  - apply Herr in Hx. rewrite Hx. discriminate.
Qed.

(* the front end never runs out of fuel; the interpreter's fuel is the caller's *)
Theorem pipeline_fuel bytes c : bytes_ok bytes -> snd (eval_model bytes c) = OutOfFuel ->
  exists toks e, front_parse bytes = Ok (toks, e) /\ snd (RefEval.run (p_fuel c) (p_cfg c) e) = OutOfFuel.
Proof.
  intros B H. destruct (pipeline_front_verdict bytes c) as [Herr Hok].
  destruct (front_no_panic bytes B) as [[i Hi]|[x Hx]].
  - destruct (Hok i Hi) as (toks & e & Hp & Hev). exists toks, e. split; [exact Hp|].
    rewrite Hev in H. cbn [snd] in H.
    destruct (snd (RefEval.run (p_fuel c) (p_cfg c) e)); cbn [inj_err] in H; congruence.
  - apply Herr in Hx. congruence.
Qed.

Definition cfg0 : config := {| p_fuel := 200; p_cfg := {| c_limit := 200; c_bfs := false; c_ts_tail := false |} |}.

Example pipeline_examples :
  (exists j, snd (eval_model (bytes_of_string "local x = 2; [x + 1, std.length('ab'), x < 3]") cfg0) = Ok j /\
             match j with JArr [JNum _; JNum _; JBool true] => True | _ => False end) /\
  snd (eval_model (bytes_of_string "error 'boom'") cfg0) = Err (PEval (EExplicit [98; 111; 111; 109]%N)) /\
  (exists x, snd (eval_model (bytes_of_string "local x = 1; y") cfg0) = Err (PFront (FAnalyze x))) /\
  (exists x, snd (eval_model (bytes_of_string "1 +") cfg0) = Err (PFront (FParse x))) /\
  snd (eval_model (bytes_of_string "local f(x) = f(x); f(1)")
         {| p_fuel := 400; p_cfg := {| c_limit := 10; c_bfs := false; c_ts_tail := false |} |}) = Err (PEval EStackOverflow) /\
  snd (eval_model (bytes_of_string "local f(x) = f(x); f(1)") cfg0) = OutOfFuel.
Proof.
  split; [eexists; split; [vm_compute; reflexivity|exact I]|].
  split; [vm_compute; reflexivity|]. split; [eexists; vm_compute; reflexivity|].
  split; [eexists; vm_compute; reflexivity|]. split; vm_compute; reflexivity.
Qed.
