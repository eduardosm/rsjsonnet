(* Proofs/RefInherit_proofs.v — C02/C07: inheritance laws over the reference interpreter.
   Objects are layer lists, most derived first; `a + b` is `b_layers ++ a_layers`. *)
From RJ Require Import Base.Outcome Base.F64 Model.Token Model.Ast Model.RefCore Model.RefValue Model.RefEval.
From RJ Require Import Proofs.RefSem_proofs Proofs.RefSem_laws Proofs.RefNeed_proofs.
From Coq Require Import Lia.
Local Open Scope N_scope.

Lemma dropN_0 {A} (l : list A) : dropN l 0 = l.
Proof. destruct l; reflexivity. Qed.

Lemma find_field_0 ls n : find_field ls 0 n = find_field_in ls 0 n.
Proof. unfold find_field. rewrite dropN_0. reflexivity. Qed.

Definition shift (j : N) (r : N * field) : N * field := (fst r + j, snd r).

Lemma find_field_in_shift : forall l k j n, find_field_in l (k + j) n = option_map (shift j) (find_field_in l k n).
Proof.
  induction l as [|x r IH]; intros k j n; simpl; [reflexivity|].
  destruct (assoc n (l_fields x)); [reflexivity|]. replace (k + j + 1) with (k + 1 + j) by lia. apply IH.
Qed.

Lemma find_field_in_app : forall l1 l2 k n,
  find_field_in (l1 ++ l2) k n =
  match find_field_in l1 k n with Some r => Some r | None => find_field_in l2 (k + lenN l1) n end.
Proof.
  induction l1 as [|x r IH]; intros l2 k n; simpl.
  - unfold lenN. simpl. replace (k + 0) with k by lia. reflexivity.
  - destruct (assoc n (l_fields x)); [reflexivity|]. rewrite IH. destruct (find_field_in r (k + 1) n); [reflexivity|].
    f_equal. unfold lenN. simpl length. lia.
Qed.

(* the most derived definition wins: a field defined in the extension b of  a + b  is b's *)
Lemma override_wins : forall la lb n, has_field lb 0 n = true -> find_field (lb ++ la) 0 n = find_field lb 0 n.
Proof.
  intros * H. unfold has_field in H. rewrite !find_field_0 in *. rewrite find_field_in_app.
  destruct (find_field_in lb 0 n); [reflexivity | discriminate].
Qed.

(* ... and a field the extension does not define is the base's, one extension further down *)
Lemma inherited_field : forall la lb n, has_field lb 0 n = false ->
  find_field (lb ++ la) 0 n = option_map (shift (lenN lb)) (find_field la 0 n).
Proof.
  intros * H. unfold has_field in H. rewrite !find_field_0 in *. rewrite find_field_in_app.
  destruct (find_field_in lb 0 n); [discriminate|]. rewrite <- find_field_in_shift. reflexivity.
Qed.

Lemma field_vis_in_found : forall l n, field_vis_in l n true <> None.
Proof.
  induction l as [|x r IH]; intros n; simpl; [discriminate|].
  destruct (assoc n (l_fields x)) as [f|]; [destruct (f_vis f); try discriminate; apply IH | apply IH].
Qed.

Lemma field_vis_in_app : forall l1 l2 n fd,
  field_vis_in (l1 ++ l2) n fd =
  match field_vis_in l1 n fd with
  | Some VisDefault => field_vis_in l2 n true
  | Some v => Some v
  | None => field_vis_in l2 n fd
  end.
Proof.
  induction l1 as [|x r IH]; intros l2 n fd; simpl.
  - destruct fd; reflexivity.
  - destruct (assoc n (l_fields x)) as [f|]; [|apply IH]. destruct (f_vis f); try reflexivity.
    rewrite IH. pose proof (field_vis_in_found r n). destruct (field_vis_in r n true); [reflexivity | congruence].
Qed.

Lemma add_objects la ca lb cb d c r :
  bin_op BAdd (VObj la ca) (VObj lb cb) d c r = ([], Ok (VObj (lb ++ la) false)).
Proof. reflexivity. Qed.

Lemma run_task_mono f c t d r : run_task f c t d = r -> snd r <> OutOfFuel -> forall f', (f <= f')%nat -> run_task f' c t d = r.
Proof.
  intros H Hn f' Hle. subst r. apply (run_task_fuel_le c f f' Hle t d).
  destruct (snd (run_task f c t d)); try reflexivity. congruence.
Qed.

Lemma do_eval_add en l r d :
  do_eval en (CBin BAdd l r) d = (let* lv := eval en l d in let* rv := eval en r d in bin_op BAdd lv rv d).
Proof. reflexivity. Qed.

Lemma plus_objects : forall f c en a b d ta tb la lb ca cb,
  run_task f c (TEval en a) d = (ta, Ok (AVal (VObj la ca))) ->
  run_task f c (TEval en b) d = (tb, Ok (AVal (VObj lb cb))) ->
  run_task (S f) c (TEval en (CBin BAdd a b)) d = (ta ++ tb, Ok (AVal (VObj (lb ++ la) false))).
Proof.
  intros * Ha Hb. rewrite step_eval, do_eval_add.
  unfold eval, call, bind. cbv beta. rewrite Ha. simpl. rewrite Hb. simpl. rewrite !app_nil_r. reflexivity.
Qed.

(* inheritance is associative: whenever a, b, c evaluate to objects, (a + b) + c and a + (b + c)
   evaluate to the same object — same layers, same trace — (layer lists append associatively) *)
Theorem plus_assoc : forall f c en a b c0 d ta tb tc la lb lc ca cb cc,
  run_task f c (TEval en a) d = (ta, Ok (AVal (VObj la ca))) ->
  run_task f c (TEval en b) d = (tb, Ok (AVal (VObj lb cb))) ->
  run_task f c (TEval en c0) d = (tc, Ok (AVal (VObj lc cc))) ->
  run_task (S (S f)) c (TEval en (CBin BAdd (CBin BAdd a b) c0)) d = (ta ++ tb ++ tc, Ok (AVal (VObj (lc ++ lb ++ la) false)))
  /\ run_task (S (S f)) c (TEval en (CBin BAdd a (CBin BAdd b c0))) d = (ta ++ tb ++ tc, Ok (AVal (VObj (lc ++ lb ++ la) false))).
Proof.
  intros * Ha Hb Hc.
  assert (Ha' := run_task_mono _ _ _ _ _ Ha ltac:(discriminate) (S f) ltac:(lia)).
  assert (Hc' := run_task_mono _ _ _ _ _ Hc ltac:(discriminate) (S f) ltac:(lia)).
  split.
  - rewrite (plus_objects (S f) c en (CBin BAdd a b) c0 d _ _ _ _ _ _ (plus_objects f c en a b d _ _ _ _ _ _ Ha Hb) Hc').
    rewrite <- !app_assoc. reflexivity.
  - rewrite (plus_objects (S f) c en a (CBin BAdd b c0) d _ _ _ _ _ _ Ha' (plus_objects f c en b c0 d _ _ _ _ _ _ Hb Hc)).
    rewrite <- !app_assoc. reflexivity.
Qed.

Lemma dropN_app_le {A} : forall (l1 l2 : list A) from, from <= lenN l1 -> dropN (l1 ++ l2) from = dropN l1 from ++ l2.
Proof.
  induction l1 as [|x r IH]; intros l2 from H.
  - unfold lenN in H. simpl in H. assert (from = 0) by lia. subst. simpl. apply dropN_0.
  - simpl. destruct (from =? 0) eqn:E; [reflexivity|]. apply IH. unfold lenN in *. simpl length in H. apply N.eqb_neq in E. lia.
Qed.

Lemma find_field_in_nofields : forall e k n, l_fields e = [] -> find_field_in [e] k n = None.
Proof. intros * H. simpl. rewrite H. reflexivity. Qed.

(* {} + o : the empty layer sits below o.  Every lookup (self.f, super.f from any layer of o,
   `in`, objectHasEx, objectFieldsEx, std.length, the field order of manifestation and of ==)
   sees exactly o's layers, indices included.  The one corner: o's base layer now HAS a super
   object, so `super.f` there reports UnknownObjectField instead of SuperWithoutSuperObject. *)
Theorem plus_empty_l : forall e lo, l_fields e = [] ->
  (forall from n, from <= lenN lo -> find_field (lo ++ [e]) from n = find_field lo from n) /\
  (forall from n, from <= lenN lo -> has_field (lo ++ [e]) from n = has_field lo from n) /\
  (forall n, field_vis (lo ++ [e]) n = field_vis lo n) /\
  (forall n, is_visible (lo ++ [e]) n = is_visible lo n) /\
  all_names (lo ++ [e]) = all_names lo /\
  visible_names (lo ++ [e]) = visible_names lo.
Proof.
  intros e lo He.
  assert (Hf : forall from n, from <= lenN lo -> find_field (lo ++ [e]) from n = find_field lo from n).
  { intros from n Hle. unfold find_field. rewrite dropN_app_le by exact Hle. rewrite find_field_in_app.
    destruct (find_field_in (dropN lo from) from n); [reflexivity|]. apply find_field_in_nofields. exact He. }
  assert (Hv : forall n, field_vis (lo ++ [e]) n = field_vis lo n).
  { intros n. unfold field_vis. rewrite field_vis_in_app. simpl. rewrite He. simpl.
    destruct (field_vis_in lo n false) as [[| |]|]; reflexivity. }
  assert (Hi : forall n, is_visible (lo ++ [e]) n = is_visible lo n) by (intros n; unfold is_visible; rewrite Hv; reflexivity).
  assert (Ha : all_names (lo ++ [e]) = all_names lo).
  { unfold all_names. rewrite flat_map_app. simpl. rewrite He. simpl. rewrite app_nil_r. reflexivity. }
  repeat split; auto.
  - intros from n Hle. unfold has_field. rewrite Hf by exact Hle. reflexivity.
  - unfold visible_names. rewrite Ha. apply filter_ext. exact Hi.
Qed.

(* o + {} : the empty layer sits on top.  Same names, visibilities and membership; every field is
   found one layer further down; no corner (the empty layer has no body that could say super). *)
Theorem plus_empty_r : forall e lo, l_fields e = [] ->
  (forall n, find_field (e :: lo) 0 n = option_map (shift 1) (find_field lo 0 n)) /\
  (forall n, has_field (e :: lo) 0 n = has_field lo 0 n) /\
  (forall n, field_vis (e :: lo) n = field_vis lo n) /\
  (forall n, is_visible (e :: lo) n = is_visible lo n) /\
  all_names (e :: lo) = all_names lo /\
  visible_names (e :: lo) = visible_names lo.
Proof.
  intros e lo He.
  assert (Hf : forall n, find_field (e :: lo) 0 n = option_map (shift 1) (find_field lo 0 n)).
  { intros n. rewrite !find_field_0. simpl. rewrite He. simpl. apply (find_field_in_shift lo 0 1 n). }
  assert (Hv : forall n, field_vis (e :: lo) n = field_vis lo n) by (intros n; unfold field_vis; simpl; rewrite He; reflexivity).
  assert (Hi : forall n, is_visible (e :: lo) n = is_visible lo n) by (intros n; unfold is_visible; rewrite Hv; reflexivity).
  assert (Ha : all_names (e :: lo) = all_names lo) by (unfold all_names; simpl; rewrite He; reflexivity).
  repeat split; auto.
  - intros n. unfold has_field. rewrite Hf. destruct (find_field lo 0 n); reflexivity.
  - unfold visible_names. rewrite Ha. apply filter_ext. exact Hi.
Qed.

Lemma do_eval_field en e name d :
  do_eval en (CField e name) d =
  (let* v := eval en e d in match v with VObj ls chk => get_field ls chk name d | _ => kind "FieldOfNonObject" end).
Proof. reflexivity. Qed.

Lemma self_value f c en ls i chk d :
  lookup_obj en = Some (ls, i, chk) -> run_task (S f) c (TEval en CSelf) d = ([], Ok (AVal (VObj ls chk))).
Proof. intros H. rewrite step_eval. unfold do_eval, bind. rewrite H. reflexivity. Qed.

(* self.g under a checked self: self, the field exists, one frame, no asserts to run, the field from
   the top of the layer list *)
Lemma self_field : forall f c en ls i g d t o,
  lookup_obj en = Some (ls, i, true) -> fits c d -> has_field ls 0 g = true ->
  run_task (S f) c (TField ls 0 g) (d + 1) = (t, o) -> passes o ->
  run_task (S (S f)) c (TEval en (CField CSelf g)) d = (t, o).
Proof.
  intros * Hl Hfit Hh Hr Hp. rewrite run_task_S. crunch. rewrite (self_value f c en ls i true d Hl).
  cbv [get_field field_at run_asserts]. rewrite Hh. crunch. rewrite Hfit, Hr.
  pass_cases Hp; crunch; norm_apps; reflexivity.
Qed.

(* In every environment whose innermost object frame is (ls, i) — the body of any field, assert or
   object local of ANY layer i of the object ls — `self.g` is the lookup of g from the top of the
   WHOLE layer list ls (not from layer i): same trace, same value or error. *)
Theorem self_field_is_top_lookup : forall f c en ls i g d t o,
  lookup_obj en = Some (ls, i, true) -> fits c d -> has_field ls 0 g = true ->
  run_task (S f) c (TField ls 0 g) (d + 1) = (t, o) ->
  (forall v, o = Ok (AVal v) -> run_task (S (S f)) c (TEval en (CField CSelf g)) d = (t, Ok (AVal v))) /\
  (forall e, o = Err e -> run_task (S (S f)) c (TEval en (CField CSelf g)) d = (t, Err e)).
Proof.
  intros * Hl Hfit Hh Hr.
  split; intros y ->; apply (self_field f c en ls i g d t _ Hl Hfit Hh Hr); [left | right]; eexists; reflexivity.
Qed.

Lemma field_env_self ls i l f : lookup_obj (field_env ls i l f) = Some (ls, i, true).
Proof. reflexivity. Qed.

(* self is final: in  a + b  (layers lb ++ la), a field body of a's layer that says self.g gets b's
   g whenever b defines g — the lookup starts at the most derived layer and stops at the first
   definition *)
Theorem self_is_final : forall f c la lb i l fld g d t o,
  fits c d -> has_field lb 0 g = true ->
  run_task (S f) c (TField (lb ++ la) 0 g) (d + 1) = (t, o) ->
  find_field (lb ++ la) 0 g = find_field lb 0 g /\
  (forall v, o = Ok (AVal v) ->
     run_task (S (S f)) c (TEval (field_env (lb ++ la) i l fld) (CField CSelf g)) d = (t, Ok (AVal v))) /\
  (forall e, o = Err e ->
     run_task (S (S f)) c (TEval (field_env (lb ++ la) i l fld) (CField CSelf g)) d = (t, Err e)).
Proof.
  intros * Hfit Hh Hr. split; [apply override_wins; exact Hh|].
  apply (self_field_is_top_lookup f c _ (lb ++ la) i g d t o (field_env_self _ _ _ _) Hfit); [|exact Hr].
  unfold has_field. rewrite override_wins by exact Hh. exact Hh.
Qed.
