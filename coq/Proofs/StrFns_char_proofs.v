(* Proofs/StrFns_char_proofs.v — std.char / std.codepoint, indexing and std.substr on numbers that
   are small non-negative integers.  Everything rests on one fact about SpecFloat's
   [binary_normalize]: an integer of at most 53 bits is only shifted left, never rounded, so
   truncating the double gives the integer back. *)
From RJ Require Import Base.Outcome Base.F64 Model.StrFns.
From Coq Require Import Lia List ZArith Floats.SpecFloat.
Import ListNotations.

Lemma digits2_shift_pos k p : digits2_pos (shift_pos k p) = (digits2_pos p + k)%positive.
Proof.
  unfold shift_pos. induction k as [|k IH] using Pos.peano_ind.
  - cbn. lia.
  - rewrite Pos.iter_succ. cbn [digits2_pos]. rewrite IH. lia.
Qed.

Lemma f_of_pos_small p : (Z.pos (digits2_pos p) <= 53)%Z ->
  exists m e, f_of_Z (Z.pos p) = S754_finite false m e /\ (-52 <= e <= 0)%Z /\ Z.pos m = (Z.pos p * 2 ^ (- e))%Z.
Proof.
  intros Hd. set (d := Z.pos (digits2_pos p)) in *.
  (* after alignment the mantissa [mz] has exactly 53 bits *)
  assert (Hal : exists mz ez, shl_align p 0 (fexp prec emax (d + 0)) = (mz, ez) /\
                  Z.pos (digits2_pos mz) = 53%Z /\ (-52 <= ez <= 0)%Z /\ Z.pos mz = (Z.pos p * 2 ^ (- ez))%Z).
  { replace (fexp prec emax (d + 0)) with (d - 53)%Z by (unfold fexp, emin, prec, emax; lia).
    unfold shl_align. rewrite Z.sub_0_r. destruct (d - 53)%Z as [|q|q] eqn:E; try lia.
    - exists p, 0%Z. repeat split; lia.
    - exists (shift_pos q p), (Z.neg q). rewrite digits2_shift_pos, shift_pos_correct.
      change (Zpower_pos 2 q) with (2 ^ - Z.neg q)%Z. repeat split; lia. }
  destruct Hal as (mz & ez & Hal & Hmz & Hez & Hval).
  exists mz, ez. split; [|split; assumption].
  unfold f_of_Z, f_of_Z_exp, binary_normalize, binary_round. fold d. rewrite Hal.
  (* neither [shr_fexp] of [binary_round_aux] shifts a 53-bit mantissa *)
  assert (Hsh : shr_fexp prec emax (Z.pos mz) ez loc_Exact = (shr_record_of_loc (Z.pos mz) loc_Exact, ez)).
  { unfold shr_fexp, fexp, emin, prec, emax. cbn [Zdigits2]. rewrite Hmz.
    replace (Z.max (53 + ez - 53) (3 - 1024 - 53) - ez)%Z with 0%Z by lia. reflexivity. }
  unfold binary_round_aux. rewrite Hsh. cbn [shr_record_of_loc shr_m loc_of_shr_record round_nearest_even].
  rewrite Hsh. cbn [shr_record_of_loc shr_m].
  replace (Zle_bool ez (emax - prec)) with true; [reflexivity|].
  symmetry. apply Zle_imp_le_bool. unfold emax, prec. lia.
Qed.

Lemma digits2_pos_lt p k : (Z.pos p < 2 ^ Z.pos k)%Z -> (digits2_pos p <= k)%positive.
Proof.
  revert k. induction p as [p IH|p IH|]; intros k H; cbn [digits2_pos]; try lia;
    (destruct (Pos.eq_dec k 1) as [->|Hk]; [lia|]);
    replace (Z.pos k) with (Z.succ (Z.pos (k - 1))) in H by lia;
    rewrite Z.pow_succ_r in H by lia; specialize (IH (k - 1)%positive ltac:(lia)); lia.
Qed.

Section SmallInt.
  Variable n : N.
  Hypothesis Hn : (n < 2 ^ 53)%N.

  Lemma f_of_N_small_cases :
    (n = 0%N /\ f_of_N n = S754_zero false) \/
    (exists m e, f_of_N n = S754_finite false m e /\ trunc_Z (f_of_N n) = Some (Z.of_N n) /\ n <> 0%N).
  Proof using Hn.
    destruct n as [|p]; [left; split; reflexivity|right].
    destruct (f_of_pos_small p) as (m & e & Hf & He & Hv).
    { pose proof (digits2_pos_lt p 53). lia. }
    exists m, e. unfold f_of_N. cbn [Z.of_N]. rewrite Hf. repeat split; [|discriminate].
    cbn [trunc_Z]. destruct (Z.leb_spec 0 e).
    - replace e with 0%Z in * by lia. rewrite Z.shiftl_0_r. f_equal. lia.
    - rewrite Z.shiftr_div_pow2, Hv, Z.div_mul by lia. reflexivity.
  Qed.

  Lemma f_trunc_of_N : f_trunc (f_of_N n) = f_of_N n.
  Proof using Hn.
    destruct f_of_N_small_cases as [[-> ->]|(m & e & Hf & Ht & Hne)]; [reflexivity|].
    unfold f_trunc. rewrite Ht, Hf. destruct (0 <=? e)%Z; [reflexivity|].
    rewrite <- Hf. destruct (Z.eqb_spec (Z.of_N n) 0); [lia|reflexivity].
  Qed.

  Lemma sat_cast_of_N maxv : sat_cast maxv (f_of_N n) = N.min n maxv.
  Proof using Hn.
    destruct f_of_N_small_cases as [[-> ->]|(m & e & Hf & Ht & Hne)]; [symmetry; apply N.min_0_l|].
    unfold sat_cast. rewrite Ht, Hf. rewrite N2Z.id. reflexivity.
  Qed.

  Lemma f_eqb_of_N : f_eqb (f_of_N n) (f_of_N n) = true.
  Proof using Hn.
    destruct f_of_N_small_cases as [[-> ->]|(m & e & Hf & _)]; [reflexivity|].
    rewrite Hf. unfold f_eqb, SFeqb, SFcompare. rewrite Z.compare_refl, Pos.compare_cont_refl. reflexivity.
  Qed.

  Lemma f_neg_p_of_N : f_neg_p (f_of_N n) = false.
  Proof using Hn. destruct f_of_N_small_cases as [[-> ->]|(m & e & -> & _)]; reflexivity. Qed.

  Lemma not_integer_of_N : not_integer (f_of_N n) = false.
  Proof using Hn.
    unfold not_integer, f_ne. rewrite f_trunc_of_N, f_eqb_of_N.
    destruct f_of_N_small_cases as [[-> ->]|(m & e & -> & _)]; reflexivity.
  Qed.

  Lemma try_to_usize_exact_of_N : try_to_usize_exact (f_of_N n) = Some n.
  Proof using Hn.
    unfold try_to_usize_exact. rewrite sat_cast_of_N.
    rewrite N.min_l by (unfold usize_max; lia). rewrite f_eqb_of_N. reflexivity.
  Qed.

  Lemma try_to_u32_of_N : (n <= u32_max)%N -> try_to_u32 (f_of_N n) = Some n.
  Proof using Hn.
    intros Hu. unfold try_to_u32. rewrite f_trunc_of_N, sat_cast_of_N.
    rewrite N.min_l by exact Hu. rewrite f_eqb_of_N. reflexivity.
  Qed.
End SmallInt.

Lemma is_scalar_lt c : is_scalar c = true -> (c < 0x110000)%N.
Proof.
  unfold is_scalar. intros H. apply orb_true_iff in H as [H|H].
  - apply N.ltb_lt in H. lia.
  - apply andb_true_iff in H as [_ H]. apply N.ltb_lt in H. exact H.
Qed.

Lemma std_char_of_N c : (c < 0x110000)%N ->
  std_char (VNum (f_of_N c)) = if is_scalar c then Ok (VStr [c]) else Err EOther.
Proof.
  intros Hc. unfold std_char. cbn [want_num obind].
  assert (H53 : (c < 2 ^ 53)%N) by (change (2 ^ 53)%N with 9007199254740992%N; lia).
  rewrite f_trunc_of_N, try_to_u32_of_N by (assumption || (unfold u32_max; cbn; lia)). reflexivity.
Qed.

Lemma char_codepoint_inverse c : is_scalar c = true ->
  std_char (VNum (f_of_N c)) = Ok (VStr [c]) /\
  std_codepoint (VStr [c]) = Ok (VNum (f_of_N c)).
Proof.
  intros Hs. split; [|reflexivity]. rewrite std_char_of_N, Hs by (apply is_scalar_lt, Hs). reflexivity.
Qed.

(* Indexing and std.substr take any count that a double holds exactly; C18 states them below 2^16. *)
Lemma index_of_N_is_nth s i : (i < 2 ^ 53)%N ->
  index_value (VStr s) (VNum (f_of_N i)) =
    match nth_error s (N.to_nat i) with
    | Some c => Ok (VStr [c])
    | None => Err ENumericIndexOutOfRange
    end.
Proof.
  intros Hi. unfold index_value. rewrite try_to_usize_exact_of_N by exact Hi.
  unfold nthN, lenN. destruct (N.leb_spec (N.of_nat (length s)) i) as [E|E].
  - replace (nth_error s (N.to_nat i)) with (@None N); [reflexivity|].
    symmetry. apply nth_error_None. lia.
  - destruct (nth_error s (N.to_nat i)); reflexivity.
Qed.

Lemma substr_of_N s a l : (a < 2 ^ 53)%N -> (l < 2 ^ 53)%N ->
  std_substr (VStr s) (VNum (f_of_N a)) (VNum (f_of_N l)) =
    Ok (VStr (firstn (N.to_nat l) (skipn (N.to_nat a) s))).
Proof.
  intros Ha Hl. unfold std_substr. cbn [want_str want_num obind].
  rewrite !not_integer_of_N, !f_neg_p_of_N, !sat_cast_of_N by assumption. cbn [orb].
  rewrite !N.min_l by (unfold usize_max; lia).
  unfold substr_cps, takeN, skipN, lenN. do 2 f_equal.
  destruct (N.leb_spec (N.of_nat (length s)) a) as [E1|E1].
  - rewrite (skipn_all2 s) by lia. cbn [length].
    destruct (N.of_nat 0 <=? l)%N; [|reflexivity]. rewrite firstn_nil. reflexivity.
  - destruct (N.leb_spec (N.of_nat (length (skipn (N.to_nat a) s))) l) as [E2|E2]; [|reflexivity].
    rewrite firstn_all2 by lia. reflexivity.
Qed.

Lemma lt_2p16_2p53 i : (i < 0x10000)%N -> (i < 2 ^ 53)%N.
Proof. change (2 ^ 53)%N with 9007199254740992%N. lia. Qed.
