(* Proofs/Radix_long_proofs.v — parse_num_radix on strings of any length: the sticky bit
   makes the result the nearest-even double of the whole integer. *)
From RJ Require Import Base.Outcome Base.F64 Model.Radix Proofs.Radix_float_proofs Proofs.Radix_round_proofs Proofs.Radix_proofs.
From Coq Require Import Lia ZArith Floats.SpecFloat.
Local Open Scope Z_scope.

Definition bits_per (radix : N) : Z := if (radix =? 8)%N then 3 else 4.

Lemma bits_per_range radix : 3 <= bits_per radix <= 4.
Proof. unfold bits_per. destruct (radix =? 8)%N; lia. Qed.

Lemma radix_pow2 radix : radix_ok radix -> Z.of_N radix = (2 ^ bits_per radix).
Proof. intros [->| ->]; reflexivity. Qed.

Lemma f_of_N_radix radix : radix_ok radix ->
  f_of_N radix = S754_finite false (Z.to_pos (2 ^ 52)) (bits_per radix - 52).
Proof. intros [->| ->]; vm_compute; reflexivity. Qed.

Lemma scale_inf radix j : radix_ok radix -> scale radix j (S754_infinity false) = S754_infinity false.
Proof.
  intros Hr. induction j as [|j IH]; [reflexivity|]. cbn [scale]. rewrite (f_of_N_radix radix Hr).
  exact IH.
Qed.

Lemma scale_finite radix : radix_ok radix -> forall j mx ex,
  (2 ^ 52 <= Z.pos mx < 2 ^ 53) -> (0 <= ex <= 971) ->
  scale radix j (S754_finite false mx ex) =
  if (ex + bits_per radix * Z.of_nat j <=? 971)
  then S754_finite false mx (ex + bits_per radix * Z.of_nat j) else S754_infinity false.
Proof.
  intros Hr. pose proof (bits_per_range radix) as Hb.
  induction j as [|j IH]; intros mx ex Hm He.
  - cbn [scale]. rewrite Z.mul_0_r, Z.add_0_r.
    replace (ex <=? 971) with true by (symmetry; apply Z.leb_le; lia). reflexivity.
  - cbn [scale]. rewrite (f_of_N_radix radix Hr).
    rewrite f_mul_pow2 by (try assumption; lia).
    replace (ex + (bits_per radix - 52) + 52) with (ex + bits_per radix) by lia.
    rewrite Nat2Z.inj_succ.
    destruct (ex + bits_per radix <=? 971) eqn:E.
    + apply Z.leb_le in E. rewrite IH by (try assumption; lia).
      replace (ex + bits_per radix + bits_per radix * Z.of_nat j)
        with (ex + bits_per radix * Z.succ (Z.of_nat j)) by lia. reflexivity.
    + apply Z.leb_gt in E. rewrite (scale_inf radix j Hr).
      replace (ex + bits_per radix * Z.succ (Z.of_nat j) <=? 971) with false by (symmetry; apply Z.leb_gt; nia).
      reflexivity.
Qed.

(* the rounding argument: a head nz of at least 55 bits with the sticky bit set when the
   tail tz is not zero, converted and then scaled by radix^j, is the double of the whole
   integer nz * radix^j + tz (infinity on both sides when that is too large) *)
Lemma scale_sticky radix j nz tz : radix_ok radix -> 0 < nz -> 55 <= Zdigits2 nz <= 128 ->
  0 <= tz < 2 ^ (bits_per radix * Z.of_nat j) ->
  scale radix j (f_of_Z (if tz =? 0 then nz else set_low nz)) =
  f_of_Z (nz * 2 ^ (bits_per radix * Z.of_nat j) + tz).
Proof.
  intros Hr Hnz HDn Htz. pose proof (bits_per_range radix) as Hb. set (b := bits_per radix) in *.
  set (n' := if tz =? 0 then nz else set_low nz).
  assert (Hn'pos : 0 < n').
  { unfold n'. destruct (tz =? 0); [lia|]. pose proof (set_low_bounds nz ltac:(lia)). lia. }
  assert (HDn' : Zdigits2 n' = Zdigits2 nz).
  { unfold n'. destruct (tz =? 0); [reflexivity|]. apply digits_set_low; lia. }
  destruct (big_result_shape n' Hn'pos ltac:(lia)) as [mx [ex [Hmx [Hex Hshape]]]].
  rewrite (f_of_Z_big n') by lia. rewrite Hshape, Z.add_0_l.
  replace (ex <=? 971) with true by (symmetry; apply Z.leb_le; lia).
  rewrite (scale_finite radix Hr j mx ex Hmx ltac:(lia)). fold b.
  rewrite f_of_Z_big.
  - rewrite (big_result_sticky false nz tz (b * Z.of_nat j) 0) by lia.
    fold n'. rewrite Hshape, Z.add_0_l, (Z.add_comm (b * Z.of_nat j) ex). reflexivity.
  - apply Z.add_pos_nonneg; [apply Z.mul_pos_pos; [exact Hnz|apply Z.pow_pos_nonneg; lia]|lia].
  - rewrite digits_scale by lia. lia.
Qed.

Local Open Scope N_scope.

Lemma value_app radix s1 s2 : 0 < radix -> Forall (valid radix) s1 -> Forall (valid radix) s2 ->
  value radix (s1 ++ s2) = value radix s1 * radix ^ N.of_nat (length s2) + value radix s2.
Proof.
  intros Hr H1 H2. unfold value at 1.
  assert (G : forall s acc, Forall (valid radix) s -> value_acc radix (s ++ s2) acc = value_acc radix s2 (value_acc radix s acc)).
  { induction s as [|c r IH]; intros acc Hv; [reflexivity|].
    destruct (valid_cons _ _ _ Hv) as (d & Ed & _ & Hr'). cbn [app value_acc]. rewrite Ed. now apply IH. }
  rewrite G by assumption. destruct (value_acc_lin radix Hr s2 (value_acc radix s1 0) H2) as [E _]. exact E.
Qed.

Lemma to_digit_zero radix c : to_digit radix c = Some 0 -> c = 48.
Proof.
  unfold to_digit.
  destruct ((48 <=? c) && (c <=? 57)) eqn:E1.
  - destruct (c - 48 <? radix); [|discriminate]. intros H. injection H as H.
    apply andb_prop in E1. destruct E1 as [E1 _]. apply N.leb_le in E1. lia.
  - destruct ((97 <=? c) && (c <=? 122)).
    + destruct (c - 97 + 10 <? radix); [|discriminate]. intros H. injection H as H. lia.
    + destruct ((65 <=? c) && (c <=? 90)); [|discriminate].
      destruct (c - 65 + 10 <? radix); [|discriminate]. intros H. injection H as H. lia.
Qed.

Lemma to_digit_48 radix : radix_ok radix -> to_digit radix 48 = Some 0.
Proof. intros [->| ->]; reflexivity. Qed.

Lemma value_trim radix s : radix_ok radix -> value radix (trim_zeros s) = value radix s.
Proof.
  intros Hr. induction s as [|c r IH]; [reflexivity|]. cbn [trim_zeros].
  destruct (c =? 48) eqn:E; [|reflexivity]. apply N.eqb_eq in E. subst c.
  rewrite IH. unfold value. cbn [value_acc]. rewrite (to_digit_48 radix Hr). reflexivity.
Qed.

Lemma trim_valid radix s : Forall (valid radix) s -> Forall (valid radix) (trim_zeros s).
Proof.
  induction s as [|c r IH]; intros H; [constructor|]. inversion H; subst. cbn [trim_zeros].
  destruct (c =? 48); [now apply IH|assumption].
Qed.

Lemma trim_head s c r : trim_zeros s = c :: r -> c <> 48.
Proof.
  induction s as [|x t IH]; [discriminate|]. cbn [trim_zeros]. destruct (x =? 48) eqn:E; [apply IH|].
  intros H. injection H as -> _. now apply N.eqb_neq.
Qed.

(* a digit string whose first digit is not zero denotes at least radix^(len-1) *)
Lemma value_lower radix c r : 0 < radix -> Forall (valid radix) (c :: r) -> c <> 48 ->
  radix ^ N.of_nat (length r) <= value radix (c :: r).
Proof.
  intros Hr Hv Hc. destruct (valid_cons _ _ _ Hv) as (d & Ed & _ & Hrv).
  unfold value. cbn [value_acc]. rewrite Ed.
  assert (Hd : 1 <= d). { destruct d; [apply to_digit_zero in Ed; contradiction|lia]. }
  destruct (value_acc_lin radix Hr r (0 * radix + d) Hrv) as [E _]. rewrite E. nia.
Qed.

Lemma split_chars_long s n : (n < length s)%nat ->
  length (fst (split_chars s n)) = n /\ snd (split_chars s n) <> [].
Proof.
  revert s. induction n as [|n IH]; intros s H.
  - destruct s; [cbn in H; lia|]. split; [reflexivity|discriminate].
  - destruct s as [|c r]; [cbn in H; lia|]. cbn [split_chars fst snd length].
    destruct (IH r) as [E N]; [cbn in H; lia|]. split; [now rewrite E|exact N].
Qed.

Lemma lor1_set_low n : Z.of_N (N.lor n 1) = set_low (Z.of_N n).
Proof.
  unfold set_low. destruct n as [|p]; [reflexivity|]. destruct p; reflexivity.
Qed.

Theorem radix_long_is_rne : forall radix s, radix_ok radix -> s <> [] -> Forall (valid radix) s ->
  parse_num_radix radix s =
    (if f_is_finite (f_of_N (value radix s)) then Ok (f_of_N (value radix s)) else Err ROverflow).
Proof.
  intros radix s Hr Hs Hv.
  assert (Hpos : 0 < radix) by (destruct Hr as [->| ->]; reflexivity).
  pose proof (trim_valid radix s Hv) as Hvt. rewrite <- (value_trim radix s Hr).
  set (k := N.to_nat (max_digits_128 radix)).
  destruct (le_lt_dec (length (trim_zeros s)) k) as [Hshort|Hlong].
  { destruct (radix_value_exact radix s Hr Hs Hvt Hshort) as [E B].
    now rewrite E, (f_of_N_finite_small _ B). }
  unfold parse_num_radix. destruct s as [|c0 s0]; [contradiction|].
  set (t := trim_zeros (c0 :: s0)) in *. fold k.
  pose proof (split_chars_app t k) as Happ. destruct (split_chars_long t k Hlong) as [Hlen Htl].
  set (hd := fst (split_chars t k)) in *. set (tl := snd (split_chars t k)) in *.
  assert (Hvhd : Forall (valid radix) hd /\ Forall (valid radix) tl) by (apply Forall_app; now rewrite Happ).
  destruct Hvhd as [Hvhd Hvtl].
  destruct (first_chunk_ok radix hd Hr Hvhd) as [E Bhd]; [lia|]. rewrite E. cbn [obind].
  rewrite (scan_rest_spec radix Hpos tl 0 false Hvtl). cbn [obind fst snd orb Nat.add].
  set (n := value radix hd) in *. set (tv := value radix tl).
  (* size of the first chunk: its leading digit is not zero *)
  assert (Hk : (1 <= k)%nat) by (unfold k; destruct Hr as [->| ->]; cbv; lia).
  assert (Hnlow : radix ^ N.of_nat (k - 1) <= n).
  { destruct hd as [|c r] eqn:Ehd; [cbn in Hlen; lia|].
    assert (Hc : c <> 48).
    { apply (trim_head (c0 :: s0) c (r ++ tl)). fold t. rewrite <- Happ. reflexivity. }
    pose proof (value_lower radix c r Hpos Hvhd Hc) as L. cbn [length] in Hlen.
    replace (k - 1)%nat with (length r) by lia. exact L. }
  rewrite Hlen in Bhd.
  destruct (value_acc_lin radix Hpos tl 0 Hvtl) as [_ Btv]. fold tv in Btv.
  assert (Evalue : value radix t = n * radix ^ N.of_nat (length tl) + tv).
  { rewrite <- Happ. now apply value_app. }
  rewrite Evalue.
  (* move to Z *)
  pose proof (bits_per_range radix) as Hb. set (b := bits_per radix) in *.
  set (j := Z.of_nat (length tl)).
  assert (Hj : (0 <= j)%Z) by (unfold j; lia).
  assert (Epow : forall x, Z.of_N (radix ^ N.of_nat x) = (2 ^ (b * Z.of_nat x))%Z).
  { intros x. rewrite N2Z.inj_pow, (radix_pow2 radix Hr). fold b. rewrite <- Z.pow_mul_r by lia.
    f_equal. lia. }
  set (nz := Z.of_N n). set (tz := Z.of_N tv).
  assert (Hnz_lo : (2 ^ (b * Z.of_nat (k - 1)) <= nz)%Z) by (unfold nz; rewrite <- Epow; lia).
  assert (Hnz_hi : (nz < 2 ^ (b * Z.of_nat k))%Z) by (unfold nz; rewrite <- Epow; lia).
  assert (Htz : (0 <= tz < 2 ^ (b * j))%Z) by (unfold tz, j; rewrite <- Epow; lia).
  assert (Hbk : (123 <= b * Z.of_nat (k - 1) /\ b * Z.of_nat k <= 128)%Z).
  { unfold b, k. destruct Hr as [->| ->]; cbv; split; discriminate. }
  assert (Hnz_pos : (0 < nz)%Z).
  { assert (0 < 2 ^ (b * Z.of_nat (k - 1)))%Z by (apply Z.pow_pos_nonneg; lia). lia. }
  assert (HDn : (123 < Zdigits2 nz <= 128)%Z).
  { apply zdigits2_range; [lia|lia|]. split.
    - etransitivity; [|exact Hnz_lo]. apply Z.pow_le_mono_r; lia.
    - eapply Z.lt_le_trans; [exact Hnz_hi|]. apply Z.pow_le_mono_r; lia. }
  (* the number fed to the conversion *)
  assert (En' : Z.of_N (if negb (tv =? 0) then N.lor n 1 else n) = (if (tz =? 0)%Z then nz else set_low nz)).
  { unfold tz. destruct (N.eqb_spec tv 0) as [->|Ht]; [reflexivity|]. cbn [negb].
    replace (Z.of_N tv =? 0)%Z with false by (symmetry; apply Z.eqb_neq; lia). apply lor1_set_low. }
  unfold f_of_N. rewrite En', N2Z.inj_add, N2Z.inj_mul, Epow. fold nz tz.
  rewrite scale_sticky by (try assumption; fold b j; lia). reflexivity.
Qed.
