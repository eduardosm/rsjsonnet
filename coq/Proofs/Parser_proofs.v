(* Proofs/Parser_proofs.v — the specification's precedence table on small inputs: every operator
   pair / unary / postfix combination is the printed form of a well-parenthesised tree, hence an
   instance of the round trip (Parser_rt5.roundtrip); the inputs that no tree prints to (slice
   layouts, `in super` followed by an operator, object-comprehension disambiguation, the rejected
   ones) are decided by computation.  Then: the native recursion depth is unbounded; left
   associativity for chains of any length. *)
From RJ Require Import Base.Outcome Model.Token Model.Ast Model.Parser Model.Print Proofs.Parser_rt5.
From Coq Require Import Lia.
Local Open Scope list_scope.
Local Open Scope N_scope.

Definition parse_tree (T : prec_table) (toks : list token) : outcome expr parse_error :=
  omap fst (parse T toks).

Definition idn (n : N) : ident := {| id_value := [n]; id_span := sp0 |}.
Definition atom (n : N) : expr := EIdent sp0 (idn n).
Definition atok (n : N) : token := tk (TIdent [n]).
Definition a_ := atom 97.
Definition b_ := atom 98.
Definition c_ := atom 99.
Definition ta := atok 97.
Definition tb := atok 98.
Definition tc := atok 99.

Definition bin (l : expr) (op : binary_op) (r : expr) : expr := EBinary sp0 l op r.
Definition un (op : unary_op) (x : expr) : expr := EUnary sp0 op x.

(* the specification: the operator of the tighter (numerically higher) level
   groups first; operators of the same level associate to the left *)
Definition grouping (op1 op2 : binary_op) : expr :=
  if (binop_level op2 <=? binop_level op1)%nat
  then bin (bin a_ op1 b_) op2 c_
  else bin a_ op1 (bin b_ op2 c_).

(* a span-free well-parenthesised tree is what its printed tokens parse to *)
Lemma parse_printed e toks : Print.wp e = true -> strip_spans e = e -> print_tokens e = toks ->
  parse_tree spec_prec toks = Ok e.
Proof. intros Hw Hs <-. rewrite <- Hs at 2. exact (roundtrip e Hw). Qed.

Lemma precedence_table : forall op1 op2 : binary_op,
  parse_tree spec_prec [ta; sim (binop_tok op1); tb; sim (binop_tok op2); tc; eof_tok]
  = Ok (grouping op1 op2).
Proof.
  intros op1 op2. unfold grouping.
  destruct (binop_level op2 <=? binop_level op1)%nat eqn:E; apply parse_printed; try reflexivity.
  - (* op2 is not tighter: `a op1 b` may stand as the left operand of op2 *)
    unfold Print.wp, bin. cbn [wpx]. rewrite E. reflexivity.
  - (* op2 is tighter: `b op2 c` may stand as the right operand of op1 *)
    apply Nat.leb_gt, Nat.leb_le in E. unfold Print.wp, bin. cbn [wpx]. rewrite E. reflexivity.
Qed.

(* unary operators bind tighter than every binary operator, on either side *)
Lemma unary_binds_tighter : forall (u : unary_op) (op : binary_op),
  parse_tree spec_prec [sim (unop_tok u); ta; sim (binop_tok op); tb; eof_tok]
    = Ok (bin (un u a_) op b_) /\
  parse_tree spec_prec [ta; sim (binop_tok op); sim (unop_tok u); tb; eof_tok]
    = Ok (bin a_ op (un u b_)).
Proof. intros u op. split; apply parse_printed; destruct op; reflexivity. Qed.

Lemma unary_nests : forall u1 u2 : unary_op,
  parse_tree spec_prec [sim (unop_tok u1); sim (unop_tok u2); ta; eof_tok] = Ok (un u1 (un u2 a_)).
Proof. intros u1 u2. apply parse_printed; reflexivity. Qed.

(* postfix forms bind tighter than unary and binary operators *)
Inductive postfix := PfField | PfIndex | PfSlice | PfCall | PfCallTs | PfObjExt.
Definition postfix_toks (p : postfix) : list token :=
  match p with
  | PfField => [sim SDot; atok 102]
  | PfIndex => [sim SLeftBracket; tc; sim SRightBracket]
  | PfSlice => [sim SLeftBracket; tc; sim SColon; sim SRightBracket]
  | PfCall => [sim SLeftParen; tc; sim SRightParen]
  | PfCallTs => [sim SLeftParen; tc; sim SRightParen; sim KTailstrict]
  | PfObjExt => [sim SLeftBrace; sim SRightBrace]
  end.
Definition postfix_on (p : postfix) (x : expr) : expr :=
  match p with
  | PfField => EField sp0 x (idn 102)
  | PfIndex => EIndex sp0 x c_
  | PfSlice => ESlice sp0 x (Some c_) None None
  | PfCall => ECall sp0 x [APositional c_] false
  | PfCallTs => ECall sp0 x [APositional c_] true
  | PfObjExt => EObjExt sp0 x (OMembers []) sp0
  end.

Lemma postfix_binds_tightest : forall (p : postfix) (u : unary_op) (op : binary_op),
  parse_tree spec_prec (sim (unop_tok u) :: ta :: postfix_toks p ++ [eof_tok])
    = Ok (un u (postfix_on p a_)) /\
  parse_tree spec_prec (ta :: sim (binop_tok op) :: tb :: postfix_toks p ++ [eof_tok])
    = Ok (bin a_ op (postfix_on p b_)) /\
  parse_tree spec_prec (ta :: postfix_toks p ++ sim (binop_tok op) :: tb :: [eof_tok])
    = Ok (bin (postfix_on p a_) op b_).
Proof. intros p u op. repeat split; apply parse_printed; destruct p; reflexivity. Qed.

Lemma postfix_chain : forall p1 p2 : postfix,
  parse_tree spec_prec (ta :: postfix_toks p1 ++ postfix_toks p2 ++ [eof_tok])
    = Ok (postfix_on p2 (postfix_on p1 a_)).
Proof. intros p1 p2. apply parse_printed; destruct p1, p2; reflexivity. Qed.

Definition is_err {A E} (o : outcome A E) : bool := match o with Err _ => true | _ => false end.

(* `e in super` is a postfix form of the `<`-level; `in super.f` / `in super[e]` are the binary `in` *)
Definition insup (x : expr) : expr := EInSuper sp0 x sp0.
Lemma in_super_form : forall op : binary_op,
  parse_tree spec_prec [ta; sim KIn; sim KSuper; eof_tok] = Ok (insup a_) /\
  parse_tree spec_prec [ta; sim KIn; sim KSuper; sim SDot; tb; eof_tok]
    = Ok (bin a_ BIn (ESuperField sp0 sp0 (idn 98))) /\
  parse_tree spec_prec [ta; sim KIn; sim KSuper; sim SLeftBracket; tb; sim SRightBracket; eof_tok]
    = Ok (bin a_ BIn (ESuperIndex sp0 sp0 b_)) /\
  parse_tree spec_prec [ta; sim (binop_tok op); tb; sim KIn; sim KSuper; eof_tok]
    = Ok (if (binop_level op <? lv_ordcmp)%nat then bin a_ op (insup b_) else insup (bin a_ op b_)) /\
  (if (binop_level op <=? lv_ordcmp)%nat
   then parse_tree spec_prec [ta; sim KIn; sim KSuper; sim (binop_tok op); tb; eof_tok] = Ok (bin (insup a_) op b_)
   else is_err (parse_tree spec_prec [ta; sim KIn; sim KSuper; sim (binop_tok op); tb; eof_tok]) = true).
Proof. intros op; destruct op; vm_compute; repeat split; reflexivity. Qed.

(* index and the 12 slice layouts (`::` may be one token or two) *)
Definition sl (a b c : option expr) : outcome expr parse_error := Ok (ESlice sp0 a_ a b c).
Definition idx (l : list token) : outcome expr parse_error :=
  parse_tree spec_prec (ta :: sim SLeftBracket :: l ++ [sim SRightBracket; eof_tok]).
Definition t1 := atok 120.  Definition e1 := atom 120.
Definition t2 := atok 121.  Definition e2 := atom 121.
Definition t3 := atok 122.  Definition e3 := atom 122.
Definition co := sim SColon.
Definition cc := sim SColonColon.

Lemma slice_layouts :
  idx [t1] = Ok (EIndex sp0 a_ e1) /\
  idx [co] = sl None None None /\
  idx [co; co] = sl None None None /\          idx [cc] = sl None None None /\
  idx [t1; co] = sl (Some e1) None None /\
  idx [t1; co; co] = sl (Some e1) None None /\  idx [t1; cc] = sl (Some e1) None None /\
  idx [co; t2] = sl None (Some e2) None /\
  idx [co; t2; co] = sl None (Some e2) None /\
  idx [t1; co; t2] = sl (Some e1) (Some e2) None /\
  idx [t1; co; t2; co] = sl (Some e1) (Some e2) None /\
  idx [co; co; t3] = sl None None (Some e3) /\  idx [cc; t3] = sl None None (Some e3) /\
  idx [t1; co; co; t3] = sl (Some e1) None (Some e3) /\ idx [t1; cc; t3] = sl (Some e1) None (Some e3) /\
  idx [co; t2; co; t3] = sl None (Some e2) (Some e3) /\
  idx [t1; co; t2; co; t3] = sl (Some e1) (Some e2) (Some e3).
Proof. vm_compute. repeat split; reflexivity. Qed.

(* object body: one `[e]: v` field with default visibility (and object locals) followed by
   `for` is a comprehension; anything else is a member list *)
Definition obj (l : list token) : outcome expr parse_error :=
  parse_tree spec_prec (sim SLeftBrace :: l ++ [sim SRightBrace; eof_tok]).
Definition dynf (k v : N) (vis : stoken) : list token := [sim SLeftBracket; atok k; sim SRightBracket; sim vis; atok v].
Definition forspec : list token := [sim KFor; atok 120; sim KIn; atok 121].
Definition fval (k v : N) (plus : bool) (vis : visibility) : member :=
  MField (FValue (FnExpr (atom k) sp0) plus vis (atom v)).
Definition lbind (n v : N) : bind := MkBind (idn n) None (atom v).

Lemma objcomp_disambiguation :
  obj (dynf 97 98 SColon ++ forspec)
    = Ok (EObject sp0 (OComp [] a_ false b_ [] [CFor (idn 120) (atom 121)])) /\
  obj (dynf 97 98 SPlusColon ++ sim SComma :: forspec)
    = Ok (EObject sp0 (OComp [] a_ true b_ [] [CFor (idn 120) (atom 121)])) /\
  obj ([sim KLocal; atok 108; sim SEq; atok 109; sim SComma] ++ dynf 97 98 SColon ++
       [sim SComma; sim KLocal; atok 110; sim SEq; atok 111] ++ forspec ++ [sim KIf; tc])
    = Ok (EObject sp0 (OComp [lbind 108 109] a_ false b_ [lbind 110 111] [CFor (idn 120) (atom 121); CIf c_])) /\
  obj (dynf 97 98 SColon) = Ok (EObject sp0 (OMembers [fval 97 98 false VisDefault])) /\
  obj (dynf 97 98 SColon ++ sim SComma :: dynf 99 100 SColon)
    = Ok (EObject sp0 (OMembers [fval 97 98 false VisDefault; fval 99 100 false VisDefault])) /\
  is_err (obj (dynf 97 98 SColon ++ sim SComma :: dynf 99 100 SColon ++ forspec)) = true /\
  is_err (obj (dynf 97 98 SColonColon ++ forspec)) = true /\
  is_err (obj ([ta; sim SColon; tb] ++ forspec)) = true /\
  is_err (obj ([sim KAssert; tc; sim SComma] ++ dynf 97 98 SColon ++ forspec)) = true.
Proof. vm_compute. repeat split; reflexivity. Qed.

(* Native recursion depth, by controlled symbolic execution: the monad laws used as rewrite
   rules, so that only closed sub-computations (one primitive on a state whose current token
   is known) are ever evaluated. *)

Lemma bindP_ok {A B} (m : P A) (f : A -> P B) s a s' : m s = Ok (a, s') -> bindP m f s = f a s'.
Proof. intros H; unfold bindP; rewrite H; reflexivity. Qed.
Lemma orelse_hit {A B} (m : P (option A)) (f : A -> P B) k s a s' :
  m s = Ok (Some a, s') -> orelse m f k s = f a s'.
Proof. intros H; unfold orelse; rewrite H; reflexivity. Qed.
Lemma orelse_miss {A B} (m : P (option A)) (f : A -> P B) k s s' :
  m s = Ok (None, s') -> orelse m f k s = k tt s'.
Proof. intros H; unfold orelse; rewrite H; reflexivity. Qed.

Definition mk (c : token) (r : list token) (ex : list expected) (dc dm : N) : pst :=
  {| cur := c; rest := r; exps := ex; dcur := dc; dmax := dm |}.

Lemma mk_span_sp0 (b : span) s : mk_span sp0 b s = Ok ((0, snd b), s).
Proof. unfold mk_span; cbn [fst sp0]. destruct (snd b); reflexivity. Qed.

Definition one : token := tk (TNumber {| num_digits := [49]; num_exp := 0%Z |}).

(* `error error … error 1`: n nested native calls of parse_expr *)
Fixpoint err_chain (n : nat) : list token :=
  match n with O => [one; eof_tok] | S k => sim KError :: err_chain k end.

Lemma err_chain_cons n : exists t r, err_chain n = t :: r.
Proof. destruct n; cbn; eauto. Qed.

Lemma err_chain_length n : List.length (err_chain n) = (n + 2)%nat.
Proof. induction n; cbn; lia. Qed.

(* the computation stops at the final end-of-file token, back at the depth [dc] it started
   from, and the deepest level reached is at least [B] *)
Definition ends_deep (dc B : N) (o : outcome (expr * pst) parse_error) : Prop :=
  exists x ex dm, o = Ok (x, mk eof_tok [] ex dc dm) /\ B <= dm.

Lemma ends_deep_le dc B B' o : B <= B' -> ends_deep dc B' o -> ends_deep dc B o.
Proof. intros Hle (x & ex & dm & Ho & Hb). exists x, ex, dm. split; [exact Ho|lia]. Qed.

Lemma call_deep m c r ex dc dm B :
  ends_deep (N.succ dc) B (m (mk c r ex (N.succ dc) (N.max dm (N.succ dc)))) ->
  ends_deep dc B (call m (mk c r ex dc dm)).
Proof.
  intros (x & ex' & dm' & Ho & Hb). exists x, ex', dm'. split; [|exact Hb].
  unfold call. cbn [cur rest exps dcur dmax mk]. unfold mk in Ho. rewrite Ho. reflexivity.
Qed.

Section NativeDepth.
  Variable pexpr : P expr.
  Variable lf : nat.
  Notation T := spec_prec.

  Definition lhs10 : list stack_item :=
    [SiBinaryLhs LvMul; SiBinaryLhs LvAdd; SiBinaryLhs LvShift; SiBinaryLhs LvOrdCmp; SiBinaryLhs LvEqCmp;
     SiBinaryLhs LvBitwiseAnd; SiBinaryLhs LvBitwiseXor; SiBinaryLhs LvBitwiseOr; SiBinaryLhs LvLogicAnd;
     SiBinaryLhs LvLogicOr].

  (* on `error`: ten binary levels and the unary level are entered, the token is eaten,
     and the operand is parsed by the recursive call inside prefix_form *)
  Lemma pe_error_head lf' f t r ex dc dm : exists dm',
    pe_loop T pexpr lf' (12 + f) (init_state T) [] (mk (sim KError) (t :: r) ex dc dm)
    = bindP (prefix_form pexpr sp0 EError) (fun x => pe_loop T pexpr lf' f (StParsed x) (SiSuffix :: lhs10))
            (mk t r [] dc dm').
  Proof.
    eexists.
    transitivity (pe_loop T pexpr lf' (S f) StPrimary (SiSuffix :: lhs10) (mk (sim KError) (t :: r) ex dc dm));
      [reflexivity|].
    cbn [pe_loop].
    repeat (erewrite orelse_miss by (cbv -[N.succ N.max]; reflexivity)).
    erewrite orelse_hit by (cbv -[N.succ N.max]; reflexivity).
    reflexivity.
  Qed.

  Lemma pe_unwind_eof f x ex dc dm :
    ends_deep dc dm (pe_loop T pexpr (S lf) (22 + f) (StParsed x) (SiSuffix :: lhs10) (mk eof_tok [] ex dc dm)).
  Proof. eexists. eexists. eexists. split; [cbv -[N.succ N.max]; reflexivity|lia]. Qed.

  Lemma pe_number f ex dc dm :
    ends_deep dc dm (pe_loop T pexpr (S lf) (35 + f) (init_state T) [] (mk one [eof_tok] ex dc dm)).
  Proof. eexists. eexists. eexists. split; [cbv -[N.succ N.max]; reflexivity|lia]. Qed.

  (* one `error` level, given what the recursive call answers *)
  Lemma pe_error_level f t r ex dc dm B :
    (forall dm1, ends_deep dc B (pexpr (mk t r [] dc dm1))) ->
    ends_deep dc B (pe_loop T pexpr (S lf) (34 + f) (init_state T) [] (mk (sim KError) (t :: r) ex dc dm)).
  Proof.
    intros Hrec. destruct (pe_error_head (S lf) (22 + f) t r ex dc dm) as (dm1 & Hhead).
    destruct (Hrec dm1) as (x & ex2 & dm2 & Hp & Hb).
    change (34 + f)%nat with (12 + (22 + f))%nat. rewrite Hhead. unfold prefix_form.
    erewrite bindP_ok by (erewrite bindP_ok by exact Hp; erewrite bindP_ok by apply mk_span_sp0; reflexivity).
    exact (ends_deep_le dc B dm2 _ Hb (pe_unwind_eof f _ ex2 dc dm2)).
  Qed.
End NativeDepth.

Lemma parse_expr_unfold T f s :
  parse_expr T (S f) s = call (pe_loop T (parse_expr T f) f f (init_state T) []) s.
Proof. reflexivity. Qed.

(* every call of parse_expr passes its fuel less one to the inner parser, to the inner loops and
   to pe_loop, which needs 35 steps for the number and 34 for an `error` level *)
Lemma err_chain_depth : forall n f t r ex dc dm, err_chain n = t :: r ->
  ends_deep dc (dc + N.of_nat n + 1) (parse_expr spec_prec (37 + (n + f)) (mk t r ex dc dm)).
Proof.
  induction n as [|n IH]; intros f t r ex dc dm Hc; injection Hc as <- <-.
  - change (37 + (0 + f))%nat with (S (S (35 + f))). rewrite parse_expr_unfold. apply call_deep.
    eapply ends_deep_le; [|exact (pe_number (parse_expr spec_prec (S (35 + f))) (35 + f) (S f) ex _ _)]. lia.
  - destruct (err_chain_cons n) as (t' & r' & Hc'). rewrite Hc'.
    change (37 + (S n + f))%nat with (S (S (35 + (S n + f)))). rewrite parse_expr_unfold. apply call_deep.
    apply (ends_deep_le _ _ (N.succ dc + N.of_nat n + 1)); [lia|].
    apply (pe_error_level (parse_expr spec_prec (S (35 + (S n + f)))) (35 + (S n + f)) (2 + (S n + f))).
    intros dm1. change (S (35 + (S n + f)))%nat with (37 + (n + f))%nat. exact (IH f t' r' [] _ dm1 Hc').
Qed.

(* the Rust parser recurses natively once per `error` (likewise per `{a:`, `local`, `if`,
   `function`, …): no finite native stack suffices *)
Lemma native_depth_unbounded : forall n : N, exists toks e d,
  parse spec_prec toks = Ok (e, d) /\ n <= d.
Proof.
  intros n. exists (err_chain (N.to_nat n)).
  destruct (err_chain_cons (N.to_nat n)) as (t & r & Hc).
  unfold parse, default_fuel, parse_fuel. rewrite err_chain_length, Hc.
  replace (64 * (N.to_nat n + 2 + 2))%nat with (37 + (N.to_nat n + (63 * N.to_nat n + 219)))%nat by lia.
  destruct (err_chain_depth _ (63 * N.to_nat n + 219) t r [] 0 0 Hc) as (x & ex' & dm' & Hp & Hd).
  unfold parse_root_expr. erewrite bindP_ok by exact Hp.
  exists x, dm'. split; [reflexivity|lia].
Qed.

Example native_depth_objects :
  (* `{a:{a:{a:1}}}`: three native recursions through parse_obj_inside / maybe_parse_field *)
  let o := [sim SLeftBrace; atok 97; sim SColon] in
  omap snd (parse spec_prec (o ++ o ++ o ++ [one; sim SRightBrace; sim SRightBrace; sim SRightBrace; eof_tok]))
  = Ok 11.
Proof. vm_compute. reflexivity. Qed.

(* left associativity: `a op a op … op a` is the left-nested tree, which is well parenthesised
   and prints to the chain; [left_assoc_goal] is the statement for arbitrary length *)
Fixpoint chain_ops (op : binary_op) (n : nat) : list token :=
  match n with O => [] | S k => sim (binop_tok op) :: ta :: chain_ops op k end.
Definition chain_toks (op : binary_op) (n : nat) : list token := ta :: chain_ops op n ++ [eof_tok].
Fixpoint chain_tree (op : binary_op) (n : nat) : expr :=
  match n with O => a_ | S k => bin (chain_tree op k) op a_ end.

Definition left_assoc_goal : Prop := forall op n,
  parse_tree spec_prec (chain_toks op n) = Ok (chain_tree op n).

Lemma chain_ops_snoc op n : chain_ops op n ++ [sim (binop_tok op); ta] = sim (binop_tok op) :: ta :: chain_ops op n.
Proof. induction n as [|n IH]; [reflexivity|]. cbn [chain_ops app]. rewrite IH. reflexivity. Qed.

Lemma chain_print op n : print_expr (chain_tree op n) = ta :: chain_ops op n.
Proof.
  induction n as [|n IH]; [reflexivity|].
  cbn [chain_tree]. unfold bin. cbn [print_expr]. rewrite IH.
  change (print_expr a_) with [ta]. cbn [app]. f_equal. apply chain_ops_snoc.
Qed.

Lemma chain_wp_lhs op n : wpx (binop_level op) false (chain_tree op n) = true.
Proof.
  induction n as [|n IH]; [reflexivity|]. cbn [chain_tree]. unfold bin. cbn [wpx]. rewrite IH.
  rewrite Nat.leb_refl. reflexivity.
Qed.

Lemma chain_wp op n : Print.wp (chain_tree op n) = true.
Proof.
  destruct n as [|n]; [reflexivity|]. unfold Print.wp. cbn [chain_tree]. unfold bin. cbn [wpx].
  rewrite chain_wp_lhs. reflexivity.
Qed.

Lemma chain_strip op n : strip_spans (chain_tree op n) = chain_tree op n.
Proof.
  induction n as [|n IH]; [reflexivity|]. cbn [chain_tree]. unfold bin. cbn [strip_spans]. rewrite IH. reflexivity.
Qed.

Theorem left_assoc_chains : left_assoc_goal.
Proof.
  intros op n. apply parse_printed; [apply chain_wp|apply chain_strip|].
  unfold print_tokens. rewrite chain_print. reflexivity.
Qed.

Lemma left_assoc_bounded : forall op n, (n <= 8)%nat ->
  parse_tree spec_prec (chain_toks op n) = Ok (chain_tree op n).
Proof. intros op n _. apply left_assoc_chains. Qed.
