(* Proofs/RefSem_proofs.v — the C02 reference interpreter is monotone in fuel and in the stack limit.

   Every computation in the monad [M] is monotone in the recursive knot and in
   the stack limit: a result that is not the "bad" one of the mode (OutOfFuel
   for more fuel, StackOverflow for a larger limit) is reproduced unchanged.
   One lemma per definition of RefEval.v, proved along its syntax ([mono_tac]).
   Where a definition is one big case distinction, the proof splits on the
   arguments while the definition is still folded and unfolds it afterwards:
   each case then reduces to its own branch instead of carrying all of them. *)
From RJ Require Import Base.Outcome Base.F64 Model.Token Model.Ast Model.RefCore Model.RefValue Model.RefEval.
From Coq Require Import Lia.
Local Open Scope N_scope.

Lemma run_deterministic : forall fuel c e r1 r2, run fuel c e = r1 -> run fuel c e = r2 -> r1 = r2.
Proof. intros * H1 H2. rewrite <- H1, <- H2. reflexivity. Qed.

Inductive mode := MFuel | MLimit.

Definition bad_out {A} (m : mode) (o : outcome A err) : bool :=
  match m, o with
  | MFuel, OutOfFuel => true
  | MLimit, Err EStackOverflow => true
  | _, _ => false
  end.

Definition res_le {A} (m : mode) (r1 r2 : res A) : Prop := bad_out m (snd r1) = false -> r2 = r1.

Definition cfg_le (m : mode) (c1 c2 : cfg) : Prop :=
  c_bfs c1 = c_bfs c2 /\ c_ts_tail c1 = c_ts_tail c2 /\
  match m with MFuel => c_limit c1 = c_limit c2 | MLimit => c_limit c1 <= c_limit c2 end.

Definition rec_le (m : mode) (r1 r2 : recfn) : Prop := forall t d, res_le m (r1 t d) (r2 t d).

Definition mono {A} (x : M A) : Prop :=
  forall m c1 c2 r1 r2, cfg_le m c1 c2 -> rec_le m r1 r2 -> res_le m (x c1 r1) (x c2 r2).

Lemma mono_ret {A} (a : A) : mono (ret a).
Proof. intros m c1 c2 r1 r2 _ _ _. reflexivity. Qed.

Lemma mono_lift {A} (o : outcome A err) : mono (lift o).
Proof. intros m c1 c2 r1 r2 _ _ _. reflexivity. Qed.

Lemma mono_fail {A} (e : err) : mono (@fail A e).
Proof. apply mono_lift. Qed.

Lemma mono_kind {A} s : mono (@kind A s).
Proof. apply mono_lift. Qed.

Lemma mono_unsupported {A} s : mono (@unsupported A s).
Proof. apply mono_lift. Qed.

Lemma mono_argtype {A} : mono (@argtype A).
Proof. apply mono_lift. Qed.

Lemma mono_emit s : mono (emit s).
Proof. intros m c1 c2 r1 r2 _ _ _. reflexivity. Qed.

Lemma mono_ask_bfs : mono ask_bfs.
Proof. intros m c1 c2 r1 r2 (H & _) _ _. unfold ask_bfs. rewrite H. reflexivity. Qed.

Lemma mono_ask_ts_tail : mono ask_ts_tail.
Proof. intros m c1 c2 r1 r2 (_ & H & _) _ _. unfold ask_ts_tail. rewrite H. reflexivity. Qed.

Lemma mono_call t d : mono (call t d).
Proof. intros m c1 c2 r1 r2 _ H. apply H. Qed.

Lemma mono_enter d : mono (enter d).
Proof.
  intros m c1 c2 r1 r2 (_ & _ & H) _. unfold enter, res_le.
  destruct (c_limit c1 <? d + 1) eqn:E1; destruct m; simpl; intros Hb; try discriminate.
  - rewrite <- H, E1. reflexivity.
  - rewrite <- H, E1. reflexivity.
  - apply N.ltb_ge in E1. assert (E2 : c_limit c2 <? d + 1 = false) by (apply N.ltb_ge; lia).
    rewrite E2. reflexivity.
Qed.

Lemma mono_bind {A B} (x : M A) (k : A -> M B) : mono x -> (forall a, mono (k a)) -> mono (bind x k).
Proof.
  intros Hx Hk m c1 c2 r1 r2 Hc Hr. unfold bind, res_le.
  specialize (Hx m c1 c2 r1 r2 Hc Hr). unfold res_le in Hx.
  destruct (x c1 r1) as [t o] eqn:E1. destruct o as [a | e | s |]; simpl in *.
  - assert (Hok : bad_out m (@Ok A err a) = false) by (destruct m; reflexivity).
    rewrite (Hx Hok).
    specialize (Hk a m c1 c2 r1 r2 Hc Hr). unfold res_le in Hk.
    destruct (k a c1 r1) as [t2 o2] eqn:E2. simpl in *. intros Hb. rewrite (Hk Hb). reflexivity.
  - intros Hb. rewrite (Hx Hb). reflexivity.
  - intros Hb. assert (Hb' : bad_out m (@Panic A err s) = false) by (destruct m; reflexivity).
    rewrite (Hx Hb'). reflexivity.
  - intros Hb. assert (Hb' : bad_out m (@OutOfFuel A err) = false) by (destruct m; [discriminate Hb | reflexivity]).
    rewrite (Hx Hb'). reflexivity.
Qed.

Lemma mono_mapM {A B} (f : A -> M B) l : (forall a, mono (f a)) -> mono (mapM f l).
Proof.
  intros Hf. induction l as [|x r IH]; simpl.
  - apply mono_ret.
  - apply mono_bind; [apply Hf|]. intros y. apply mono_bind; [apply IH|]. intros ys. apply mono_ret.
Qed.

Lemma mono_iterM {A} (f : A -> M unit) l : (forall a, mono (f a)) -> mono (iterM f l).
Proof.
  intros Hf. induction l as [|x r IH]; simpl.
  - apply mono_ret.
  - apply mono_bind; [apply Hf|]. intros _. apply IH.
Qed.

Lemma mono_with_super en k : (forall ls i, mono (k ls i)) -> mono (with_super en k).
Proof. intros H. unfold with_super. destruct (lookup_obj en) as [[[ls i] chk]|]; [apply H | apply mono_fail]. Qed.
Lemma mono_int2 a b k : (forall x y, mono (k x y)) -> mono (int2 a b k).
Proof. intros H. unfold int2. destruct (safe_int a); [destruct (safe_int b); [apply H|] |]; apply mono_kind. Qed.

(* The constants of the interpreter are opaque to the hint base: a goal [mono (f ..)] is matched by the
   head [f] against the one lemma about [f], never by unfolding some other definition. *)
Create HintDb mono discriminated.
#[export] Hint Constants Opaque : mono.
#[export] Hint Resolve mono_ret mono_lift mono_fail mono_kind mono_unsupported mono_argtype mono_emit mono_ask_bfs
  mono_ask_ts_tail mono_call mono_enter : mono.

(* One step along the syntax of a computation: a bind, an iteration, a case distinction, or a call of a
   definition whose lemma is already in the hint base (or is the induction hypothesis). *)
Ltac mono_step :=
  match goal with
  | |- mono (bind _ _) => apply mono_bind; [| intros ?]
  | |- mono (mapM _ _) => apply mono_mapM; intros ?
  | |- mono (iterM _ _) => apply mono_iterM; intros ?
  | |- mono (with_super _ _) => apply mono_with_super; intros ? ?
  | |- mono (int2 _ _ _) => apply mono_int2; intros ? ?
  | |- mono (match ?x with _ => _ end) => destruct x
  | |- mono (if ?b then _ else _) => destruct b
  | |- mono _ => solve [auto with mono]
  end.
Ltac mono_tac := repeat mono_step.

Lemma mono_as_val a : mono (as_val a). Proof. unfold as_val. mono_tac. Qed.
Lemma mono_as_bool a : mono (as_bool a). Proof. unfold as_bool. mono_tac. Qed.
Lemma mono_as_cmp a : mono (as_cmp a). Proof. unfold as_cmp. mono_tac. Qed.
Lemma mono_as_json a : mono (as_json a). Proof. unfold as_json. mono_tac. Qed.
#[export] Hint Resolve mono_as_val mono_as_bool mono_as_cmp mono_as_json : mono.

Lemma mono_eval e x d : mono (eval e x d). Proof. unfold eval. mono_tac. Qed.
Lemma mono_forceT t d : mono (forceT t d). Proof. unfold forceT. mono_tac. Qed.
Lemma mono_apply f p n b d : mono (apply f p n b d). Proof. unfold apply. mono_tac. Qed.
Lemma mono_applyf f p d : mono (applyf f p d). Proof. unfold applyf. apply mono_apply. Qed.
Lemma mono_field_at ls f n d : mono (field_at ls f n d). Proof. unfold field_at. mono_tac. Qed.
Lemma mono_equals a b d : mono (equals a b d). Proof. unfold equals. mono_tac. Qed.
Lemma mono_compare a b d : mono (compare a b d). Proof. unfold compare. mono_tac. Qed.
Lemma mono_manifest s v d : mono (manifest s v d). Proof. unfold manifest. mono_tac. Qed.
#[export] Hint Resolve mono_eval mono_forceT mono_apply mono_applyf mono_field_at mono_equals mono_compare mono_manifest : mono.

Lemma mono_render_m j : mono (render_m j). Proof. unfold render_m. mono_tac. Qed.
#[export] Hint Resolve mono_render_m : mono.
Lemma mono_to_string v d : mono (to_string v d). Proof. unfold to_string. mono_tac. Qed.
#[export] Hint Resolve mono_to_string : mono.
Lemma mono_un_op op v : mono (un_op op v). Proof. destruct op, v; unfold un_op; mono_tac. Qed.
Lemma mono_num_bin op a b : mono (num_bin op a b).
Proof. destruct op; unfold num_bin; mono_tac. Qed.
#[export] Hint Resolve mono_un_op mono_num_bin : mono.
Lemma mono_add_vals l r d : mono (add_vals l r d). Proof. destruct l, r; unfold add_vals; mono_tac. Qed.
#[export] Hint Resolve mono_add_vals : mono.

(* [bin_op] on operands that are not both numbers *)
Definition bin_op_other (op : binary_op) (l r : value) (d : N) : M value :=
  match op with
  | BAdd => add_vals l r d
  | BRem => match l with VStr _ => unsupported "std.format" | _ => kind "InvalidBinaryOpTypes" end
  | BIn => match l, r with
           | VStr s, VObj ls _ => ret (VBool (has_field ls 0 s))
           | _, _ => kind "InvalidBinaryOpTypes"
           end
  | _ => kind "InvalidBinaryOpTypes"
  end.

Lemma bin_op_cases op l r d :
  bin_op op l r d = match l, r with VNum a, VNum b => num_bin op a b | _, _ => bin_op_other op l r d end.
Proof. reflexivity. Qed.

Lemma mono_bin_op_other op l r d : mono (bin_op_other op l r d). Proof. unfold bin_op_other. mono_tac. Qed.
#[export] Hint Resolve mono_bin_op_other : mono.
Lemma mono_bin_op op l r d : mono (bin_op op l r d). Proof. rewrite bin_op_cases. mono_tac. Qed.
#[export] Hint Resolve mono_bin_op : mono.

Lemma mono_run_assert en a d : mono (run_assert en a d). Proof. unfold run_assert. mono_tac. Qed.
#[export] Hint Resolve mono_run_assert : mono.
Lemma mono_run_layer_asserts ls rest i d : mono (run_layer_asserts ls rest i d).
Proof. induction rest in i |- *; simpl; mono_tac. Qed.
#[export] Hint Resolve mono_run_layer_asserts : mono.
Lemma mono_run_asserts ls c d : mono (run_asserts ls c d). Proof. unfold run_asserts. mono_tac. Qed.
#[export] Hint Resolve mono_run_asserts : mono.
Lemma mono_missing_field {A} ls n : mono (@missing_field A ls n). Proof. unfold missing_field. mono_tac. Qed.
#[export] Hint Resolve mono_missing_field : mono.
Lemma mono_get_field ls c n d : mono (get_field ls c n d). Proof. unfold get_field. mono_tac. Qed.
#[export] Hint Resolve mono_get_field : mono.
Lemma mono_do_field ls f n d : mono (do_field ls f n d). Proof. unfold do_field. mono_tac. Qed.
Lemma mono_super_field en n d : mono (super_field en n d).
Proof. unfold super_field. mono_tac. Qed.
#[export] Hint Resolve mono_do_field mono_super_field : mono.

Lemma mono_field_name_of v : mono (field_name_of v). Proof. unfold field_name_of. mono_tac. Qed.
Lemma mono_add_field acc on f : mono (add_field acc on f). Proof. unfold add_field. mono_tac. Qed.
#[export] Hint Resolve mono_field_name_of mono_add_field : mono.
Lemma mono_build_fields en fs acc d : mono (build_fields en fs acc d).
Proof. induction fs in acc |- *; simpl; mono_tac. Qed.
#[export] Hint Resolve mono_build_fields : mono.

Lemma mono_expand_for x vs vals : mono (expand_for x vs vals).
Proof. induction vs in vals |- *; simpl; mono_tac. Qed.
Lemma mono_filter_if vs vals : mono (filter_if vs vals).
Proof. induction vs in vals |- *; simpl; mono_tac. Qed.
#[export] Hint Resolve mono_expand_for mono_filter_if : mono.
Lemma mono_comp_bfs en specs vs d : mono (comp_bfs en specs vs d).
Proof. induction specs in vs |- *; simpl; mono_tac. Qed.
Lemma mono_comp_dfs en specs v d : mono (comp_dfs en specs v d).
Proof. induction specs in v |- *; simpl; mono_tac. Qed.
#[export] Hint Resolve mono_comp_bfs mono_comp_dfs : mono.
Lemma mono_comp_envs en specs d : mono (comp_envs en specs d). Proof. unfold comp_envs. mono_tac. Qed.
#[export] Hint Resolve mono_comp_envs : mono.
Lemma mono_build_comp_fields envs n p b acc d : mono (build_comp_fields envs n p b acc d).
Proof. induction envs in acc |- *; simpl; mono_tac. Qed.
#[export] Hint Resolve mono_build_comp_fields : mono.

Lemma mono_index_value v i d : mono (index_value v i d). Proof. destruct v, i; unfold index_value; mono_tac. Qed.
Lemma mono_opt_num v s : mono (opt_num v s). Proof. unfold opt_num. mono_tac. Qed.
Lemma mono_slice_pos l f : mono (slice_pos l f). Proof. unfold slice_pos. mono_tac. Qed.
#[export] Hint Resolve mono_index_value mono_opt_num mono_slice_pos : mono.
Lemma mono_slice_range l a b c : mono (slice_range l a b c). Proof. unfold slice_range. mono_tac. Qed.
#[export] Hint Resolve mono_slice_range : mono.
Lemma mono_do_slice v a b c f : mono (do_slice v a b c f). Proof. unfold do_slice. mono_tac. Qed.
Lemma mono_eval_opt en o d : mono (eval_opt en o d). Proof. unfold eval_opt. mono_tac. Qed.
#[export] Hint Resolve mono_do_slice mono_eval_opt : mono.

Lemma mono_filter_m fv items d : mono (filter_m fv items d).
Proof. induction items; simpl; mono_tac. Qed.
Lemma mono_foldl_m fv items acc d : mono (foldl_m fv items acc d).
Proof. induction items in acc |- *; simpl; mono_tac. Qed.
Lemma mono_foldr_m fv items acc d : mono (foldr_m fv items acc d).
Proof. induction items in acc |- *; simpl; mono_tac. Qed.
Lemma mono_join_str_m sep items first acc d : mono (join_str_m sep items first acc d).
Proof. induction items in first, acc |- *; simpl; mono_tac. Qed.
Lemma mono_join_arr_m sep items first acc d : mono (join_arr_m sep items first acc d).
Proof. induction items in first, acc |- *; simpl; mono_tac. Qed.
#[export] Hint Resolve mono_filter_m mono_foldl_m mono_foldr_m mono_join_str_m mono_join_arr_m : mono.
Lemma mono_object_has o f h : mono (object_has o f h). Proof. unfold object_has. mono_tac. Qed.
Lemma mono_object_fields o h : mono (object_fields o h). Proof. unfold object_fields. mono_tac. Qed.
Lemma mono_prim_equals a b : mono (prim_equals a b). Proof. destruct a, b; unfold prim_equals; mono_tac. Qed.
Lemma mono_mod_num a b : mono (mod_num a b). Proof. unfold mod_num. mono_tac. Qed.
#[export] Hint Resolve mono_object_has mono_object_fields mono_prim_equals mono_mod_num : mono.

Lemma mono_all_m items d : mono (all_m items d).
Proof. induction items; simpl; mono_tac. Qed.
Lemma mono_any_m items d : mono (any_m items d).
Proof. induction items; simpl; mono_tac. Qed.
Lemma mono_sum_m items acc d : mono (sum_m items acc d).
Proof. induction items in acc |- *; simpl; mono_tac. Qed.
Lemma mono_flatten_m items acc d : mono (flatten_m items acc d).
Proof. induction items in acc |- *; simpl; mono_tac. Qed.
Lemma mono_contains_m x items d : mono (contains_m x items d).
Proof. induction items; simpl; mono_tac. Qed.
Lemma mono_count_m x items n d : mono (count_m x items n d).
Proof. induction items in n |- *; simpl; mono_tac. Qed.
#[export] Hint Resolve mono_all_m mono_any_m mono_sum_m mono_flatten_m mono_contains_m mono_count_m : mono.

Lemma mono_call_builtin bi args d : mono (call_builtin bi args d).
Proof.
  destruct args as [|a0 [|a1 [|a2 [|a3 [|a4 r]]]]]; destruct bi; unfold call_builtin; mono_tac.
Qed.
#[export] Hint Resolve mono_call_builtin : mono.

Lemma mono_force_args ts d : mono (force_args ts d). Proof. unfold force_args. mono_tac. Qed.
#[export] Hint Resolve mono_force_args : mono.
Lemma mono_do_apply fv pos named force d : mono (do_apply fv pos named force d).
Proof. unfold do_apply. mono_tac. Qed.

Lemma mono_eq_items a b d : mono (eq_items a b d).
Proof. induction a in b |- *; simpl; mono_tac. Qed.
Lemma mono_eq_fields la lb names d : mono (eq_fields la lb names d).
Proof. induction names; simpl; mono_tac. Qed.
Lemma mono_cmp_items a b d : mono (cmp_items a b d).
Proof. induction a in b |- *; simpl; mono_tac. Qed.
#[export] Hint Resolve mono_eq_items mono_eq_fields mono_cmp_items : mono.
Lemma mono_do_equals a b d : mono (do_equals a b d). Proof. destruct a, b; unfold do_equals; mono_tac. Qed.
Lemma mono_do_compare a b d : mono (do_compare a b d). Proof. destruct a, b; unfold do_compare; mono_tac. Qed.
Lemma mono_do_manifest s v d : mono (do_manifest s v d). Proof. unfold do_manifest. mono_tac. Qed.
Lemma mono_cond_bool v : mono (cond_bool v). Proof. unfold cond_bool. mono_tac. Qed.
#[export] Hint Resolve mono_do_apply mono_do_equals mono_do_compare mono_do_manifest mono_cond_bool : mono.

Lemma mono_do_eval en x d : mono (do_eval en x d).
Proof.
  destruct x; try destruct op; unfold do_eval; mono_tac.
Qed.
Lemma mono_do_force t d : mono (do_force t d). Proof. unfold do_force. mono_tac. Qed.
#[export] Hint Resolve mono_do_eval mono_do_force : mono.

Lemma mono_step_fn t d : mono (step t d).
Proof. unfold step. destruct t; mono_tac. Qed.

Lemma mono_run_top x : mono (run_top x).
Proof. unfold run_top. mono_tac. Qed.

Lemma cfg_le_refl m c : cfg_le m c c.
Proof. unfold cfg_le. destruct m; repeat split; lia. Qed.

Lemma run_task_fuel_le c : forall f1 f2, (f1 <= f2)%nat -> rec_le MFuel (run_task f1 c) (run_task f2 c).
Proof.
  induction f1 as [|n IH]; intros f2 Hle t d.
  - unfold res_le. simpl. discriminate.
  - destruct f2 as [|n2]; [lia|]. simpl.
    apply mono_step_fn; [apply cfg_le_refl | apply IH; lia].
Qed.

Lemma run_task_limit_le c1 c2 : cfg_le MLimit c1 c2 -> forall f, rec_le MLimit (run_task f c1) (run_task f c2).
Proof.
  intros Hc. induction f as [|n IH]; intros t d.
  - unfold res_le. reflexivity.
  - simpl. apply mono_step_fn; assumption.
Qed.

Theorem fuel_monotone : forall fuel fuel' c e r,
  run fuel c e = r -> snd r <> OutOfFuel -> (fuel <= fuel')%nat -> run fuel' c e = r.
Proof.
  intros * Hr Hne Hle. subst r. unfold run, run_core in *.
  apply (mono_run_top (desugar e) MFuel c c _ _ (cfg_le_refl _ _) (run_task_fuel_le c fuel fuel' Hle)).
  destruct (snd (run_top (desugar e) c (run_task fuel c))); try reflexivity. congruence.
Qed.

Theorem limit_monotone : forall fuel c c' e r,
  run fuel c e = r -> snd r <> Err EStackOverflow ->
  c_bfs c = c_bfs c' -> c_ts_tail c = c_ts_tail c' -> c_limit c <= c_limit c' ->
  run fuel c' e = r.
Proof.
  intros * Hr Hne Hb Ht Hl. subst r. unfold run, run_core in *.
  assert (Hc : cfg_le MLimit c c') by (unfold cfg_le; auto).
  apply (mono_run_top (desugar e) MLimit c c' _ _ Hc (run_task_limit_le c c' Hc fuel)).
  destruct (snd (run_top (desugar e) c (run_task fuel c))) as [a|e0|s|]; try reflexivity.
  destruct e0; try reflexivity. congruence.
Qed.

