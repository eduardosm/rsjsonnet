(* Proofs/Sort_proofs.v — lemmas and proofs about Model/Sort.v *)
From Coq Require Import List Arith Lia Permutation Sorted Bool.
From RJ Require Import Base.Outcome Model.Sort.
Import ListNotations.
Local Open Scope outcome_scope.

Ltac obind_inv H :=
  let a := fresh "v" in let Ha := fresh "Hv" in
  apply obind_ok_inv in H; destruct H as [a [Ha H]].

Lemma obind_ok {A B E} (x : outcome A E) (f : A -> outcome B E) a :
  x = Ok a -> obind x f = f a.
Proof. intros ->; reflexivity. Qed.

Section MapMFacts.
  Context {A B E : Type}.
  Variable f : A -> outcome B E.

  Lemma mapM_pure (g : A -> B) l :
    (forall x, In x l -> f x = Ok (g x)) -> mapM f l = Ok (map g l).
  Proof.
    induction l as [|x l IH]; intros H; cbn [mapM map]; [reflexivity|].
    rewrite (H x (or_introl eq_refl)); cbn [obind].
    rewrite IH by (intros y Hy; apply H; right; exact Hy). reflexivity.
  Qed.

  Lemma mapM_ok_forall2 l ys :
    mapM f l = Ok ys -> Forall2 (fun x y => f x = Ok y) l ys.
  Proof.
    revert ys; induction l as [|x l IH]; intros ys H; cbn [mapM] in H.
    - inversion H; constructor.
    - obind_inv H. obind_inv H. inversion H; subst. constructor; auto.
  Qed.

  Lemma mapM_ok_length l ys : mapM f l = Ok ys -> length ys = length l.
  Proof. intros H. apply mapM_ok_forall2 in H. induction H; cbn [length]; congruence. Qed.

  Lemma mapM_not_ok l x : In x l -> is_ok (f x) = false -> is_ok (mapM f l) = false.
  Proof.
    induction l as [|y l IH]; intros Hin Hx; [destruct Hin|].
    cbn [mapM]. destruct Hin as [->|Hin].
    - destruct (f x); cbn in *; try discriminate; reflexivity.
    - destruct (f y); cbn [obind is_ok]; try reflexivity.
      specialize (IH Hin Hx). destruct (mapM f l); cbn in *; try discriminate; reflexivity.
  Qed.

  Lemma mapM_ok_all l ys x : mapM f l = Ok ys -> In x l -> is_ok (f x) = true.
  Proof.
    intros H Hin. destruct (is_ok (f x)) eqn:Ex; [reflexivity|].
    pose proof (mapM_not_ok l x Hin Ex) as HN. rewrite H in HN. discriminate.
  Qed.

  Lemma mapM_first_error l1 x l2 (g : A -> B) :
    (forall y, In y l1 -> f y = Ok (g y)) -> is_ok (f x) = false ->
    mapM f (l1 ++ x :: l2) = obind (f x) (fun _ => Ok []).
  Proof.
    induction l1 as [|y l1 IH]; intros Hpre Hx; cbn [app mapM].
    - destruct (f x); cbn in *; try discriminate; reflexivity.
    - rewrite (Hpre y (or_introl eq_refl)); cbn [obind].
      rewrite (IH (fun z Hz => Hpre z (or_intror Hz)) Hx).
      destruct (f x); cbn in *; try discriminate; reflexivity.
  Qed.
End MapMFacts.

Lemma filter_none {X} (P : X -> bool) l : (forall x, In x l -> P x = false) -> filter P l = [].
Proof.
  induction l as [|x l IH]; intros H; cbn [filter]; [reflexivity|].
  rewrite (H x (or_introl eq_refl)). apply IH; intros; apply H; right; assumption.
Qed.

Lemma filter_all {X} (P : X -> bool) l : (forall x, In x l -> P x = true) -> filter P l = l.
Proof.
  induction l as [|x l IH]; intros H; cbn [filter]; [reflexivity|].
  rewrite (H x (or_introl eq_refl)), IH by (intros; apply H; right; assumption). reflexivity.
Qed.

Lemma filter_length_le {X} (P : X -> bool) l : length (filter P l) <= length l.
Proof. induction l as [|x l IH]; cbn [filter length]; [lia|]. destruct (P x); cbn [length]; lia. Qed.

Lemma filter_map_comm {X Y} (f : X -> Y) (P : Y -> bool) l :
  filter P (map f l) = map f (filter (fun x => P (f x)) l).
Proof.
  induction l as [|x l IH]; cbn [map filter]; [reflexivity|].
  destruct (P (f x)); cbn [map]; rewrite IH; reflexivity.
Qed.

Lemma incl_firstn {X} n (l : list X) : incl (firstn n l) l.
Proof. intros x Hx. rewrite <- (firstn_skipn n l). apply in_or_app; left; exact Hx. Qed.

Lemma incl_skipn {X} n (l : list X) : incl (skipn n l) l.
Proof. intros x Hx. rewrite <- (firstn_skipn n l). apply in_or_app; right; exact Hx. Qed.

Lemma StronglySorted_app {X} (R : X -> X -> Prop) l1 l2 :
  StronglySorted R l1 -> StronglySorted R l2 ->
  (forall x y, In x l1 -> In y l2 -> R x y) -> StronglySorted R (l1 ++ l2).
Proof.
  induction l1 as [|a l1 IH]; intros S1 S2 H; cbn [app]; [assumption|].
  inversion S1; subst. constructor.
  - apply IH; auto. intros; apply H; [right|]; assumption.
  - apply Forall_app; split; [assumption|].
    apply Forall_forall; intros y Hy; apply H; [left; reflexivity|assumption].
Qed.

Lemma StronglySorted_map {X Y} (f : X -> Y) (R : Y -> Y -> Prop) l :
  StronglySorted (fun a b => R (f a) (f b)) l -> StronglySorted R (map f l).
Proof.
  induction 1 as [|a l S IH F]; cbn [map]; constructor; [assumption|].
  apply Forall_map. exact F.
Qed.

Lemma StronglySorted_filter {X} (R : X -> X -> Prop) (P : X -> bool) l :
  StronglySorted R l -> StronglySorted R (filter P l).
Proof.
  induction 1 as [|a l S IH F]; cbn [filter]; [constructor|].
  destruct (P a); [|assumption]. constructor; [assumption|].
  apply Forall_forall; intros y Hy. apply filter_In in Hy. destruct Hy as [Hy _].
  revert y Hy. apply Forall_forall. exact F.
Qed.

Lemma StronglySorted_short {X} (R : X -> X -> Prop) l : length l <= 1 -> StronglySorted R l.
Proof.
  destruct l as [|a [|b l]]; cbn [length]; intros H; try lia; repeat constructor.
Qed.

Lemma StronglySorted_impl {X} (R1 R2 : X -> X -> Prop) l :
  (forall x y, R1 x y -> R2 x y) -> StronglySorted R1 l -> StronglySorted R2 l.
Proof.
  intros H; induction 1 as [|a l S IH F]; constructor; [assumption|].
  eapply Forall_impl; [|exact F]. intros; apply H; assumption.
Qed.

Lemma StronglySorted_seq a n : StronglySorted lt (seq a n).
Proof.
  revert a; induction n as [|n IH]; intros a; cbn [seq]; constructor; [apply IH|].
  apply Forall_forall; intros y Hy; apply in_seq in Hy; lia.
Qed.

Lemma map_nth_seq {X} (l : list X) d : map (fun i => nth i l d) (seq 0 (length l)) = l.
Proof.
  induction l as [|x l IH]; cbn [length seq map nth]; [reflexivity|].
  f_equal. rewrite <- seq_shift, map_map. exact IH.
Qed.

(* what the sort does whatever the comparison answers: it only rearranges *)

Section Rearranges.
  Variables (X E : Type) (cmp : X -> X -> outcome comparison E).

  Lemma split_ords_perm ords (items lt ge : list X) :
    length ords = length items -> split_ords ords items = (lt, ge) -> Permutation (lt ++ ge) items.
  Proof.
    revert items lt ge; induction ords as [|o ords IH]; intros [|it items] lt ge HL H; cbn [split_ords length] in *; try discriminate.
    - inversion H; constructor.
    - destruct (split_ords ords items) as [lt0 ge0] eqn:ES.
      assert (HP : Permutation (lt0 ++ ge0) items) by (apply IH; [lia|exact ES]).
      destruct (is_lt o); inversion H; subst; cbn [app].
      + constructor; exact HP.
      + apply Permutation_sym, Permutation_cons_app, Permutation_sym; exact HP.
  Qed.

  Lemma split_ords_filter (g : X -> comparison) items :
    split_ords (map g items) items =
    (filter (fun x => is_lt (g x)) items, filter (fun x => negb (is_lt (g x))) items).
  Proof.
    induction items as [|it items IH]; cbn [map split_ords filter]; [reflexivity|].
    rewrite IH. destruct (is_lt (g it)); reflexivity.
  Qed.

  Lemma quick_perm fuel : forall l r, quick cmp fuel l = Ok r -> Permutation r l.
  Proof.
    induction fuel as [|f IH]; intros l r H; [discriminate|].
    cbn [quick] in H. destruct l as [|pivot [|i0 items0]]; try discriminate.
    remember (i0 :: items0) as items eqn:EI. clear EI.
    obind_inv H. rename v into ords.
    destruct (split_ords ords items) as [lt ge] eqn:ES.
    obind_inv H. rename v into lt'. obind_inv H. rename v into ge'. inversion H; subst r; clear H.
    assert (Hsub : forall l' r', (if 1 <? length l' then quick cmp f l' else Ok l') = Ok r' -> Permutation r' l').
    { intros l' r' H'. destruct (1 <? length l'); [apply IH; exact H'|]. inversion H'; auto. }
    apply split_ords_perm in ES; [|apply mapM_ok_length in Hv; exact Hv].
    apply Permutation_sym, Permutation_cons_app, Permutation_sym.
    rewrite (Hsub _ _ Hv0), (Hsub _ _ Hv1). exact ES.
  Qed.

  Lemma merge_nil_l l2 : merge cmp [] l2 = Ok l2.
  Proof. destruct l2; reflexivity. Qed.
  Lemma merge_nil_r l1 : merge cmp l1 [] = Ok l1.
  Proof. destruct l1; reflexivity. Qed.
  Lemma merge_cons a1 l1 a2 l2 :
    merge cmp (a1 :: l1) (a2 :: l2) =
    do c <- cmp a1 a2;
    if is_le c then (do r <- merge cmp l1 (a2 :: l2); Ok (a1 :: r))
    else (do r <- merge cmp (a1 :: l1) l2; Ok (a2 :: r)).
  Proof. reflexivity. Qed.

  Lemma merge_perm : forall l1 l2 r, merge cmp l1 l2 = Ok r -> Permutation r (l1 ++ l2).
  Proof.
    induction l1 as [|a1 l1 IH1]; intros l2 r H.
    - rewrite merge_nil_l in H; inversion H; auto.
    - revert r H; induction l2 as [|a2 l2 IH2]; intros r H.
      + rewrite merge_nil_r in H; inversion H; rewrite app_nil_r; auto.
      + rewrite merge_cons in H. obind_inv H. destruct (is_le v).
        * obind_inv H. inversion H; subst. cbn [app]. constructor. apply IH1; assumption.
        * obind_inv H. inversion H; subst.
          apply Permutation_cons_app with (l1 := a1 :: l1). apply IH2; assumption.
  Qed.

  Lemma sort_slice_perm fuel : forall l r, sort_slice cmp fuel l = Ok r -> Permutation r l.
  Proof.
    induction fuel as [|f IH]; intros l r H; [discriminate|].
    cbn [sort_slice] in H.
    destruct (30 <? length l).
    - obind_inv H. obind_inv H. apply merge_perm in H.
      rewrite H, (IH _ _ Hv), (IH _ _ Hv0), firstn_skipn. reflexivity.
    - destruct (1 <? length l); [eapply quick_perm; eassumption|]. inversion H; auto.
  Qed.

  (* The three ways [sort_slice] treats a slice when it has fuel enough: a short one is
     returned as it is, a middle-sized one is quick-sorted, a long one is cut into halves that
     are sorted and merged.  [oa], [ob] stand for the outcomes of sorting the halves; each is a
     rearrangement of its half if it is a list at all. *)
  Lemma sort_slice_cases (P : list X -> outcome (list X) E -> Prop) :
    (forall l, length l <= 1 -> P l (Ok l)) ->
    (forall l, 1 < length l <= 30 -> P l (quick cmp (length l) l)) ->
    (forall l oa ob, 30 < length l ->
       let la := firstn (Nat.div (length l) 2) l in let lb := skipn (Nat.div (length l) 2) l in
       15 <= length la ->
       (forall a, oa = Ok a -> Permutation a la) -> (forall b, ob = Ok b -> Permutation b lb) ->
       P la oa -> P lb ob -> P l (do a <- oa; do b <- ob; merge cmp a b)) ->
    forall fuel l, length l < fuel -> P l (sort_slice cmp fuel l).
  Proof.
    intros Hshort Hquick Hmerge. induction fuel as [|f IH]; intros l HF; [lia|].
    cbn [sort_slice].
    destruct (30 <? length l) eqn:E30.
    - apply Nat.ltb_lt in E30.
      assert (Hmid : 15 <= Nat.div (length l) 2 < length l).
      { split; [apply Nat.div_le_lower_bound; lia|apply Nat.div_lt; lia]. }
      apply Hmerge.
      + exact E30.
      + rewrite firstn_length. lia.
      + intros a. apply sort_slice_perm.
      + intros b. apply sort_slice_perm.
      + apply IH. rewrite firstn_length. lia.
      + apply IH. rewrite skipn_length. lia.
    - apply Nat.ltb_ge in E30. destruct (1 <? length l) eqn:E1.
      + apply Nat.ltb_lt in E1. apply Hquick; lia.
      + apply Nat.ltb_ge in E1. apply Hshort; exact E1.
  Qed.
End Rearranges.

Record total_preorder {X : Type} (c : X -> X -> comparison) : Prop := {
  tp_refl : forall x, c x x = Eq;
  tp_sym : forall x y, c y x = CompOpp (c x y);
  tp_trans : forall x y z, c x y <> Gt -> c y z <> Gt -> c x z <> Gt
}.

Definition same_key {X} (c : X -> X -> comparison) (a x : X) : bool :=
  match c a x with Eq => true | _ => false end.

Section Preorder.
  Variables (X : Type) (c : X -> X -> comparison).
  Hypothesis TP : total_preorder c.

  Definition cle (x y : X) : Prop := c x y <> Gt.

  Lemma cle_trans x y z : cle x y -> cle y z -> cle x z.
  Proof. apply (tp_trans c TP). Qed.

  Lemma cle_refl x : cle x x.
  Proof. unfold cle; rewrite (tp_refl c TP); discriminate. Qed.

  Lemma lt_cle x y : c x y = Lt -> cle x y.
  Proof. unfold cle; intros ->; discriminate. Qed.

  Lemma not_lt_cle x y : is_lt (c x y) = false -> cle y x.
  Proof.
    unfold cle; rewrite (tp_sym c TP x y). destruct (c x y); cbn; intros; try discriminate.
  Qed.

  Lemma gt_cle x y : c x y = Gt -> cle y x.
  Proof. intros H; apply not_lt_cle; rewrite H; reflexivity. Qed.

  Lemma eq_cong_l a x z : c a x = Eq -> c x z = c a z.
  Proof.
    intros Hax.
    pose proof (tp_sym c TP a x) as S1. pose proof (tp_sym c TP x z) as S2. pose proof (tp_sym c TP a z) as S3.
    pose proof (tp_trans c TP x a z) as T1. pose proof (tp_trans c TP a x z) as T2.
    pose proof (tp_trans c TP z a x) as T3. pose proof (tp_trans c TP z x a) as T4.
    rewrite Hax in *. cbn in S1. rewrite S1, S2, S3 in *.
    destruct (c x z), (c a z); cbn in *; try reflexivity; exfalso;
      first [ apply T1; congruence | apply T2; congruence | apply T3; congruence | apply T4; congruence ].
  Qed.

  Lemma same_key_eq a x : same_key c a x = true <-> c a x = Eq.
  Proof. unfold same_key. destruct (c a x); split; congruence. Qed.

  Lemma ceq_sym x y : c x y = Eq -> c y x = Eq.
  Proof. intros H; rewrite (tp_sym c TP x y), H; reflexivity. Qed.
End Preorder.

(* the sort of items that carry a key, under a total preorder on keys that the comparison
   computes without error on the items of the input *)

Section Correct.
  Variables (X K E : Type) (cmp : X -> X -> outcome comparison E).
  Variables (key : X -> K) (c : K -> K -> comparison).
  Hypothesis TP : total_preorder c.

  Definition agree (l : list X) : Prop :=
    forall x y, In x l -> In y l -> cmp x y = Ok (c (key x) (key y)).

  Definition key_le (x y : X) : Prop := c (key x) (key y) <> Gt.
  Definition has_key (k : K) (x : X) : bool := same_key c k (key x).

  (* the last clause is stability: the items of each key keep the order they have in l *)
  Definition sorted_of (l r : list X) : Prop :=
    Permutation r l /\ StronglySorted key_le r /\ (forall k, filter (has_key k) r = filter (has_key k) l).

  Lemma has_key_eq k x : has_key k x = true <-> c k (key x) = Eq.
  Proof. exact (same_key_eq K c k (key x)). Qed.

  Lemma agree_incl l l' : agree l -> incl l' l -> agree l'.
  Proof. intros H I x y Hx Hy; apply H; apply I; assumption. Qed.

  Lemma sorted_of_short l : length l <= 1 -> sorted_of l l.
  Proof. intros H; split; [auto|split; [apply StronglySorted_short; exact H|reflexivity]]. Qed.

  (* items with the key k all compare with p as k does: selecting by that comparison keeps
     them all or none *)
  Lemma filter_has_key_class (f : comparison -> bool) k p l :
    filter (has_key k) (filter (fun x => f (c (key x) p)) l) =
    if f (c k p) then filter (has_key k) l else [].
  Proof.
    induction l as [|x l IH]; cbn [filter]; [destruct (f (c k p)); reflexivity|].
    destruct (has_key k x) eqn:Ex.
    - rewrite (eq_cong_l K c TP k (key x) p (proj1 (has_key_eq k x) Ex)).
      destruct (f (c k p)); [cbn [filter]; rewrite Ex, IH; reflexivity|exact IH].
    - destruct (f (c (key x) p)); [cbn [filter]; rewrite Ex|]; exact IH.
  Qed.

  Lemma key_le_all h x l : key_le h x -> Forall (key_le x) l -> Forall (key_le h) (x :: l).
  Proof.
    intros H F. constructor; [exact H|]. eapply Forall_impl; [|exact F].
    intros y. exact (cle_trans K c TP _ _ _ H).
  Qed.

  Lemma sorted_cons_perm h r l :
    StronglySorted key_le r -> Permutation r l -> Forall (key_le h) l -> StronglySorted key_le (h :: r).
  Proof.
    intros S P F. constructor; [exact S|]. eapply Permutation_Forall; [apply Permutation_sym; exact P|exact F].
  Qed.

  Lemma quick_correct fuel : forall l,
    length l <= fuel -> 2 <= length l -> agree l ->
    exists r, quick cmp fuel l = Ok r /\ sorted_of l r.
  Proof.
    induction fuel as [|f IH]; intros l HF HL HA; [lia|].
    cbn [quick]. destruct l as [|pivot [|i0 items0]]; cbn [length] in HL; try lia.
    remember (i0 :: items0) as items eqn:EI. clear EI HL. cbn [length] in HF.
    pose (g := fun it => c (key it) (key pivot)).
    rewrite (mapM_pure _ g) by (intros x Hx; apply HA; [right; exact Hx|left; reflexivity]).
    cbn [obind]. rewrite split_ords_filter.
    pose proof (split_ords_perm X _ items _ _ (map_length g items) (split_ords_filter X g items)) as Hperm.
    unfold g in Hperm |- *. clear g.
    (* each part is sorted by the induction hypothesis, or too short to need sorting *)
    assert (Hsub : forall P, exists r,
              (if 1 <? length (filter P items) then quick cmp f (filter P items) else Ok (filter P items)) = Ok r /\
              sorted_of (filter P items) r).
    { intros P. destruct (1 <? length (filter P items)) eqn:E1.
      - apply Nat.ltb_lt in E1. apply IH; [pose proof (filter_length_le P items); lia|lia|].
        apply (agree_incl _ _ HA). intros x Hx. right. apply filter_In in Hx. tauto.
      - apply Nat.ltb_ge in E1. eexists; split; [reflexivity|apply sorted_of_short; exact E1]. }
    destruct (Hsub (fun x => is_lt (c (key x) (key pivot)))) as [lt' [Elt [Plt [Slt Tlt]]]].
    destruct (Hsub (fun x => negb (is_lt (c (key x) (key pivot))))) as [ge' [Ege [Pge [Sge Tge]]]].
    rewrite Elt; cbn [obind]. rewrite Ege; cbn [obind].
    eexists; split; [reflexivity|].
    assert (Flt : forall x, In x lt' -> c (key x) (key pivot) = Lt).
    { intros x Hx. apply (Permutation_in _ Plt), filter_In in Hx. destruct Hx as [_ Hx].
      destruct (c (key x) (key pivot)); cbn in Hx; congruence. }
    assert (Fge : forall x, In x ge' -> is_lt (c (key x) (key pivot)) = false).
    { intros x Hx. apply (Permutation_in _ Pge), filter_In in Hx. destruct Hx as [_ Hx].
      apply negb_true_iff in Hx; exact Hx. }
    split; [|split].
    - apply Permutation_sym, Permutation_cons_app, Permutation_sym.
      rewrite Plt, Pge. exact Hperm.
    - apply StronglySorted_app; [assumption| |].
      + constructor; [assumption|]. apply Forall_forall; intros y Hy. apply (not_lt_cle K c TP), Fge, Hy.
      + intros x y Hx [<-|Hy]; [apply lt_cle, Flt, Hx|].
        apply (cle_trans K c TP _ (key pivot)); [apply lt_cle, Flt, Hx|apply (not_lt_cle K c TP), Fge, Hy].
    - intros k. rewrite filter_app. cbn [filter]. rewrite Tlt, Tge.
      rewrite (filter_has_key_class is_lt), (filter_has_key_class (fun o => negb (is_lt o))).
      change (has_key k pivot) with (match c k (key pivot) with Eq => true | _ => false end).
      destruct (c k (key pivot)); cbn [is_lt negb app]; rewrite ?app_nil_r; reflexivity.
  Qed.

  Lemma merge_correct : forall l1 l2,
    agree (l1 ++ l2) -> StronglySorted key_le l1 -> StronglySorted key_le l2 ->
    exists r, merge cmp l1 l2 = Ok r /\ Permutation r (l1 ++ l2) /\ StronglySorted key_le r /\
              (forall k, filter (has_key k) r = filter (has_key k) l1 ++ filter (has_key k) l2).
  Proof.
    induction l1 as [|a1 l1 IH1]; intros l2 HA S1 S2.
    - exists l2. rewrite merge_nil_l. repeat split; auto.
    - induction l2 as [|a2 l2 IH2].
      + exists (a1 :: l1). rewrite merge_nil_r, app_nil_r. repeat split; auto.
        intros k; rewrite app_nil_r; reflexivity.
      + rewrite merge_cons.
        rewrite (HA a1 a2) by (apply in_or_app; cbn [In]; auto).
        cbn [obind].
        inversion S1 as [|? ? S1' F1]; subst. inversion S2 as [|? ? S2' F2]; subst.
        destruct (is_le (c (key a1) (key a2))) eqn:Ele.
        * destruct (IH1 (a2 :: l2)) as [r [Er [Pr [Sr Tr]]]]; auto.
          { apply (agree_incl _ _ HA). intros x Hx; right; exact Hx. }
          rewrite Er; cbn [obind]. eexists; split; [reflexivity|]. split; [|split].
          -- cbn [app]; constructor; exact Pr.
          -- eapply sorted_cons_perm; [exact Sr|exact Pr|].
             apply Forall_app; split; [exact F1|apply key_le_all; [|exact F2]].
             unfold key_le. destruct (c (key a1) (key a2)); cbn in Ele; congruence.
          -- intros k. cbn [filter]. destruct (has_key k a1); rewrite Tr; reflexivity.
        * (* a1 > a2: the right head is taken *)
          assert (Hgt : c (key a1) (key a2) = Gt) by (destruct (c (key a1) (key a2)); cbn in Ele; congruence).
          destruct IH2 as [r [Er [Pr [Sr Tr]]]]; auto.
          { apply (agree_incl _ _ HA). intros x Hx. apply in_app_or in Hx. apply in_or_app.
            destruct Hx as [Hx|Hx]; [left; exact Hx|right; right; exact Hx]. }
          rewrite Er; cbn [obind]. eexists; split; [reflexivity|]. split; [|split].
          -- apply Permutation_cons_app with (l1 := a1 :: l1). exact Pr.
          -- eapply sorted_cons_perm; [exact Sr|exact Pr|].
             apply Forall_app; split; [apply key_le_all; [apply (gt_cle K c TP); exact Hgt|exact F1]|exact F2].
          -- intros k. specialize (Tr k). cbn [filter] in Tr |- *. rewrite Tr.
             destruct (has_key k a2) eqn:Esk; [|reflexivity].
             (* nothing on the left has the key of a2: everything there is above a1 > a2 *)
             assert (HN : forall x, In x (a1 :: l1) -> has_key k x = false).
             { intros x Hx. apply not_true_iff_false. intros Ex.
               apply has_key_eq in Esk, Ex.
               assert (H1x : key_le a1 x).
               { destruct Hx as [<-|Hx]; [exact (cle_refl K c TP (key a1))|exact (proj1 (Forall_forall _ _) F1 x Hx)]. }
               apply (cle_trans K c TP _ _ (key a2)) in H1x; [exact (H1x Hgt)|].
               unfold cle. rewrite (eq_cong_l K c TP k (key x) (key a2) Ex), Esk. discriminate. }
             rewrite (HN a1 (or_introl eq_refl)), (filter_none _ l1 (fun x Hx => HN x (or_intror Hx))).
             reflexivity.
  Qed.

  Lemma sort_slice_correct fuel l :
    length l < fuel -> agree l -> exists r, sort_slice cmp fuel l = Ok r /\ sorted_of l r.
  Proof.
    revert fuel l. apply (sort_slice_cases X E cmp (fun l o => agree l -> exists r, o = Ok r /\ sorted_of l r)).
    - intros l H1 _. exists l; split; [reflexivity|apply sorted_of_short; exact H1].
    - intros l H HA. apply quick_correct; [lia|lia|exact HA].
    - intros l oa ob _ la lb _ _ _ IHa IHb HA.
      destruct (IHa (agree_incl _ _ HA (incl_firstn _ l))) as [a [-> [Pa [Sa Ta]]]].
      destruct (IHb (agree_incl _ _ HA (incl_skipn _ l))) as [b [-> [Pb [Sb Tb]]]].
      cbn [obind].
      destruct (merge_correct a b) as [r [Er [Pr [Sr Tr]]]]; auto.
      { apply (agree_incl _ _ HA). intros x Hx. apply in_app_or in Hx.
        destruct Hx as [Hx|Hx]; [eapply incl_firstn|eapply incl_skipn]; eapply Permutation_in; eassumption. }
      exists r; split; [exact Er|]. split; [|split].
      + rewrite Pr, Pa, Pb. unfold la, lb. rewrite firstn_skipn. reflexivity.
      + exact Sr.
      + intros k. rewrite Tr, Ta, Tb, <- filter_app. unfold la, lb. rewrite firstn_skipn. reflexivity.
  Qed.

  Lemma sort_list_correct l : agree l -> exists r, sort_list cmp l = Ok r /\ sorted_of l r.
  Proof. intros HA; unfold sort_list; apply sort_slice_correct; [lia|exact HA]. Qed.
End Correct.

Definition before {X} (i j : X) (p : list X) : Prop :=
  exists l1 l2 l3, p = l1 ++ i :: l2 ++ j :: l3.

Lemma StronglySorted_before {X} (R : X -> X -> Prop) l1 i l2 j l3 :
  StronglySorted R (l1 ++ i :: l2 ++ j :: l3) -> R i j.
Proof.
  induction l1 as [|a l1 IH]; cbn [app]; intros S; inversion S as [|? ? S' F]; subst.
  - apply (proj1 (Forall_forall _ _) F). apply in_or_app; right; left; reflexivity.
  - apply IH; exact S'.
Qed.

Section StdSortCorrect.
  Variables (A K E : Type) (keyf : A -> outcome K E) (cmp : K -> K -> outcome comparison E).
  Variables (kf : A -> K) (c : K -> K -> comparison).
  Hypothesis TP : total_preorder c.

  Definition keys_pure (arr : list A) : Prop := forall a, In a arr -> keyf a = Ok (kf a).
  Definition cmp_pure (arr : list A) : Prop :=
    forall a b, In a arr -> In b arr -> cmp (kf a) (kf b) = Ok (c (kf a) (kf b)).

  Lemma key_at_nth (ks : list K) (d : K) i : i < length ks -> key_at (E := E) ks i = Ok (nth i ks d).
  Proof. intros H. unfold key_at. rewrite (nth_error_nth' ks d H). reflexivity. Qed.

  Lemma sort_idx_correct (ks : list K) (d : K) :
    (forall a b, In a ks -> In b ks -> cmp a b = Ok (c a b)) ->
    exists p, sort_idx cmp ks = Ok p /\
              sorted_of nat K (fun i => nth i ks d) c (seq 0 (length ks)) p.
  Proof.
    intros HC. apply sort_list_correct; [exact TP|].
    intros i j Hi Hj. apply in_seq in Hi. apply in_seq in Hj. unfold cmp_idx.
    rewrite !(key_at_nth ks d) by lia. cbn [obind].
    apply HC; apply nth_In; lia.
  Qed.

  Lemma elems_of_perm (arr : list A) (d : A) p :
    Permutation p (seq 0 (length arr)) ->
    mapM (elem_at (E := E) arr) p = Ok (map (fun i => nth i arr d) p).
  Proof.
    intros HP. apply mapM_pure. intros i Hi.
    apply (Permutation_in _ HP) in Hi. apply in_seq in Hi.
    unfold elem_at. rewrite (nth_error_nth' arr d) by lia. reflexivity.
  Qed.

  Theorem std_sort_correct arr :
    keys_pure arr -> cmp_pure arr ->
    exists r, std_sort keyf cmp arr = Ok r /\
              Permutation r arr /\
              StronglySorted (fun x y => c (kf x) (kf y) <> Gt) r /\
              (forall k, filter (fun x => same_key c k (kf x)) r = filter (fun x => same_key c k (kf x)) arr).
  Proof.
    intros HK HC. unfold std_sort.
    destruct (length arr <=? 1) eqn:E1.
    - apply Nat.leb_le in E1. exists arr. repeat split; auto. apply StronglySorted_short; exact E1.
    - apply Nat.leb_gt in E1. destruct arr as [|d rest]; [cbn in E1; lia|].
      set (arr := d :: rest) in *.
      rewrite (mapM_pure keyf kf arr HK); cbn [obind].
      destruct (sort_idx_correct (map kf arr) (kf d)) as [p [Ep [Pp [Sp Tp]]]].
      { intros a b Ha Hb. apply in_map_iff in Ha, Hb. destruct Ha as [a' [<- Ha]], Hb as [b' [<- Hb]].
        apply HC; assumption. }
      rewrite map_length in Pp, Tp.
      rewrite Ep; cbn [obind]. rewrite (elems_of_perm arr d p Pp).
      set (f := fun i => nth i arr d).
      assert (Hkey : forall i, nth i (map kf arr) (kf d) = kf (f i)) by (intros i; apply map_nth).
      exists (map f p). split; [reflexivity|].
      pose proof (map_nth_seq arr d) as Harr. fold f in Harr. split; [|split].
      + rewrite <- Harr. apply Permutation_map. exact Pp.
      + apply StronglySorted_map. eapply StronglySorted_impl; [|exact Sp].
        intros i j. unfold key_le. rewrite !Hkey. auto.
      + intros k. rewrite <- Harr. rewrite !filter_map_comm. f_equal.
        specialize (Tp k). unfold has_key in Tp.
        rewrite !(filter_ext _ _ (fun i => f_equal (same_key c k) (Hkey i))) in Tp. exact Tp.
  Qed.

  Corollary std_sort_ok arr r :
    keys_pure arr -> cmp_pure arr -> std_sort keyf cmp arr = Ok r ->
    Permutation r arr /\ StronglySorted (fun x y => c (kf x) (kf y) <> Gt) r /\
    (forall k, filter (fun x => same_key c k (kf x)) r = filter (fun x => same_key c k (kf x)) arr).
  Proof.
    intros HK HC H. destruct (std_sort_correct arr HK HC) as [r' [Hr HP]].
    rewrite Hr in H; inversion H; subst; exact HP.
  Qed.

  Theorem sort_idx_spec (ks : list K) (d : K) :
    (forall a b, In a ks -> In b ks -> cmp a b = Ok (c a b)) ->
    exists p, sort_idx cmp ks = Ok p /\
      Permutation p (seq 0 (length ks)) /\
      StronglySorted (fun i j => c (nth i ks d) (nth j ks d) <> Gt) p /\
      (forall i j, before i j p -> c (nth i ks d) (nth j ks d) = Eq -> i < j).
  Proof.
    intros HC. destruct (sort_idx_correct ks d HC) as [p [Ep [Pp [Sp Tp]]]].
    exists p. split; [exact Ep|]. split; [exact Pp|]. split; [exact Sp|].
    intros i j [l1 [l2 [l3 Hb]]] Heq.
    (* i and j both have the key of i, and the indices with that key come in ascending order *)
    set (hk := has_key nat K (fun i => nth i ks d) c (nth i ks d)) in *.
    specialize (Tp (nth i ks d)). fold hk in Tp. rewrite Hb in Tp.
    rewrite filter_app in Tp. cbn [filter] in Tp. rewrite filter_app in Tp. cbn [filter] in Tp.
    assert (Hii : hk i = true) by (apply same_key_eq, (tp_refl c TP)).
    assert (Hij : hk j = true) by (apply same_key_eq, Heq).
    rewrite Hii, Hij in Tp.
    pose proof (StronglySorted_filter lt hk _ (StronglySorted_seq 0 (length ks))) as HS.
    rewrite <- Tp in HS. apply StronglySorted_before in HS. exact HS.
  Qed.
End StdSortCorrect.

(* no Panic, no OutOfFuel: the asserts and unwraps of the sort are unreachable and
   the fuel [S (length l)] suffices, whatever the comparison answers *)

Definition clean {A E} (o : outcome A E) : Prop :=
  match o with Ok _ | Err _ => True | _ => False end.

Lemma clean_obind {A B E} (x : outcome A E) (f : A -> outcome B E) :
  clean x -> (forall a, x = Ok a -> clean (f a)) -> clean (obind x f).
Proof. destruct x; cbn; intros H1 H2; auto. Qed.

Lemma clean_mapM {A B E} (f : A -> outcome B E) l : (forall x, In x l -> clean (f x)) -> clean (mapM f l).
Proof.
  induction l as [|x l IH]; intros H; cbn [mapM]; [exact I|].
  apply clean_obind; [apply H; left; reflexivity|]. intros y _.
  apply clean_obind; [apply IH; intros; apply H; right; assumption|]. intros; exact I.
Qed.

Section NoPanic.
  Variables (X E : Type) (cmp : X -> X -> outcome comparison E).

  Definition cmp_clean (l : list X) : Prop := forall x y, In x l -> In y l -> clean (cmp x y).

  Lemma cmp_clean_incl l l' : cmp_clean l -> incl l' l -> cmp_clean l'.
  Proof. intros H I x y Hx Hy; apply H; apply I; assumption. Qed.

  Lemma quick_clean fuel : forall l, length l <= fuel -> 2 <= length l -> cmp_clean l -> clean (quick cmp fuel l).
  Proof.
    induction fuel as [|f IH]; intros l HF HL HC; [lia|].
    cbn [quick]. destruct l as [|pivot [|i0 items0]]; cbn [length] in HL; try lia.
    remember (i0 :: items0) as items eqn:EI. clear EI HL. cbn [length] in HF.
    apply clean_obind.
    { apply clean_mapM. intros x Hx. apply HC; [right; exact Hx|left; reflexivity]. }
    intros ords Hords.
    destruct (split_ords ords items) as [lt ge] eqn:ES.
    pose proof (split_ords_perm X ords items lt ge (mapM_ok_length _ _ _ Hords) ES) as HP.
    pose proof (Permutation_length HP) as HLen. rewrite app_length in HLen.
    assert (Hsub : forall l', incl l' (lt ++ ge) -> length l' <= length items ->
              clean (if 1 <? length l' then quick cmp f l' else Ok l')).
    { intros l' Hi Hl. destruct (1 <? length l') eqn:E1; [|exact I]. apply Nat.ltb_lt in E1.
      apply IH; [lia|lia|]. apply (cmp_clean_incl _ _ HC).
      intros x Hx. right. apply (Permutation_in _ HP), Hi, Hx. }
    apply clean_obind; [apply Hsub; [apply incl_appl, incl_refl|lia]|].
    intros lt' _. apply clean_obind; [apply Hsub; [apply incl_appr, incl_refl|lia]|].
    intros; exact I.
  Qed.

  Lemma merge_clean : forall l1 l2, cmp_clean (l1 ++ l2) -> clean (merge cmp l1 l2).
  Proof.
    induction l1 as [|a1 l1 IH1]; intros l2 HC.
    - rewrite merge_nil_l; exact I.
    - induction l2 as [|a2 l2 IH2].
      + rewrite merge_nil_r; exact I.
      + rewrite merge_cons. apply clean_obind.
        { apply HC; apply in_or_app; cbn [In]; auto. }
        intros cc _. destruct (is_le cc); (apply clean_obind; [|intros; exact I]).
        * apply IH1. apply (cmp_clean_incl _ _ HC). intros x Hx; right; exact Hx.
        * apply IH2. apply (cmp_clean_incl _ _ HC). intros x Hx.
          apply in_app_or in Hx. apply in_or_app. destruct Hx; [left|right; right]; assumption.
  Qed.

  Lemma sort_slice_clean fuel l : length l < fuel -> cmp_clean l -> clean (sort_slice cmp fuel l).
  Proof.
    revert fuel l. apply (sort_slice_cases X E cmp (fun l o => cmp_clean l -> clean o)).
    - intros; exact I.
    - intros l H HC. apply quick_clean; [lia|lia|exact HC].
    - intros l oa ob _ la lb _ Pa Pb IHa IHb HC.
      apply clean_obind; [apply IHa, (cmp_clean_incl _ _ HC), incl_firstn|]. intros a Ha.
      apply clean_obind; [apply IHb, (cmp_clean_incl _ _ HC), incl_skipn|]. intros b Hb.
      apply merge_clean, (cmp_clean_incl _ _ HC). intros x Hx. apply in_app_or in Hx.
      destruct Hx as [Hx|Hx];
        [eapply incl_firstn, Permutation_in, Hx; exact (Pa a Ha)|eapply incl_skipn, Permutation_in, Hx; exact (Pb b Hb)].
  Qed.

  Theorem sort_list_clean l : cmp_clean l -> clean (sort_list cmp l).
  Proof. intros HC; unfold sort_list; apply sort_slice_clean; [lia|exact HC]. Qed.

  (* errors of the comparison are not swallowed: (a) it fails on every pair of the input *)
  Definition all_bad (l : list X) : Prop := forall x y, In x l -> In y l -> is_ok (cmp x y) = false.

  Lemma quick_all_bad fuel l : 2 <= length l -> all_bad l -> is_ok (quick cmp fuel l) = false.
  Proof.
    destruct fuel as [|f]; intros HL HB; [reflexivity|].
    cbn [quick]. destruct l as [|pivot [|i0 items0]]; cbn [length] in HL; try lia.
    assert (HM : is_ok (mapM (fun it => cmp it pivot) (i0 :: items0)) = false).
    { apply (mapM_not_ok _ _ i0); [left; reflexivity|]. apply HB; [right; left; reflexivity|left; reflexivity]. }
    destruct (mapM (fun it => cmp it pivot) (i0 :: items0)); cbn in *; try discriminate; reflexivity.
  Qed.

  Lemma sort_slice_all_bad fuel l :
    length l < fuel -> 2 <= length l -> all_bad l -> is_ok (sort_slice cmp fuel l) = false.
  Proof.
    revert fuel l. apply (sort_slice_cases X E cmp (fun l o => 2 <= length l -> all_bad l -> is_ok o = false)).
    - intros; lia.
    - intros l _. apply quick_all_bad.
    - intros l oa ob _ la lb Hla _ _ IHa _ _ HB.
      assert (Ha : is_ok oa = false).
      { apply IHa; [lia|]. intros x y Hx Hy. apply HB; eapply incl_firstn; eassumption. }
      destruct oa; [discriminate Ha|reflexivity..].
  Qed.

  (* (b) the comparison only succeeds inside one class (e.g. the value type):
     a successful sort means that the input is of one class *)
  Variables (T : Type) (ty : X -> T).
  Hypothesis ok_same_class : forall x y, is_ok (cmp x y) = true -> ty x = ty y.

  Definition one_class (l : list X) : Prop := forall x y, In x l -> In y l -> ty x = ty y.

  Lemma one_class_of l a : (forall x, In x l -> ty x = ty a) -> one_class l.
  Proof. intros H x y Hx Hy. rewrite (H x Hx), (H y Hy). reflexivity. Qed.

  Lemma quick_ok_one_class fuel l r : quick cmp fuel l = Ok r -> one_class l.
  Proof.
    destruct fuel as [|f]; intros H; [discriminate|].
    cbn [quick] in H. destruct l as [|pivot [|i0 items0]]; try discriminate.
    remember (i0 :: items0) as items eqn:EI. clear EI.
    obind_inv H. apply (one_class_of _ pivot).
    intros x [<-|Hx]; [reflexivity|]. apply ok_same_class.
    apply (mapM_ok_all (fun it => cmp it pivot) items v x Hv Hx).
  Qed.

  Lemma merge_ok_one_class l1 l2 r :
    merge cmp l1 l2 = Ok r -> one_class l1 -> one_class l2 -> one_class (l1 ++ l2).
  Proof.
    intros H H1 H2. destruct l1 as [|a1 l1]; [exact H2|]. destruct l2 as [|a2 l2]; [rewrite app_nil_r; exact H1|].
    rewrite merge_cons in H. obind_inv H.
    assert (H12 : ty a1 = ty a2) by (apply ok_same_class; rewrite Hv; reflexivity).
    apply (one_class_of _ a1). intros x Hx. apply in_app_or in Hx. destruct Hx as [Hx|Hx].
    - apply H1; [exact Hx|left; reflexivity].
    - rewrite H12. apply H2; [exact Hx|left; reflexivity].
  Qed.

  Lemma one_class_perm l l' : Permutation l l' -> one_class l' -> one_class l.
  Proof. intros HP H x y Hx Hy; apply H; eapply Permutation_in; eauto. Qed.

  Lemma sort_slice_ok_one_class fuel l r : length l < fuel -> sort_slice cmp fuel l = Ok r -> one_class l.
  Proof.
    intros HF. revert r. revert fuel l HF.
    apply (sort_slice_cases X E cmp (fun l o => forall r, o = Ok r -> one_class l)).
    - intros l H1 _ _. destruct l as [|a [|b l]]; cbn [length] in H1; try lia.
      + intros x y [].
      + intros x y [<-|[]] [<-|[]]; reflexivity.
    - intros l _ r H. eapply quick_ok_one_class; exact H.
    - intros l oa ob _ la lb _ Pa Pb IHa IHb r H. obind_inv H. obind_inv H.
      pose proof (merge_ok_one_class _ _ _ H (one_class_perm _ _ (Pa _ Hv) (IHa _ Hv))
                    (one_class_perm _ _ (Pb _ Hv0) (IHb _ Hv0))) as C.
      rewrite <- (firstn_skipn (Nat.div (length l) 2) l).
      eapply one_class_perm; [|exact C]. apply Permutation_app; apply Permutation_sym; auto.
  Qed.

  Theorem sort_error_propagates l :
    cmp_clean l -> 2 <= length l ->
    (exists x y, In x l /\ In y l /\ ty x <> ty y) \/ (forall x y, In x l -> In y l -> is_ok (cmp x y) = false) ->
    exists e, sort_list cmp l = Err e.
  Proof.
    intros HC HL HB.
    pose proof (sort_list_clean l HC) as Hcl.
    assert (HN : is_ok (sort_list cmp l) = false).
    { destruct HB as [[x [y [Hx [Hy Hne]]]]|HB].
      - destruct (sort_list cmp l) eqn:Es; try reflexivity.
        exfalso. apply Hne. eapply sort_slice_ok_one_class; [|exact Es|exact Hx|exact Hy]. lia.
      - apply sort_slice_all_bad; [lia|exact HL|exact HB]. }
    destruct (sort_list cmp l); cbn in *; try discriminate; try contradiction. eauto.
  Qed.
End NoPanic.

(* keyF errors: the first failing call decides, before any comparison *)
Theorem std_sort_keyf_error {A K E} (keyf : A -> outcome K E) cmp (kf : A -> K) pre x post e :
  1 <= length (pre ++ post) ->
  (forall a, In a pre -> keyf a = Ok (kf a)) -> keyf x = Err e ->
  std_sort keyf cmp (pre ++ x :: post) = Err e.
Proof.
  intros HL Hpre Hx. unfold std_sort.
  assert (E1 : (length (pre ++ x :: post) <=? 1) = false).
  { apply Nat.leb_gt. rewrite app_length in *. cbn [length]. lia. }
  rewrite E1, (mapM_first_error keyf pre x post kf Hpre), Hx by (rewrite Hx; reflexivity).
  reflexivity.
Qed.

Theorem std_sort_clean {A K E} (keyf : A -> outcome K E) cmp arr :
  (forall a, In a arr -> clean (keyf a)) ->
  (forall a b, clean (cmp a b)) ->
  clean (std_sort keyf cmp arr).
Proof.
  intros HK HC. unfold std_sort. destruct (length arr <=? 1); [exact I|].
  apply clean_obind; [apply clean_mapM; exact HK|]. intros keys Hkeys.
  assert (HCI : forall i j, In i (seq 0 (length keys)) -> In j (seq 0 (length keys)) -> clean (cmp_idx cmp keys i j)).
  { intros i j Hi Hj. apply in_seq in Hi. apply in_seq in Hj. unfold cmp_idx, key_at.
    destruct (nth_error keys i) eqn:Ei; [|apply nth_error_None in Ei; lia].
    destruct (nth_error keys j) eqn:Ej; [|apply nth_error_None in Ej; lia].
    cbn [obind]. apply HC. }
  apply clean_obind; [apply sort_list_clean; exact HCI|]. intros p Hp.
  apply sort_slice_perm in Hp. rewrite (mapM_ok_length _ _ _ Hkeys) in Hp.
  apply clean_mapM. intros i Hi. apply (Permutation_in _ Hp) in Hi. apply in_seq in Hi.
  unfold elem_at. destruct (nth_error arr i) eqn:Ei; [exact I|]. apply nth_error_None in Ei. lia.
Qed.
