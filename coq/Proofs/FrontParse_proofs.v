(* Proofs/FrontParse_proofs.v — the two facts about the parser model that the composed
   front end (Model/Front.v) needs and that Proofs/Parser_inv.v does not give:

   (a) FUEL: with fuel [default_fuel 64 toks] the parser never answers OutOfFuel, for
       every precedence table whose chain is acyclic ([ranked]); measure = number of
       tokens not yet consumed; potential function for parse_expr's machine.
   (b) NUMBERS: every number literal of the tree is the payload of a number token of
       the input (stated as: number tokens satisfying [number_parses] give a tree
       with [nums_ok]).

   Both are proved in ONE pass over the productions, with a weakest-precondition
   calculus in the style of Parser_inv.v (there OutOfFuel is "True"; here it is
   "False" and panics are "True"). *)
From Coq Require Import Lia.
From RJ Require Import Base.Outcome Model.Token Model.Ast Model.Parser Model.Analyze.
Local Open Scope list_scope.

Definition tok_num_ok (t : token) : Prop :=
  match tok_kind t with TNumber n => number_parses n = true | _ => True end.

Definition TN (s : pst) : Prop := Forall tok_num_ok (cur s :: rest s).
Definition rl (s : pst) : nat := length (rest s).

Definition okn (e : expr) : Prop := node_num_ok e = true.
Definition eok (e : expr) : Prop := Forall okn (nodes e).
Definition oeok (o : option expr) : Prop := Forall okn (opt_list nodes o).
Definition pok (p : param) : Prop := Forall okn (param_nodes nodes p).
Definition bok (b : bind) : Prop := Forall okn (bind_nodes nodes b).
Definition aok (a : assert_) : Prop := Forall okn (assert_nodes nodes a).
Definition cok (c : comp_spec) : Prop := Forall okn (spec_nodes nodes c).
Definition fnok (n : field_name) : Prop := Forall okn (fname_nodes nodes n).
Definition fok (f : field) : Prop := Forall okn (field_nodes nodes f).
Definition mok (m : member) : Prop := Forall okn (member_nodes nodes m).
Definition argok (a : arg) : Prop := Forall okn (arg_nodes nodes a).
Definition ook (o : obj_inside) : Prop := Forall okn (obj_nodes nodes o).

Lemma eok_nums_ok e : eok e -> nums_ok e = true.
Proof. intros H. unfold nums_ok. apply forallb_forall. apply Forall_forall. exact H. Qed.

Lemma Forall_flat {A B} (Q : B -> Prop) (f : A -> list B) l :
  Forall Q (flat f l) <-> Forall (fun x => Forall Q (f x)) l.
Proof.
  induction l as [|x t IH]; cbn [flat].
  - split; constructor.
  - rewrite Forall_app, IH. split.
    + intros [H1 H2]. constructor; assumption.
    + intros H. inversion H; subst. split; assumption.
Qed.

Lemma Forall_snoc {A} (Q : A -> Prop) l x : Forall Q l -> Q x -> Forall Q (l ++ [x]).
Proof. intros H1 H2. apply Forall_app. split; [exact H1|constructor; [exact H2|constructor]]. Qed.

(* solves "the node built here is ok because its parts are" *)
Ltac oks :=
  unfold eok, oeok, pok, bok, aok, cok, fnok, fok, mok, argok, ook in *;
  cbn [nodes obj_nodes member_nodes field_nodes fname_nodes spec_nodes assert_nodes bind_nodes
       param_nodes arg_nodes opt_list fst snd] in *;
  repeat match goal with
         | H : _ /\ _ |- _ => destruct H
         end;
  repeat first [ rewrite Forall_app | rewrite Forall_flat | rewrite Forall_cons_iff ];
  repeat match goal with
         | |- _ /\ _ => split
         | |- okn _ => reflexivity
         | |- True => exact I
         | |- Forall _ [] => constructor
         end;
  try assumption.

Definition fldok (f : option (expr * bool * expr)) : Prop :=
  match f with Some (n, _, b) => eok n /\ eok b | None => True end.

(* [make_comp] never answers OutOfFuel, and builds a fine comprehension from fine members *)
Lemma make_comp_go_ok ms : forall l1 l2 fld,
  Forall mok ms -> Forall bok l1 -> Forall bok l2 -> fldok fld ->
  match make_comp_go ms l1 l2 fld with
  | Ok (l1', l2', fld') => Forall bok l1' /\ Forall bok l2' /\ fldok fld'
  | OutOfFuel => False
  | _ => True
  end.
Proof.
  induction ms as [|m r IH]; intros l1 l2 fld Hms H1 H2 Hf; cbn [make_comp_go]; [auto|].
  inversion Hms as [|? ? Hm Hr]; subst.
  destruct m as [b|a|f]; [destruct fld; apply IH; auto using Forall_snoc | exact I |].
  destruct f as [nm plus vis body|]; [|exact I].
  destruct nm as [| |name nsp]; try exact I. destruct vis; try exact I.
  destruct fld as [x|]; [exact I|]. apply IH; auto.
  unfold mok in Hm. cbn [member_nodes field_nodes fname_nodes] in Hm. apply Forall_app in Hm. exact Hm.
Qed.

Definition wpf {A} (o : outcome (A * pst) parse_error) (Post : A -> pst -> Prop) : Prop :=
  match o with Ok (a, s') => Post a s' | OutOfFuel => False | _ => True end.

(* [tr R m Q]: from a state whose number tokens are fine and whose remaining-token
   count satisfies R, [m] does not run out of fuel, consumes tokens only, keeps the
   number tokens fine, and relates the counts and the value by Q *)
Definition tr {A} (R : nat -> Prop) (m : P A) (Q : nat -> A -> nat -> Prop) : Prop :=
  forall s, TN s -> R (rl s) ->
    wpf (m s) (fun a s' => TN s' /\ rl s' <= rl s /\ Q (rl s) a (rl s')).

Notation TT := (fun _ : nat => True).

Definition optQ {A} (K : A -> Prop) : nat -> option A -> nat -> Prop :=
  fun r o r' => match o with Some a => K a /\ r' < r | None => r' = r end.
Definition ltQ {A} (K : A -> Prop) : nat -> A -> nat -> Prop := fun r a r' => K a /\ r' < r.
Definition leQ {A} (K : A -> Prop) : nat -> A -> nat -> Prop := fun _ a _ => K a.
Notation any := (fun _ => True).

Lemma wpf_conseq A (o : outcome (A * pst) parse_error) (Q1 Q2 : A -> pst -> Prop) :
  wpf o Q1 -> (forall a s', Q1 a s' -> Q2 a s') -> wpf o Q2.
Proof. unfold wpf. destruct o as [[a s']|e|site|]; auto. Qed.

Lemma wpf_ret A (a : A) s (Post : A -> pst -> Prop) : Post a s -> wpf (ret a s) Post.
Proof. intros H. exact H. Qed.

Lemma wpf_bind A B (m : P A) (f : A -> P B) s (Post : B -> pst -> Prop) :
  wpf (m s) (fun a s' => wpf (f a s') Post) -> wpf (bindP m f s) Post.
Proof. unfold bindP, wpf. destruct (m s) as [[a s']|e|site|]; auto. Qed.

Lemma wpf_orelse A B (m : P (option A)) (f : A -> P B) (k : unit -> P B) s (Post : B -> pst -> Prop) :
  wpf (m s) (fun o s' => match o with Some a => wpf (f a s') Post | None => wpf (k tt s') Post end) ->
  wpf (orelse m f k s) Post.
Proof. unfold orelse, wpf. destruct (m s) as [[[a|] s']|e|site|]; auto. Qed.

Lemma wpf_mk_span a b s (Post : span -> pst -> Prop) :
  (forall sp, Post sp s) -> wpf (mk_span a b s) Post.
Proof. intros HP. unfold mk_span. destruct (N.leb (fst a) (snd b)); [apply HP|exact I]. Qed.

Lemma wpf_report A s (Post : A -> pst -> Prop) : wpf (@report_expected A s) Post.
Proof. unfold report_expected. destruct (actual_of (tok_kind (cur s))); exact I. Qed.

Lemma wpf_panic A site s (Post : A -> pst -> Prop) : wpf (@panic A site s) Post.
Proof. exact I. Qed.

Lemma wpf_make_comp ms cs s (Post : obj_inside -> pst -> Prop) :
  Forall mok ms -> Forall cok cs -> (forall oi, ook oi -> Post oi s) -> wpf (lift (make_comp ms cs) s) Post.
Proof.
  intros Hms Hcs HP. unfold lift, make_comp.
  pose proof (make_comp_go_ok ms [] [] None Hms (Forall_nil _) (Forall_nil _) I) as H.
  destruct (make_comp_go ms [] [] None) as [[[l1 l2] [[[n p] b]|]]| | |]; try exact I; [|destruct H].
  destruct H as (H1 & H2 & Hn & Hb). apply HP. unfold ook. cbn [obj_nodes].
  rewrite !Forall_app, !Forall_flat. repeat split; assumption.
Qed.

Lemma wpf_use A (R : nat -> Prop) (m : P A) (Q : nat -> A -> nat -> Prop) s (Post : A -> pst -> Prop) :
  tr R m Q -> TN s -> R (rl s) ->
  (forall a s', TN s' -> rl s' <= rl s -> Q (rl s) a (rl s') -> Post a s') ->
  wpf (m s) Post.
Proof.
  intros Hm HT HR HP. eapply wpf_conseq; [exact (Hm s HT HR)|].
  intros a s' (HT' & Hle & HQ). exact (HP a s' HT' Hle HQ).
Qed.

Lemma tr_call A (R : nat -> Prop) (m : P A) Q : tr R m Q -> tr R (call m) Q.
Proof.
  intros Hm s HT HR. unfold call. cbv zeta.
  pose proof (Hm {| cur := cur s; rest := rest s; exps := exps s; dcur := N.succ (dcur s);
                    dmax := N.max (dmax s) (N.succ (dcur s)) |} HT HR) as H.
  destruct (m _) as [[a s']|e|site|]; [exact H|exact I|exact I|exact H].
Qed.

Lemma tr_weaken A (R R' : nat -> Prop) (m : P A) (Q Q' : nat -> A -> nat -> Prop) :
  tr R m Q -> (forall r, R' r -> R r) -> (forall r a r', r' <= r -> R' r -> Q r a r' -> Q' r a r') ->
  tr R' m Q'.
Proof.
  intros Hm HR HQ s HT HR'. eapply wpf_conseq; [exact (Hm s HT (HR _ HR'))|].
  intros a s' (HT' & Hle & HQ1). split; [exact HT'|]. split; [exact Hle|]. apply HQ; assumption.
Qed.

(* the two ways a token-class test ends: the current token is taken, or nothing is consumed *)
Lemma wpf_take B (K : B -> Prop) (g : token -> B) s : TN s -> K (g (cur s)) ->
  wpf ((t <- next_token ;; ret (Some (g t))) s)
      (fun a s' => TN s' /\ rl s' <= rl s /\ optQ K (rl s) a (rl s')).
Proof.
  intros HT HK. unfold bindP, next_token, TN, rl in *. destruct (rest s) as [|t r]; [exact I|].
  cbn [wpf ret optQ cur rest length]. inversion HT; subst. repeat split; [assumption|lia|exact HK|lia].
Qed.

Lemma wpf_miss B (K : B -> Prop) x add s : TN s ->
  wpf (@miss B x add s) (fun a s' => TN s' /\ rl s' <= rl s /\ optQ K (rl s) a (rl s')).
Proof. intros HT. unfold miss. destruct add; cbn [wpf optQ]; repeat split; (exact HT || reflexivity). Qed.

Lemma tr_eat_simple k add : tr TT (eat_simple k add) (optQ any).
Proof.
  intros s HT _. unfold eat_simple. destruct (is_simple k (cur s)); [|apply wpf_miss, HT].
  apply (wpf_take _ any tok_span); [exact HT|exact I].
Qed.

Lemma tr_eat_ident add : tr TT (eat_ident add) (optQ any).
Proof.
  intros s HT _. unfold eat_ident. destruct (tok_kind (cur s)); try (apply wpf_miss, HT).
  apply (wpf_take _ any (fun t => {| id_value := name; id_span := tok_span t |})); [exact HT|exact I].
Qed.

Lemma tr_eat_number add :
  tr TT (eat_number add) (optQ (fun p : number * span => number_parses (fst p) = true)).
Proof.
  intros s HT _. unfold eat_number. destruct (tok_kind (cur s)) eqn:Hk; try (apply wpf_miss, HT).
  apply (wpf_take _ _ (fun t => (n, tok_span t))); [exact HT|]. cbn [fst].
  inversion HT as [|? ? Hc _]; subst. unfold tok_num_ok in Hc. rewrite Hk in Hc. exact Hc.
Qed.

Lemma tr_eat_string add : tr TT (eat_string add) (optQ any).
Proof.
  intros s HT _. unfold eat_string. destruct (tok_kind (cur s)); try (apply wpf_miss, HT).
  apply (wpf_take _ any (fun t => (s0, tok_span t))); [exact HT|exact I].
Qed.

Lemma tr_eat_text_block add : tr TT (eat_text_block add) (optQ any).
Proof.
  intros s HT _. unfold eat_text_block. destruct (tok_kind (cur s)); try (apply wpf_miss, HT).
  apply (wpf_take _ any (fun t => (s0, tok_span t))); [exact HT|exact I].
Qed.

Lemma tr_push_expected x : tr TT (push_expected x) (fun r _ r' => r' = r).
Proof. intros s HT _. unfold push_expected. cbn [wpf]. repeat split; [exact HT|reflexivity]. Qed.

Create HintDb trdb.
#[export] Hint Resolve tr_eat_simple tr_eat_ident tr_eat_number tr_eat_string tr_eat_text_block
  tr_push_expected : trdb.

Ltac clean_hyps :=
  repeat match goal with
         | H : _ /\ _ |- _ => destruct H
         | H : optQ _ _ (Some _) _ |- _ => cbn [optQ] in H
         | H : optQ _ _ None _ |- _ => cbn [optQ] in H
         | H : ltQ _ _ _ _ |- _ => unfold ltQ in H
         | H : leQ _ _ _ _ |- _ => unfold leQ in H
         | H : True |- _ => clear H
         (* a token test that missed: go on with the count of the new state, so that the
            arithmetic context does not grow with every alternative tried *)
         | H : rl _ = rl _ |- _ => rewrite <- H in *; clear H
         | H : ?x <= ?x |- _ => clear H
         end.

Ltac wpf_intros :=
  let a := fresh "a" in let s' := fresh "s" in let HT' := fresh "HT" in
  let Hle := fresh "Hle" in let HQ := fresh "HQ" in
  intros a s' HT' Hle HQ; cbv beta in HQ; clean_hyps.

(* the side conditions: arithmetic on the counts, and that a node built from fine parts is fine *)
Ltac fin :=
  cbv beta iota zeta; unfold ltQ, leQ; cbn [optQ fst snd];
  try match goal with
      | H : optQ _ _ ?a _ |- context [optQ _ _ ?a _] => destruct a; cbn [optQ] in *; clean_hyps
      end;
  repeat match goal with
         | |- _ /\ _ => split
         | |- True => exact I
         | |- TN _ => assumption
         end;
  try lia; try solve [oks]; try solve [oks; oks].

(* one step of symbolic execution: the rule of the calculus for the head of the program; a
   production already treated is looked up in [trdb] *)
Ltac step :=
  lazymatch goal with
  | |- wpf (bindP _ _ _) _ => apply wpf_bind
  | |- wpf (orelse _ _ _ _) _ => apply wpf_orelse
  | |- wpf (ret _ _) _ => apply wpf_ret; cbv beta iota zeta
  | |- wpf (mk_span _ _ _) _ => apply wpf_mk_span; intro; cbv beta iota zeta
  | |- wpf (report_expected _) _ => apply wpf_report
  | |- wpf (panic _ _) _ => exact I
  | |- wpf (fin_slice _ _ _ _ _ _) _ => unfold fin_slice
  | |- wpf (prefix_form _ _ _ _) _ => unfold prefix_form
  | |- wpf (opt_expr _ _ _) _ => unfold opt_expr
  | |- wpf ((match ?x with _ => _ end) _) _ =>
      first [is_var x; destruct x | destruct x eqn:?]; cbv beta iota zeta; clean_hyps
  | |- wpf (match ?x with _ => _ end) _ =>
      first [is_var x; destruct x | destruct x eqn:?]; cbv beta iota zeta; clean_hyps
  | |- match ?x with _ => _ end => first [is_var x; destruct x | destruct x eqn:?]; cbv beta iota zeta; clean_hyps
  | |- wpf ((if ?x then _ else _) _) _ => destruct x; cbv beta iota zeta
  | |- wpf (if ?x then _ else _) _ => destruct x; cbv beta iota zeta
  | |- wpf ((let _ := _ in _) _) _ => cbv zeta
  | |- wpf (let _ := _ in _) _ => cbv zeta
  | |- wpf ((fun _ => _) _) _ => cbv beta
  | |- wpf (?m ?s) _ =>
      eapply wpf_use; [solve [eauto with trdb nocore] | assumption | cbv beta; fin | wpf_intros]
  | |- TN _ /\ _ => fin
  end.

Ltac side :=
  try assumption; try (apply Forall_snoc; [assumption|]); try assumption; try solve [oks]; try solve [constructor].
(* a call whose triple has side conditions (loops: the accumulator is fine) *)
Ltac use L := eapply wpf_use; [eapply L | assumption | fin | wpf_intros; try fin]; side.

Ltac start := let s := fresh "s" in let HT := fresh "HT" in let HR := fresh "HR" in
  intros s HT HR; cbv beta in HR; clean_hyps.
Ltac run := repeat step.

Lemma tr_expect_simple k add : tr TT (expect_simple k add) (ltQ any).
Proof. unfold expect_simple. start. run. Qed.

Lemma tr_expect_ident add : tr TT (expect_ident add) (ltQ any).
Proof. unfold expect_ident. start. run. Qed.

Lemma tr_eat_visibility add : tr TT (eat_visibility add) (optQ any).
Proof. unfold eat_visibility. start. run. Qed.

Lemma tr_eat_plus_visibility add : tr TT (eat_plus_visibility add) (optQ any).
Proof. unfold eat_plus_visibility. start. run. Qed.

Lemma tr_eat_first O (l : list (stoken * O)) : tr TT (eat_first l) (optQ any).
Proof.
  induction l as [|[tk op] r IH]; cbn [eat_first]; start; run.
Qed.

#[export] Hint Resolve tr_expect_simple tr_expect_ident tr_eat_visibility tr_eat_plus_visibility
  tr_eat_first : trdb.

Section Prods.
  Variable T : prec_table.
  Variable pexpr : P expr.
  Variable lf : nat.
  Variable n0 : nat.      (* tokens not yet consumed when the enclosing parse_expr started *)

  Notation LE := (fun r : nat => r <= n0).
  Notation LT := (fun r : nat => r < n0).

  Hypothesis Hpe : tr LT pexpr (ltQ eok).
  Hypothesis Hlf : n0 < lf.

  Lemma tr_opt_expr c : tr LT (opt_expr pexpr c) (leQ oeok).
  Proof. unfold opt_expr. start. run. Qed.
  Hint Resolve tr_opt_expr : trdb.

  Lemma tr_parse_maybe_simple_expr : tr TT (parse_maybe_simple_expr) (optQ eok).
  Proof.
    unfold parse_maybe_simple_expr. apply tr_call. start. run.
    all: try (unfold eok; cbn [nodes]; constructor; [|constructor]; unfold okn; cbn [node_num_ok]; try reflexivity).
    all: try assumption.
  Qed.
  Hint Resolve tr_parse_maybe_simple_expr : trdb.

  Lemma tr_maybe_parse_assert add :
    tr LE (maybe_parse_assert pexpr add) (optQ (fun p : span * assert_ => aok (snd p))).
  Proof. unfold maybe_parse_assert. apply tr_call. start. run. Qed.
  Hint Resolve tr_maybe_parse_assert : trdb.

  Lemma tr_params_loop : forall fuel acc, Forall pok acc ->
    tr (fun r => r < fuel /\ r <= n0) (params_loop pexpr fuel acc)
       (ltQ (fun p : list param * span => Forall pok (fst p))).
  Proof.
    induction fuel as [|f IH]; intros acc Hacc; [intros s _ [H _]; lia|].
    cbn [params_loop]. start. run. all: use IH.
  Qed.

  Lemma tr_parse_params :
    tr LE (parse_params pexpr lf) (ltQ (fun p : list param * span => Forall pok (fst p))).
  Proof.
    unfold parse_params. apply tr_call. start. run.
    use tr_params_loop.
  Qed.
  Hint Resolve tr_parse_params : trdb.

  Lemma tr_parse_arg : tr LT (parse_arg pexpr) (ltQ argok).
  Proof. unfold parse_arg. apply tr_call. start. run. Qed.
  Hint Resolve tr_parse_arg : trdb.

  Lemma tr_args_loop : forall fuel acc, Forall argok acc ->
    tr (fun r => r < fuel /\ r < n0) (args_loop pexpr fuel acc)
       (ltQ (fun p : list arg * span => Forall argok (fst p))).
  Proof.
    induction fuel as [|f IH]; intros acc Hacc; [intros s _ [H _]; lia|].
    cbn [args_loop]. start. run. all: use IH.
  Qed.

  Lemma tr_parse_args :
    tr LT (parse_args pexpr lf) (ltQ (fun p : list arg * span => Forall argok (fst p))).
  Proof.
    unfold parse_args. apply tr_call. start. run.
    use tr_args_loop.
  Qed.
  Hint Resolve tr_parse_args : trdb.

  Lemma tr_parse_bind : tr LE (parse_bind pexpr lf) (ltQ bok).
  Proof. unfold parse_bind. apply tr_call. start. run. Qed.
  Hint Resolve tr_parse_bind : trdb.

  Lemma tr_maybe_parse_obj_local : tr LE (maybe_parse_obj_local pexpr lf) (optQ bok).
  Proof. unfold maybe_parse_obj_local. apply tr_call. start. run. Qed.
  Hint Resolve tr_maybe_parse_obj_local : trdb.

  Lemma tr_maybe_parse_for_spec : tr LE (maybe_parse_for_spec pexpr) (optQ cok).
  Proof. unfold maybe_parse_for_spec. apply tr_call. start. run. Qed.
  Lemma tr_maybe_parse_if_spec : tr LE (maybe_parse_if_spec pexpr) (optQ cok).
  Proof. unfold maybe_parse_if_spec. apply tr_call. start. run. Qed.
  Hint Resolve tr_maybe_parse_for_spec tr_maybe_parse_if_spec : trdb.

  Lemma tr_comp_spec_loop : forall fuel acc, Forall cok acc ->
    tr (fun r => r < fuel /\ r <= n0) (comp_spec_loop pexpr fuel acc) (leQ (Forall cok)).
  Proof.
    induction fuel as [|f IH]; intros acc Hacc; [intros s _ [H _]; lia|].
    cbn [comp_spec_loop]. start. run. all: use IH.
  Qed.

  Lemma tr_maybe_parse_comp_spec :
    tr LE (maybe_parse_comp_spec pexpr lf) (optQ (Forall cok)).
  Proof.
    unfold maybe_parse_comp_spec. apply tr_call. start. run.
    eapply wpf_use; [eapply tr_comp_spec_loop | assumption | fin | wpf_intros; run].
    constructor; [assumption|constructor].
  Qed.
  Hint Resolve tr_maybe_parse_comp_spec : trdb.

  Lemma tr_maybe_parse_field_name : tr LE (maybe_parse_field_name pexpr) (optQ fnok).
  Proof. unfold maybe_parse_field_name. apply tr_call. start. run. Qed.
  Hint Resolve tr_maybe_parse_field_name : trdb.

  Lemma tr_maybe_parse_field : tr LE (maybe_parse_field pexpr lf) (optQ fok).
  Proof. unfold maybe_parse_field. apply tr_call. start. run. Qed.
  Hint Resolve tr_maybe_parse_field : trdb.

  Lemma tr_comp_tail ms : Forall mok ms ->
    tr LE (comp_tail pexpr lf ms) (optQ (fun p : obj_inside * span => ook (fst p))).
  Proof.
    intros Hms. unfold comp_tail. start. run.
    apply wpf_make_comp; [assumption | assumption | intros oi Hoi; run].
  Qed.

  Lemma tr_obj_loop : forall fuel ms cbc hd, Forall mok ms ->
    tr (fun r => r < fuel /\ r <= n0) (obj_loop pexpr lf fuel ms cbc hd)
       (ltQ (fun p : obj_inside * span => ook (fst p))).
  Proof.
    induction fuel as [|f IH]; intros ms cbc hd Hms; [intros s _ [H _]; lia|].
    cbn [obj_loop]. start.
    apply wpf_bind.
    apply (wpf_conseq _ _ (fun (x : list member * bool * bool) s' =>
             TN s' /\ rl s' < rl s /\ Forall mok (fst (fst x)))).
    - run.
      all: try (apply Forall_snoc; [assumption|oks]).
    - intros [[ms' cbc'] hd'] s1 (HT1 & Hlt1 & Hms'). cbn [fst] in Hms'.
      assert (Hok : ook (OMembers ms')) by (unfold ook; cbn [obj_nodes]; apply Forall_flat; exact Hms').
      run.
      all: try (eapply wpf_use; [apply (tr_comp_tail ms' Hms')| assumption | fin | wpf_intros; run]).
      all: try (use IH).
  Qed.

  Lemma tr_parse_obj_inside :
    tr LE (parse_obj_inside pexpr lf) (ltQ (fun p : obj_inside * span => ook (fst p))).
  Proof.
    unfold parse_obj_inside. apply tr_call. start. run.
    use tr_obj_loop.
  Qed.
  Hint Resolve tr_parse_obj_inside : trdb.

  Lemma tr_idx3 : tr LT (idx3 pexpr) (ltQ (fun p : option expr * span => oeok (fst p))).
  Proof. unfold idx3. start. run. Qed.
  Hint Resolve tr_idx3 : trdb.

  Lemma tr_after2 : tr LT (after2 pexpr) (ltQ (fun p : option expr * span => oeok (fst p))).
  Proof. unfold after2. start. run. Qed.
  Hint Resolve tr_after2 : trdb.

  Lemma tr_parse_index_expr lhs : eok lhs -> tr LT (parse_index_expr pexpr lhs) (ltQ eok).
  Proof.
    intros Hl. unfold parse_index_expr. apply tr_call. start. run.
  Qed.

  Lemma tr_suffix_loop : forall fuel lhs, eok lhs ->
    tr (fun r => r < fuel /\ r <= n0) (suffix_loop pexpr lf fuel lhs) (leQ eok).
  Proof.
    induction fuel as [|f IH]; intros lhs Hl; [intros s _ [H _]; lia|].
    cbn [suffix_loop]. start. run.
    all: try (use IH).
    use tr_parse_index_expr. use IH.
  Qed.

  Lemma tr_parse_suffix_expr e : eok e -> tr LE (parse_suffix_expr pexpr lf e) (leQ eok).
  Proof.
    intros He. unfold parse_suffix_expr. apply tr_call. start.
    use tr_suffix_loop.
  Qed.

  Lemma tr_binds_loop : forall fuel acc, Forall bok acc ->
    tr (fun r => r < fuel /\ r <= n0) (binds_loop pexpr lf fuel acc) (leQ (Forall bok)).
  Proof.
    induction fuel as [|f IH]; intros acc Hacc; [intros s _ [H _]; lia|].
    cbn [binds_loop]. start. run. all: use IH.
  Qed.

  (* parse_expr's machine: [64 * r + Phi st stk] (r the tokens left) falls at every turn: a turn
     that consumes no token lowers [Phi]; one that does may raise it, by less than 64 *)
  Variable rank : binop_kind -> nat.
  Hypothesis Hrank_le : forall k, rank k <= 9.
  Hypothesis Hrank : forall k k', pt_next T k = Some k' -> rank k' < rank k.

  Definition phi (st : pstate) : nat :=
    match st with
    | StParsed _ => 0
    | StBinaryRhs _ _ => 1
    | StBinary k => 3 * rank k + 6
    | StUnary => 3
    | StPrimary => 1
    end.
  Definition w (it : stack_item) : nat :=
    match it with SiBinaryLhs _ | SiBinaryRhs _ _ _ => 2 | _ => 1 end.
  Fixpoint wsum (stk : list stack_item) : nat :=
    match stk with [] => 0 | it :: r => w it + wsum r end.
  Definition Phi (st : pstate) (stk : list stack_item) : nat := phi st + wsum stk.

  Definition st_ok (st : pstate) : Prop :=
    match st with StParsed e => eok e | StBinaryRhs _ lhs => eok lhs | _ => True end.
  Definition item_ok (it : stack_item) : Prop :=
    match it with
    | SiBinaryRhs _ lhs _ => eok lhs
    | SiArrayItemN _ items => Forall eok items
    | _ => True
    end.
  Definition strict (st : pstate) : bool :=
    match st with StParsed _ | StBinaryRhs _ _ => false | _ => true end.

  Lemma phi_next k : phi (next_state T k) + 3 <= phi (StBinary k).
  Proof.
    unfold next_state. destruct (pt_next T k) as [k'|] eqn:E; cbn [phi]; [|lia].
    pose proof (Hrank k k' E). lia.
  Qed.
  Lemma phi_init : phi (init_state T) <= 33.
  Proof. unfold init_state. cbn [phi]. pose proof (Hrank_le (pt_init T)). lia. Qed.
  Lemma strict_next k : strict (next_state T k) = true.
  Proof. unfold next_state. destruct (pt_next T k); reflexivity. Qed.
  Lemma st_ok_next k : st_ok (next_state T k).
  Proof. unfold next_state. destruct (pt_next T k); exact I. Qed.

  (* one turn of the machine, from [st], [stk] at [s] to [st'], [stk'] at [s']: no token comes back, the
     potential falls, and a turn out of a strict state has consumed a token unless it leads to a strict state *)
  Lemma pe_turn f st stk st' stk' s s' :
    (forall st stk, st_ok st -> Forall item_ok stk ->
       tr (fun r => 64 * r + Phi st stk < f /\ r <= n0) (pe_loop T pexpr lf f st stk)
          (fun r e r' => eok e /\ (strict st = true -> r' < r))) ->
    64 * rl s + Phi st stk < S f -> rl s <= n0 ->
    TN s' -> st_ok st' -> Forall item_ok stk' ->
    rl s' <= rl s /\ 64 * rl s' + Phi st' stk' < 64 * rl s + Phi st stk ->
    (strict st = true -> rl s' < rl s \/ strict st' = true) ->
    wpf (pe_loop T pexpr lf f st' stk' s')
        (fun a s'' => TN s'' /\ rl s'' <= rl s /\ eok a /\ (strict st = true -> rl s'' < rl s)).
  Proof.
    intros IH HR Hn HT Hst Hstk [Hle Hphi] Hstrict.
    eapply wpf_use; [exact (IH st' stk' Hst Hstk) | exact HT | cbv beta; lia |].
    cbv beta. intros a s'' HT'' Hle'' [He Hs]. repeat split; [assumption | lia | assumption |].
    intros Hb. destruct (Hstrict Hb) as [Hlt|Hb']; [lia | specialize (Hs Hb'); lia].
  Qed.

  Ltac pe_side :=
    unfold Phi, init_state in *; cbn [st_ok item_ok phi wsum w strict] in *;
    try match goal with |- _ <= _ /\ _ < _ => lia end;
    repeat match goal with
           | |- _ /\ _ => split
           | |- True => exact I
           | |- TN _ => assumption
           | |- st_ok (next_state _ _) => apply st_ok_next
           | |- Forall item_ok (_ :: _) => constructor; cbn [item_ok]
           | |- Forall eok (_ ++ [_]) => apply Forall_snoc
           | |- Forall eok [_] => constructor; [|constructor]
           | |- false = true -> _ => let H := fresh in intros H; discriminate H
           | |- true = true -> _ => intros _
           | |- _ \/ true = true => right; reflexivity
           | |- _ \/ strict (next_state _ _) = true => right; apply strict_next
           | H : is_some ?a = true |- _ => destruct a; [clear H; cbn [optQ] in *; clean_hyps | discriminate H]
           end;
    try assumption; try lia; try solve [oks].

  Ltac pe_use IH :=
    eapply (pe_turn _ _ _ _ _ _ _ IH); [eassumption | assumption | assumption | | | | ]; pe_side.

  Lemma tr_pe_loop : forall fuel st stk, st_ok st -> Forall item_ok stk ->
    tr (fun r => 64 * r + Phi st stk < fuel /\ r <= n0) (pe_loop T pexpr lf fuel st stk)
       (fun r e r' => eok e /\ (strict st = true -> r' < r)).
  Proof.
    induction fuel as [|f IH]; intros st stk Hst Hstk; [intros s _ [H _]; lia|].
    pose proof phi_init as Hin.
    cbn [pe_loop]. destruct st as [e|k|k lhs| |]; cbn [st_ok] in Hst.
    - (* StParsed *)
      destruct stk as [|it stk']; [start; run; pe_side|].
      apply Forall_cons_iff in Hstk. destruct Hstk as [Hit Hstk'].
      destruct it; cbn [item_ok] in Hit; start; run.
      all: try (pe_use IH).
      all: try (use tr_parse_suffix_expr; pe_use IH).
      all: pe_side.
    - (* StBinary *)
      pose proof (phi_next k). start. pe_use IH.
    - (* StBinaryRhs *)
      pose proof (phi_next k). pose proof (Hrank_le k). start. run.
      all: try (pe_use IH).
      all: pe_side.
    - (* StUnary *)
      start. run. all: try (pe_use IH). all: pe_side.
    - (* StPrimary *)
      start. run.
      all: try (eapply wpf_use; [eapply tr_binds_loop; constructor; [eassumption|constructor]
                                | assumption | fin | wpf_intros; run]).
      all: try (pe_use IH).
      all: pe_side.
  Qed.

End Prods.

(* the chain of precedence levels is acyclic and at most 10 long *)
Definition ranked (T : prec_table) : Prop :=
  exists rank : binop_kind -> nat,
    (forall k, rank k <= 9) /\ (forall k k', pt_next T k = Some k' -> rank k' < rank k).

Lemma tr_parse_expr T : ranked T -> forall F,
  tr (fun r => 64 * r + 128 <= F) (parse_expr T F) (ltQ eok).
Proof.
  intros (rank & Hle & Hr). induction F as [|f IH]; [intros s _ H; lia|].
  change (parse_expr T (S f)) with (call (pe_loop T (parse_expr T f) f f (init_state T) [])).
  apply tr_call. intros s HT HR. cbv beta in HR.
  assert (Hpe : tr (fun r => r < rl s) (parse_expr T f) (ltQ eok)).
  { eapply tr_weaken; [exact IH| |].
    - intros r Hr'. cbv beta. lia.
    - intros r a r' _ _ H. exact H. }
  assert (Hlf : rl s < f) by lia.
  pose proof (tr_pe_loop T (parse_expr T f) f (rl s) Hpe Hlf rank Hle Hr f (init_state T) [] I (Forall_nil _)) as Hl.
  eapply wpf_use; [exact Hl|exact HT| |].
  - cbv beta. pose proof (phi_init T f (rl s) Hlf rank Hle). unfold Phi. cbn [wsum]. lia.
  - intros e s' HT' Hle' [He Hs]. split; [exact HT'|]. split; [exact Hle'|]. split; [exact He|].
    apply Hs. reflexivity.
Qed.

Lemma wpf_parse_root_expr T F s : ranked T -> TN s -> 64 * rl s + 128 <= F ->
  wpf (parse_root_expr T F s) (fun e _ => eok e).
Proof.
  intros HR HT HF. unfold parse_root_expr. apply wpf_bind.
  eapply wpf_use; [exact (tr_parse_expr T HR F)|exact HT|exact HF|].
  intros e s1 HT1 Hle1 [He _]. apply wpf_bind. unfold eat_eof.
  destruct (tok_kind (cur s1)); try (cbn [wpf]; apply wpf_report).
  destruct (rest s1); [|exact I]. cbn [wpf]. exact He.
Qed.

(* (a) + (b) for the entry point the composed front end uses *)
Theorem parse_fuel_sufficient : forall T F toks,
  ranked T -> 64 * (length toks + 1) + 64 <= F -> Forall tok_num_ok toks ->
  parse_fuel T F toks <> OutOfFuel /\
  (forall e d, parse_fuel T F toks = Ok (e, d) -> nums_ok e = true).
Proof.
  intros T F toks HR HF HN. unfold parse_fuel. destruct toks as [|t r]; [split; [discriminate|intros; discriminate]|].
  assert (HT : TN (init_pst t r)) by exact HN.
  assert (HF' : 64 * rl (init_pst t r) + 128 <= F) by (unfold rl; cbn [init_pst rest length] in *; lia).
  pose proof (wpf_parse_root_expr T F (init_pst t r) HR HT HF') as H.
  destruct (parse_root_expr T F (init_pst t r)) as [[e s']|e|site|]; cbn [wpf] in H.
  - split; [discriminate|]. intros e0 d Heq. injection Heq as <- _. apply eok_nums_ok. exact H.
  - split; [discriminate|intros; discriminate].
  - split; [discriminate|intros; discriminate].
  - destruct H.
Qed.

Theorem parse_total_nums : forall T toks, ranked T -> Forall tok_num_ok toks ->
  parse T toks <> OutOfFuel /\ (forall e d, parse T toks = Ok (e, d) -> nums_ok e = true).
Proof.
  intros T toks HR HN. unfold parse. apply parse_fuel_sufficient; [exact HR| |exact HN].
  unfold default_fuel. lia.
Qed.

Definition spec_rank (k : binop_kind) : nat :=
  match k with
  | LvLogicOr => 9 | LvLogicAnd => 8 | LvBitwiseOr => 7 | LvBitwiseXor => 6 | LvBitwiseAnd => 5
  | LvEqCmp => 4 | LvOrdCmp => 3 | LvShift => 2 | LvAdd => 1 | LvMul => 0
  end.

(* [spec_rank] ranks every table that steps down the levels in the specification's order *)
Lemma ranked_by_spec_rank T :
  (forall k k', pt_next T k = Some k' -> spec_rank k' < spec_rank k) -> ranked T.
Proof. intros H. exists spec_rank. split; [intros k; destruct k; cbn; lia | exact H]. Qed.

Lemma spec_prec_ranked : ranked spec_prec.
Proof.
  apply ranked_by_spec_rank. intros k k' H.
  destruct k; cbn in H; try discriminate; injection H as <-; cbn; lia.
Qed.
