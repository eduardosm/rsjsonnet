(* Proofs/Front_proofs.v — the composed front end (Model/Front.v) never panics, never
   runs out of fuel, and every error it reports is located inside the input.

   Composition of:   C14 (Proofs/Lexer_proofs.v)   lex_total, lex_all_good, lex_filter, number_shape
                     C15 (Proofs/Parser_inv.v)     parse_no_panic, parse_error_at_token, span_nesting
                     C09 (Proofs/Analyze*_proofs)  analyze_no_panic, analyze_error_located
   plus the glue proved here and in Proofs/FrontParse_proofs.v:
     G1 lex_tokens_wf       the lexer's output without trivia is a well-formed token stream (wf_tokens),
                            every token span is ordered and inside the input, the last token is EOF at (len,len)
     G2 lex_tokens_nums     every number token of the lexer satisfies the analyzer's number_parses
     G3 parse_total_nums    (FrontParse_proofs) the parser has enough fuel and copies number tokens unchanged
     G4 src_prec_ranked     the translated precedence chain is acyclic
     G5 within_node_spans   span nesting of the tree bounds every span a node carries (so every span of an
                            analyze error) *)
From Coq Require Import Lia.
From RJ Require Import Base.Outcome Model.Token Model.Ast Model.Ir Model.Utf8 Model.Lexer Model.Parser
  Model.Analyze Model.Front Gen.PrecTable.
From RJ Require Import Proofs.Utf8_proofs Proofs.Lexer_proofs Proofs.Parser_inv Proofs.Analyze_proofs
  Proofs.AnalyzeLoc_proofs Proofs.FrontParse_proofs.
Local Open Scope N_scope.

Lemma skip_digits_all s : Forall (fun b => Analyze.is_digit b = true) s -> skip_digits s = (length s, []).
Proof.
  induction 1 as [|c r Hc _ IH]; [reflexivity|]. cbn [skip_digits]. rewrite Hc, IH. reflexivity.
Qed.

Lemma digits_parse ds e : all_digits ds -> ds <> [] ->
  number_parses {| num_digits := ds; num_exp := e |} = true.
Proof.
  intros Hd Hne. unfold number_parses. cbn [num_digits].
  pose proof (Hd : Forall (fun b => Analyze.is_digit b = true) ds) as Hd'.
  destruct ds as [|c r]; [congruence|].
  assert (Hc : (c =? 43) || (c =? 45) = false).
  { inversion Hd' as [|? ? H1 _]; subst. unfold Analyze.is_digit in H1.
    apply andb_true_iff in H1. destruct H1 as [H1 H2]. apply N.leb_le in H1.
    apply orb_false_iff. split; apply N.eqb_neq; lia. }
  rewrite Hc. rewrite (skip_digits_all _ Hd'). cbn [length Nat.eqb negb]. reflexivity.
Qed.

Definition knum (r : outcome (token * Lexer.cur) lex_error) : Prop :=
  match r with Ok (t, _) => tok_num_ok t | _ => True end.

Lemma knum_commit len start c k : (forall n, k <> TNumber n) -> knum (commit len start c k).
Proof.
  intros Hk. unfold commit. destruct (make_span len start (Lexer.pos c)); cbn [obind knum]; try exact I.
  unfold tok_num_ok. cbn [tok_kind]. destruct k; try exact I. exfalso. eapply Hk. reflexivity.
Qed.

Lemma knum_fail len k s e : knum (@fail len (token * Lexer.cur) k s e).
Proof. unfold fail. destruct (make_span len s e); exact I. Qed.

Lemma knum_bind {A} (x : outcome A lex_error) f : (forall a, knum (f a)) -> knum (obind x f).
Proof. intros H. destruct x; cbn [obind]; try exact I. apply H. Qed.

(* a path of the lexer that does not go through [lex_number] fails or commits a token of another kind *)
Ltac kn :=
  repeat first
    [ exact I
    | apply knum_fail
    | apply knum_commit; intros; discriminate
    | apply knum_bind; intros
    | match goal with
      | |- knum (match ?x with _ => _ end) => destruct x
      | |- knum (if ?x then _ else _) => destruct x
      end ].

Lemma knum_number len start b c : knum (lex_number len start b c).
Proof.
  destruct (lex_number len start b c) as [[t c']| | |] eqn:E; try exact I. cbn [knum].
  apply number_shape in E. destruct E as (n & Hk & Hd & Hne & _).
  unfold tok_num_ok. rewrite Hk. destruct n as [ds e]. apply digits_parse; assumption.
Qed.

Lemma knum_next_token len c : knum (Lexer.next_token len c).
Proof.
  unfold Lexer.next_token.
  destruct (eat_any_byte c) as [[b c1]|]; [|kn].
  destruct (assoc_byte b single_table); [kn|].
  destruct (b =? 47).
  { destruct (eat_byte 47 c1); [unfold lex_single_line_comment; kn|].
    destruct (eat_byte 42 c1); [unfold lex_multi_line_comment; kn|].
    unfold lex_operator. destruct (op_loop _ _ _ _ _ _). kn. }
  destruct (b =? 124).
  { destruct (eat_slice [124; 124] c1); [|unfold lex_operator; destruct (op_loop _ _ _ _ _ _); kn].
    unfold lex_text_block. destruct (match eat_byte 45 c0 with Some c2 => (true, c2) | None => (false, c0) end). kn. }
  destruct (mem_byte b op_start_bytes); [unfold lex_operator; destruct (op_loop _ _ _ _ _ _); kn|].
  destruct (is_ws b); [kn|].
  destruct (b =? 35); [unfold lex_single_line_comment; kn|].
  destruct (Lexer.is_digit b); [apply knum_number|].
  destruct (is_ident_start b); [unfold lex_ident; kn|].
  destruct (b =? 64).
  { destruct (eat_byte 39 c1); [unfold lex_verbatim_string; kn|].
    destruct (eat_byte 34 c1); [unfold lex_verbatim_string; kn|kn]. }
  destruct (b =? 39); [unfold lex_quoted_string; kn|].
  destruct (b =? 34); [unfold lex_quoted_string; kn|].
  kn.
Qed.

Lemma lex_loop_nums len : forall fuel keep c toks,
  lex_loop len fuel keep c = Ok toks -> Forall tok_num_ok toks.
Proof.
  induction fuel as [|f IH]; intros keep c toks H; cbn [lex_loop] in H; [discriminate|].
  pose proof (knum_next_token len c) as Hk.
  destruct (Lexer.next_token len c) as [[t c']| | |]; cbn [obind] in H; try discriminate. cbn [knum] in Hk.
  destruct (is_eof (tok_kind t)).
  - injection H as <-. constructor; [exact Hk|constructor].
  - destruct (lex_loop len f keep c') as [ts| | |] eqn:E; cbn [obind] in H; try discriminate.
    injection H as <-. specialize (IH _ _ _ E).
    destruct (keep || negb (is_trivia (tok_kind t))); [constructor; assumption|exact IH].
Qed.

Theorem lex_tokens_nums keep input toks : lex_all keep input = Ok toks -> Forall tok_num_ok toks.
Proof. apply lex_loop_nums. Qed.

Definition span_in (len : N) (sp : span) : Prop := fst sp <= snd sp /\ snd sp <= len.

Lemma wfs_nonempty l : wfs l -> l <> [].
Proof. destruct l; [intros []|discriminate]. Qed.

Lemma tiles_filter len : forall toks at_, tiles_from len at_ toks ->
  let l := filter non_trivia toks in
  wfs l /\ at_ <= fst (tok_span (hd tok0 l)) /\ last l tok0 = eof_at len /\
  Forall (fun t => span_in len (tok_span t)) l /\ at_ <= len.
Proof.
  induction toks as [|t ts IH]; intros at_ H; cbn [tiles_from] in H; [contradiction|].
  cbn [filter]. destruct (is_eof (tok_kind t)) eqn:EO.
  - destruct H as [-> [Sp ->]]. unfold non_trivia. rewrite (eof_not_trivia _ EO). cbn [negb filter].
    apply is_eof_inv in EO. cbv zeta. cbn [wfs hd last]. unfold span_ok, span_in. rewrite Sp. cbn [fst snd].
    split; [split; [lia|exact EO]|]. split; [lia|]. split.
    + destruct t as [sp k]. cbn in *. subst. reflexivity.
    + split; [constructor; [cbv beta; rewrite Sp; cbn [fst snd]; lia|constructor]|lia].
  - destruct H as [e [Sp [Lt T]]]. specialize (IH e T). cbv zeta in IH.
    destruct IH as (Hw & Hhd & Hlast & Hall & Hle).
    assert (NT : non_trivia t = negb (is_trivia (tok_kind t))) by reflexivity.
    destruct (is_trivia (tok_kind t)) eqn:TR; cbn [negb] in NT; rewrite NT.
    + cbv zeta. split; [exact Hw|]. split; [lia|]. split; [exact Hlast|]. split; [exact Hall|lia].
    + cbv zeta. pose proof (wfs_nonempty _ Hw) as Hne.
      destruct (filter non_trivia ts) as [|u r] eqn:EF; [congruence|].
      split.
      * apply wfs_cons2. unfold span_ok. rewrite Sp. cbn [fst snd hd] in *.
        split; [lia|]. split; [|split; [exact Hhd|exact Hw]].
        destruct (tok_kind t); cbn in *; congruence.
      * cbn [hd]. rewrite Sp. cbn [fst]. split; [lia|]. split; [exact Hlast|].
        split; [|lia]. constructor; [|exact Hall]. unfold span_in. rewrite Sp. cbn [fst snd]. lia.
Qed.

Theorem lex_tokens_wf input toks : bytes_ok input -> lex_all false input = Ok toks ->
  wf_tokens toks /\ last toks tok0 = eof_at (input_len input) /\
  Forall (fun t => span_in (input_len input) (tok_span t)) toks.
Proof.
  intros B H. rewrite lex_filter in H. pose proof (lex_all_good input B) as G.
  destruct (lex_all true input) as [toks1| | |]; cbn [omap obind] in H; try discriminate.
  injection H as <-. cbn [good] in G.
  destruct (tiles_filter _ _ _ G) as (Hw & _ & Hlast & Hall & _).
  split; [apply wf_tokens_wfs; exact Hw|]. split; assumption.
Qed.

Lemma src_prec_ranked : ranked src_prec.
Proof.
  apply ranked_by_spec_rank. intros k k' H.
  destruct k; cbn in H; try discriminate; injection H as <-; cbn; lia.
Qed.

Theorem front_parse_total bytes : bytes_ok bytes ->
  (exists toks e, front_parse bytes = Ok (toks, e) /\ nums_ok e = true /\
                  lex_all false bytes = Ok toks /\ exists d, parse src_prec toks = Ok (e, d)) \/
  (exists x, front_parse bytes = Err x /\ match x with FAnalyze _ => False | _ => True end).
Proof.
  intros B. unfold front_parse, front_lex, front_parse_tokens.
  destruct (lex_total false bytes B) as [[toks Hl]|[e [Hl _]]]; rewrite Hl; cbn [inj_err obind].
  2:{ right. exists (FLex e). split; [reflexivity|exact I]. }
  destruct (lex_tokens_wf _ _ B Hl) as (Hwf & _ & _).
  pose proof (lex_tokens_nums _ _ _ Hl) as Hn.
  destruct (parse_total_nums src_prec toks src_prec_ranked Hn) as [Hf Hnum].
  pose proof (parse_no_panic src_prec (default_fuel 64 toks) toks Hwf) as Hp.
  fold (parse src_prec toks) in Hp.
  destruct (parse src_prec toks) as [[e d]|pe|site|] eqn:Hparse; cbn [omap obind fst inj_err].
  - left. exists toks, e. split; [reflexivity|]. split; [exact (Hnum e d eq_refl)|]. split; [reflexivity|eauto].
  - right. exists (FParse pe). split; [reflexivity|exact I].
  - exfalso. exact (Hp site eq_refl).
  - exfalso. exact (Hf eq_refl).
Qed.

Theorem front_no_panic bytes : bytes_ok bytes ->
  (exists r, load_model bytes = Ok r) \/ (exists x, load_model bytes = Err x).
Proof.
  intros B. unfold load_model.
  destruct (front_parse_total bytes B) as [(toks & e & Hp & Hn & _)|(x & Hp & _)]; rewrite Hp; cbn [obind snd].
  - unfold front_analyze, analyze.
    destruct (analyze_no_panic e (mk_env false top_scope) false Hn) as [[i Hi]|[x Hx]]; rewrite ?Hi, ?Hx; cbn [inj_err].
    + left. eauto.
    + right. eauto.
  - right. eauto.
Qed.

Definition SP (p q : N) (l : list span) : Prop := Forall (fun sp => sin p sp q) l.
Definition aspans (l : list expr) : list span := flat node_spans l.
Definition PS (e : expr) : Prop := forall p q, within p q e -> SP p q (aspans (nodes e)).

Lemma SP_mono a b l p q : SP a b l -> p <= a -> b <= q -> SP p q l.
Proof. intros H Hp Hq. eapply Forall_impl; [|exact H]. intros sp Hs. cbv beta in Hs. exact (sin_mono _ _ _ _ _ Hs Hp Hq). Qed.

Lemma SP_app a b l1 l2 : SP a b l1 -> SP a b l2 -> SP a b (l1 ++ l2).
Proof. intros H1 H2. apply Forall_app. split; assumption. Qed.

Lemma SP_cons a b sp l : sin a sp b -> SP a b l -> SP a b (sp :: l).
Proof. intros H1 H2. constructor; assumption. Qed.

Lemma aspans_app l1 l2 : aspans (l1 ++ l2) = aspans l1 ++ aspans l2.
Proof. apply flat_app. Qed.

(* the span list splits as the node list does *)
Ltac sp_parts :=
  rewrite ?aspans_app, ?flat_app; repeat apply SP_app; repeat apply SP_cons; try apply Forall_nil.

(* lists of parts: the nodes (and the spans the parts carry) of a list are bounded when each element's are *)
Lemma L_flat {A} (R W : A -> Prop) (g : A -> list expr) (sps : A -> list span) a b :
  (forall x, R x -> W x -> SP a b (aspans (g x)) /\ SP a b (sps x)) ->
  forall l, Forall R l -> all W l -> SP a b (aspans (flat g l)) /\ SP a b (flat sps l).
Proof.
  intros H l HR. induction HR as [|x r Hx _ IH]; cbn [all flat]; [intros _; split; constructor|].
  intros [H1 H2]. destruct (H x Hx H1) as [A1 A2]. destruct (IH H2) as [B1 B2].
  split; [rewrite aspans_app|]; apply SP_app; assumption.
Qed.

Lemma L_flat1 {A} (R W : A -> Prop) (g : A -> list expr) a b :
  (forall x, R x -> W x -> SP a b (aspans (g x))) ->
  forall l, Forall R l -> all W l -> SP a b (aspans (flat g l)).
Proof.
  intros H l HR HW. apply (L_flat R W g (fun _ => []) a b); auto. intros; split; [auto | constructor].
Qed.

Lemma L_opt a b o : opt_all PS o -> oall (within a b) o -> SP a b (aspans (opt_list nodes o)).
Proof. destruct o as [x|]; cbn [opt_all oall opt_list]; intros H Hw; [exact (H _ _ Hw)|constructor]. Qed.

Lemma L_param a b x : param_all PS x -> in_param a b x ->
  SP a b (aspans (param_nodes nodes x)) /\ sin a (id_span (param_ident x)) b.
Proof.
  destruct x as [n d]. cbn [param_all in_param param_nodes param_ident]. intros H [Hn Hd].
  split; [apply L_opt; assumption|exact Hn].
Qed.

Lemma L_params a b ps : Forall (param_all PS) ps -> all (in_param a b) ps ->
  SP a b (aspans (flat (param_nodes nodes) ps)) /\ SP a b (params_spans ps).
Proof.
  induction 1 as [|x r Hx _ IH]; cbn [all flat params_spans map]; [intros _; split; constructor|].
  intros [H1 H2]. destruct (L_param a b x Hx H1). destruct (IH H2). split; sp_parts; assumption.
Qed.

Lemma L_bind a b x : bind_all PS x -> in_bind a b x ->
  SP a b (aspans (bind_nodes nodes x)) /\ SP a b (bind_spans x).
Proof.
  destruct x as [n [[l sp]|] v]; cbn [bind_all in_bind bind_nodes bind_spans optparams_all opt_list fst];
    intros [Hps Hv] (Hn & Hp & Hw); pose proof (Hv _ _ Hw).
  - (* the parameters are bounded by the span of the parameter list *)
    destruct Hp as [Hsp Hl]. destruct (L_params _ _ l Hps Hl). unfold sin in Hsp.
    split; sp_parts; try assumption; eapply SP_mono; try eassumption; lia.
  - split; sp_parts; assumption.
Qed.

Definition L_binds a b := L_flat _ _ _ _ a b (L_bind a b).

Lemma L_assert a b x : assert_all PS x -> in_assert a b x -> SP a b (aspans (assert_nodes nodes x)).
Proof.
  destruct x as [sp c m]. cbn [assert_all in_assert assert_nodes]. intros [Hc Hm] (Hsp & Hwc & Hwm).
  pose proof (Hc _ _ Hwc). pose proof (L_opt _ _ m Hm Hwm). unfold sin in Hsp.
  sp_parts; eapply SP_mono; try eassumption; lia.
Qed.

Lemma L_spec a b c : spec_all PS c -> in_spec a b c -> SP a b (aspans (spec_nodes nodes c)).
Proof.
  destruct c as [v e|e]; cbn [spec_all in_spec spec_nodes]; intros H Hw.
  - destruct Hw as [_ Hw]. exact (H _ _ Hw).
  - exact (H _ _ Hw).
Qed.

Definition L_specs a b := L_flat1 _ _ _ a b (L_spec a b).

Lemma L_fname a b n : fname_all PS n -> in_fname a b n ->
  SP a b (aspans (fname_nodes nodes n)) /\ SP a b (fname_spans n).
Proof.
  destruct n as [i|s sp|e sp]; cbn [fname_all in_fname fname_nodes fname_spans]; intros H Hw;
    [split; sp_parts; assumption ..|].
  destruct Hw as [Hsp Hw]. pose proof (H _ _ Hw). unfold sin in Hsp.
  split; sp_parts; try assumption. eapply SP_mono; [eassumption|lia|lia].
Qed.

Lemma L_field a b f : field_all PS f -> in_field a b f ->
  SP a b (aspans (field_nodes nodes f)) /\ SP a b (member_spans (MField f)).
Proof.
  destruct f as [n plus vis v|n ps psp vis v]; cbn [field_all in_field field_nodes member_spans].
  - intros [Hn Hv] [Hwn Hwv]. destruct (L_fname a b n Hn Hwn). pose proof (Hv _ _ Hwv).
    split; sp_parts; assumption.
  - intros (Hn & Hps & Hv) (Hwn & Hsp & Hwps & Hwv). destruct (L_fname a b n Hn Hwn).
    destruct (L_params _ _ ps Hps Hwps). pose proof (Hv _ _ Hwv). unfold sin in Hsp.
    split; sp_parts; try assumption; eapply SP_mono; try eassumption; lia.
Qed.

Lemma L_member a b m : member_all PS m -> in_member a b m ->
  SP a b (aspans (member_nodes nodes m)) /\ SP a b (member_spans m).
Proof.
  destruct m as [bd|x|f]; cbn [member_all in_member member_nodes]; intros H Hw.
  - apply L_bind; assumption.
  - split; [apply L_assert; assumption|constructor].
  - apply L_field; assumption.
Qed.

Definition L_members a b := L_flat _ _ _ _ a b (L_member a b).

Lemma L_arg a b x : arg_all PS x -> in_arg a b x -> SP a b (aspans (arg_nodes nodes x)).
Proof.
  destruct x as [e|n e]; cbn [arg_all in_arg arg_nodes]; intros H Hw.
  - exact (H _ _ Hw).
  - destruct Hw as [_ Hw]. exact (H _ _ Hw).
Qed.

Definition L_args a b := L_flat1 _ _ _ a b (L_arg a b).
Definition L_exprs a b := L_flat1 PS (within a b) nodes a b (fun x Hx Wx => Hx _ _ Wx).

Lemma L_obj a b o : obj_all PS o -> in_obj a b o ->
  SP a b (aspans (obj_nodes nodes o)) /\ SP a b (obj_spans o).
Proof.
  destruct o as [ms|l1 n plus body l2 cs]; cbn [obj_all in_obj obj_nodes obj_spans]; [apply L_members|].
  intros (H1 & Hn & Hb & H2 & Hcs) (W1 & Wn & Wb & W2 & Wcs).
  destruct (L_binds a b l1 H1 W1). destruct (L_binds a b l2 H2 W2).
  split; sp_parts; eauto using L_specs.
Qed.

Lemma within_all_spans : forall e, PS e.
Proof.
  apply expr_ind'. intros e Hc p q Hw.
  assert (Hs := within_sin _ _ _ Hw).
  assert (Hab : p <= fst (expr_span e) /\ snd (expr_span e) <= q) by (unfold sin in Hs; lia).
  destruct Hab as [Hpa Hbq].
  cut (SP (fst (expr_span e)) (snd (expr_span e))
          (tl (node_spans e) ++ aspans (tl (nodes e)))).
  { intros HS. destruct e; cbn [nodes aspans flat node_spans tl app] in *;
      (apply Forall_cons; [exact Hs|]); rewrite <- ?app_assoc;
      (eapply SP_mono; [exact HS|exact Hpa|exact Hbq]). }
  destruct e; cbn [within children_all] in Hw, Hc; destruct Hw as [_ Hw];
    cbn [nodes node_spans tl expr_span fst snd app] in *;
    repeat match goal with H : _ /\ _ |- _ => destruct H end.
  (* each part is bounded by the hypothesis on that part *)
  all: unfold PS in *; sp_parts.
  all: try solve [eauto using L_opt, L_specs, L_args, L_assert, L_exprs].
  - (* EObject *) apply L_obj; assumption.
  - apply L_obj; assumption.
  - (* ELocal *) eapply L_binds; eassumption.
  - eapply L_binds; eassumption.
  - (* EObjExt: the object's parts are bounded by its own span *)
    match goal with W : sin _ obj_sp _ |- _ => unfold sin in W end.
    eapply SP_mono; [eapply L_obj; eassumption | lia | lia].
  - match goal with W : sin _ obj_sp _ |- _ => unfold sin in W end.
    eapply SP_mono; [eapply L_obj; eassumption | lia | lia].
  - (* EFunc *) eapply L_params; eassumption.
  - eapply L_params; eassumption.
Qed.

Theorem within_node_spans e p q : within p q e ->
  forall n, In n (nodes e) -> forall sp, In sp (node_spans n) -> sin p sp q.
Proof.
  intros Hw n Hn sp Hsp. pose proof (within_all_spans e p q Hw) as H.
  unfold SP in H. rewrite Forall_forall in H. apply H. unfold aspans. eapply in_flat; eassumption.
Qed.

Theorem front_error_located bytes x : bytes_ok bytes -> load_model bytes = Err x ->
  Forall (span_in (input_len bytes)) (front_error_spans x).
Proof.
  intros B. unfold load_model, front_parse, front_lex, front_parse_tokens.
  destruct (lex_all false bytes) as [toks|le|site|] eqn:Hl; cbn [inj_err obind]; try discriminate.
  2:{ intros H. injection H as <-. cbn [front_error_spans]. constructor; [|constructor].
      exact (lex_error_located false bytes le B Hl). }
  destruct (lex_tokens_wf _ _ B Hl) as (Hwf & Hlast & Hall).
  destruct (parse src_prec toks) as [[e d]|pe|site|] eqn:Hparse; cbn [omap obind fst snd inj_err]; try discriminate.
  - unfold front_analyze, analyze.
    destruct (analyze_expr e (mk_env false top_scope) false) as [i|ae|site|] eqn:Ha; cbn [inj_err]; try discriminate.
    intros H. injection H as <-. cbn [front_error_spans]. apply Forall_forall. intros sp Hsp.
    destruct (analyze_error_located _ _ _ _ Ha sp Hsp) as (n & Hn & Hns).
    pose proof (span_nesting src_prec (default_fuel 64 toks) toks e d Hwf Hparse) as Hw.
    rewrite Hlast in Hw. cbn [eof_at tok_span fst] in Hw.
    pose proof (within_node_spans _ _ _ Hw n Hn sp Hns) as Hs. unfold sin in Hs. unfold span_in. lia.
  - intros H. injection H as <-. cbn [front_error_spans]. constructor; [|constructor].
    destruct (parse_error_at_token src_prec (default_fuel 64 toks) toks pe Hparse) as (t & Ht & Hsp & _).
    rewrite Hsp. rewrite Forall_forall in Hall. exact (Hall t Ht).
Qed.

Example front_examples :
  let good := bytes_of_string "local x = 1_0.5e-3; /* c */ [x, std, 'a']" in
  bytes_ok good /\ is_ok (load_model good) = true /\
  (exists e, load_model (bytes_of_string "1 + 'ab") = Err (FLex e) /\ err_span e = (4, 7)) /\
  (exists e, load_model (bytes_of_string "local x = ; x") = Err (FParse e) /\ pe_span e = (10, 11)) /\
  load_model (bytes_of_string "local x = 1; y") = Err (FAnalyze (UnknownVariable (13, 14) [121])).
Proof.
  vm_compute. split; [repeat constructor|]. split; [reflexivity|].
  split; [eexists; split; reflexivity|]. split; [eexists; split; reflexivity|reflexivity].
Qed.
