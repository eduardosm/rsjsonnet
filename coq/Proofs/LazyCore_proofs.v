(* Proofs/LazyCore_proofs.v — coincidence (weakening) for the call-by-name evaluator
   of Model/LazyCore.v, and the rewrite laws of property C04 derived from it.

   Method: a step-indexed relation on closures, [trel k], "same code (up to dead hidden
   fields named D) in environments that agree, k levels deep, on the variables that are
   free in that code"; [trelw] = related at every level.  The fundamental lemma
   (by induction on fuel): related closures evaluate, with the same fuel, to the same
   trace and to related values / the same error; related values are forced to the same
   JSON tree.  The rewrite laws follow by computing the few administrative steps of each
   redex and applying the fundamental lemma to what remains. *)
From RJ Require Import Base.Outcome Model.LazyCore.
From Coq Require Import Lia.
Local Open Scope res_scope.

Lemma name_eqb_refl : forall a, name_eqb a a = true.
Proof. induction a as [|x a IH]; simpl; auto. rewrite N.eqb_refl. exact IH. Qed.

Lemma name_eqb_eq : forall a b, name_eqb a b = true <-> a = b.
Proof.
  induction a as [|x a IH]; destruct b as [|y b]; simpl; split; intros H; try discriminate; auto.
  - apply andb_true_iff in H. destruct H as [H1 H2]. apply N.eqb_eq in H1. apply IH in H2. congruence.
  - inversion H; subst. rewrite N.eqb_refl. apply name_eqb_refl.
Qed.

Lemma name_eqb_neq : forall a b, name_eqb a b = false <-> a <> b.
Proof.
  intros a b. split.
  - intros H E. apply name_eqb_eq in E. congruence.
  - intros H. destruct (name_eqb a b) eqn:E; auto. apply name_eqb_eq in E. contradiction.
Qed.

Lemma name_eqb_sym : forall a b, name_eqb a b = name_eqb b a.
Proof.
  intros a b. destruct (name_eqb a b) eqn:E.
  - apply name_eqb_eq in E. subst. symmetry. apply name_eqb_refl.
  - symmetry. apply name_eqb_neq. apply name_eqb_neq in E. congruence.
Qed.

Lemma mem_In : forall x l, mem x l = true <-> In x l.
Proof.
  induction l as [|y l IH]; simpl; [split; [discriminate|tauto]|].
  rewrite orb_true_iff, IH, name_eqb_eq. split; intros [H|H]; auto.
Qed.

Lemma assoc_In : forall A x (l : list (name * A)) a, assoc x l = Some a -> In (x, a) l.
Proof.
  induction l as [|[y b] l IH]; simpl; intros a H; [discriminate|].
  destruct (name_eqb x y) eqn:E.
  - apply name_eqb_eq in E. inversion H; subst. auto.
  - right. auto.
Qed.

Lemma assoc_None_mem : forall A x (l : list (name * A)), assoc x l = None -> mem x (map fst l) = false.
Proof.
  induction l as [|[y b] l IH]; simpl; intros H; auto.
  destruct (name_eqb x y); [discriminate|]. simpl. auto.
Qed.

Lemma assoc_app_skip : forall A x (l1 l2 : list (name * A)) y b,
  name_eqb x y = false -> assoc x (l1 ++ (y, b) :: l2) = assoc x (l1 ++ l2).
Proof.
  induction l1 as [|[z c] l1 IH]; simpl; intros l2 y b H.
  - rewrite H. reflexivity.
  - destruct (name_eqb x z); auto.
Qed.

Lemma existsb_in : forall A (f : A -> bool) l a, In a l -> f a = true -> existsb f l = true.
Proof. intros. apply existsb_exists. eauto. Qed.

Lemma rbind_ret_l : forall A B (a : A) (k : A -> res B), rbind (ret a) k = k a.
Proof. intros. unfold rbind, ret. destruct (k a). reflexivity. Qed.

Lemma eval_func : forall n r ps b, eval (S n) r (EFunc ps b) = ret (VFun ps b r).
Proof. reflexivity. Qed.

(* In the next three equations the inner fuel is hidden while the outer step is computed:
   unfolding [eval (S n) tr te] at a closure that is not yet known would spell out every
   case of the evaluator. *)
Lemma eval_index1 : forall n r e i,
  eval (S (S n)) r (EIndex (EArr [e]) i) =
  rdo vi <- eval (S n) r i;
  match index_array [(r, e)] vi with inl err => fail err | inr (tr, te) => eval (S n) tr te end.
Proof.
  intros. remember (S n) as m eqn:Em. cbn [eval]. subst m.
  change (eval (S n) r (EArr [e])) with (ret (VArr [(r, e)])). rewrite rbind_ret_l. reflexivity.
Qed.

Lemma eval_field1 : forall n r fs f,
  eval (S (S n)) r (EField (EObj fs) f) =
  match find_field f fs with
  | Some fe => eval (S n) (RObj fs r) fe
  | None => fail (UnknownObjectField f)
  end.
Proof.
  intros. remember (S n) as m eqn:Em. cbn [eval]. subst m.
  change (eval (S n) r (EObj fs)) with (ret (VObj fs r)). rewrite rbind_ret_l. reflexivity.
Qed.

Lemma eval_call1 : forall n r x body a,
  eval (S (S n)) r (ECall (EFunc [(x, None)] body) [a]) = eval (S n) (RRec [] (RArg x r a r)) body.
Proof.
  intros. remember (S n) as m eqn:Em. cbn [eval]. subst m. rewrite eval_func, rbind_ret_l. reflexivity.
Qed.

(* the direct sub-expressions that are evaluated in the scope of e itself *)
Definition kids (e : expr) : list expr :=
  match e with
  | ECall f args => f :: args
  | EArr es => es
  | EIndex a b | EAdd a b | EEq a b | ETrace a b => [a; b]
  | EField a _ | EError a => [a]
  | EIf c t f => [c; t; f]
  | _ => []
  end.

Lemma kids_scope : forall e e', In e' (kids e) ->
  (forall x, fvb x e' = true -> fvb x e = true) /\
  (selfb e' = true -> selfb e = true) /\
  (forall d, nofld d e = true -> nofld d e' = true).
Proof.
  (* a sub-expression named in [kids e] is an operand of the disjunction (conjunction)
     that defines the predicate on e; what is left are the members of the two lists *)
  intros e e' Hin. repeat split; [intros x H|intros H|intros d H]; destruct e; simpl in *;
    rewrite ?andb_true_iff in H;
    repeat (destruct Hin as [<-|Hin]; [try tauto; rewrite H, ?orb_true_r; reflexivity|]);
    try contradiction.
  - apply orb_true_iff. right. eapply existsb_in; eauto.
  - eapply existsb_in; eauto.
  - apply orb_true_iff. right. eapply existsb_in; eauto.
  - eapply existsb_in; eauto.
  - destruct H as [_ H]. rewrite forallb_forall in H. auto.
  - rewrite forallb_forall in H. auto.
Qed.

Section Rel.
Variable D : option name.      (* the name of the dead hidden fields that are ignored *)
Variable M : option str.       (* the message of the demand markers whose firing ends the comparison *)

(* a demand marker  [e][std.trace(mk, 0)] : forcing it emits mk before e is evaluated *)
Definition markerb (e : expr) : bool :=
  match M with
  | None => false
  | Some mk =>
      match e with
      | EIndex (EArr [_]) (ETrace (EStr s) (ENum Z0)) => name_eqb s mk
      | _ => false
      end
  end.

(* the left run has emitted the marker message, or ran out of fuel: nothing is claimed *)
Definition esc {A} (m : res A) : Prop :=
  match M with
  | Some mk => In mk (fst m) \/ snd m = OutOfFuel
  | None => False
  end.

Definition is_dead (f : field) : bool :=
  match D with
  | Some d => name_eqb (fst f) d && fst (snd f)
  | None => false
  end.

Definition live (fs : list field) : list field := filter (fun f => negb (is_dead f)) fs.

Definition okfld (e : expr) : bool :=
  match D with Some d => nofld d e | None => true end.

(* same code, or two object literals that differ only in dead hidden fields, or two array
   literals that differ only where the left item is a demand marker *)
Definition esim (e1 e2 : expr) : Prop :=
  e1 = e2 \/
  (exists fs1 fs2, e1 = EObj fs1 /\ e2 = EObj fs2 /\ live fs1 = live fs2) \/
  (exists es1 es2, e1 = EArr es1 /\ e2 = EArr es2 /\
                   Forall2 (fun a b => a = b \/ markerb a = true) es1 es2).

Definition opt_rel {A} (R : A -> A -> Prop) (a b : option A) : Prop :=
  match a, b with
  | Some x, Some y => R x y
  | None, None => True
  | _, _ => False
  end.

Definition orel (R : thunk -> thunk -> Prop) (o1 o2 : list field * env) : Prop :=
  live (fst o1) = live (fst o2) /\
  forall f, In f (live (fst o1)) ->
    R (RObj (fst o1) (snd o1), snd (snd f)) (RObj (fst o2) (snd o2), snd (snd f)).

(* environments agree (through R) on the variables in S, and on self when sf *)
Definition erel (R : thunk -> thunk -> Prop) (S : name -> Prop) (sf : Prop) (r1 r2 : env) : Prop :=
  (forall x, S x -> opt_rel R (lookup x r1) (lookup x r2)) /\
  (sf -> opt_rel (orel R) (self_of r1) (self_of r2)).

Fixpoint trel (k : nat) (t1 t2 : thunk) {struct k} : Prop :=
  match k with
  | O => True
  | S k' =>
      markerb (snd t1) = true \/
      (esim (snd t1) (snd t2) /\ okfld (snd t1) = true /\ okfld (snd t2) = true /\
       erel (trel k') (fun x => fvb x (snd t1) = true /\ fvb x (snd t2) = true)
            (selfb (snd t1) = true) (fst t1) (fst t2))
  end.

Definition trelw (t1 t2 : thunk) : Prop := forall k, trel k t1 t2.

Definition vrel (R : thunk -> thunk -> Prop) (v1 v2 : value) : Prop :=
  match v1, v2 with
  | VNull, VNull => True
  | VBool a, VBool b => a = b
  | VNum a, VNum b => a = b
  | VStr a, VStr b => a = b
  | VArr a, VArr b => Forall2 R a b
  | VObj fs1 r1, VObj fs2 r2 => orel R (fs1, r1) (fs2, r2)
  | VFun ps1 b1 r1, VFun ps2 b2 r2 => ps1 = ps2 /\ b1 = b2 /\ R (r1, EFunc ps1 b1) (r2, EFunc ps2 b2)
  | _, _ => False
  end.

Definition resrel {A} (P : A -> A -> Prop) (m1 m2 : res A) : Prop :=
  esc m1 \/
  (fst m1 = fst m2 /\
   match snd m1, snd m2 with
   | Ok a, Ok b => P a b
   | Err a, Err b => a = b
   | Panic a, Panic b => a = b
   | OutOfFuel, OutOfFuel => True
   | _, _ => False
   end).

Lemma resrel_ret : forall A (P : A -> A -> Prop) a b, P a b -> resrel P (ret a) (ret b).
Proof. intros. right. split; simpl; auto. Qed.

Lemma resrel_fail : forall A (P : A -> A -> Prop) e, resrel P (fail e) (fail e).
Proof. intros. right. split; simpl; auto. Qed.

Lemma resrel_same_stop : forall A (P : A -> A -> Prop) t (o : outcome A errk),
  (match o with Ok _ => False | _ => True end) -> resrel P (t, o) (t, o).
Proof. intros A P t o H. right. split; simpl; auto. destruct o; simpl; auto. contradiction. Qed.

Lemma esc_bind : forall A B (m : res A) (k : A -> res B), esc m -> esc (rbind m k).
Proof.
  intros A B [t o] k H. unfold esc in *. destruct M as [mk|]; [|exact H]. simpl in *.
  destruct o as [a| | |]; [destruct (k a)|..]; simpl; destruct H as [H|H]; try discriminate; auto using in_or_app.
Qed.

Lemma esc_bind_k : forall A B t (a : A) (k : A -> res B), esc (k a) -> esc (rbind (t, Ok a) k).
Proof.
  intros A B t a k H. unfold esc in *. destruct M as [mk|]; [|exact H]. simpl.
  destruct (k a) as [t2 o2]. simpl in *. destruct H as [H|H]; auto using in_or_app.
Qed.

Lemma resrel_bind : forall A B (P : A -> A -> Prop) (Q : B -> B -> Prop) m1 m2 k1 k2,
  resrel P m1 m2 -> (forall a b, P a b -> resrel Q (k1 a) (k2 b)) ->
  resrel Q (rbind m1 k1) (rbind m2 k2).
Proof.
  intros A B P Q [t1 o1] [t2 o2] k1 k2 [He|[Ht Ho]] Hk; [left; apply esc_bind; exact He|].
  simpl in *. subst t2.
  destruct o1 as [a| | |], o2 as [b| | |]; simpl in *; try contradiction;
    try (subst; right; split; simpl; auto; fail).
  specialize (Hk _ _ Ho). destruct Hk as [He|Hk]; [left; apply esc_bind_k; exact He|].
  destruct (k1 a) as [u1 p1], (k2 b) as [u2 p2]. destruct Hk as [Hu Hp].
  simpl in *. subst. right. split; simpl; auto.
Qed.

Lemma resrel_eq : forall A (m1 m2 : res A), resrel eq m1 m2 -> esc m1 \/ m1 = m2.
Proof.
  intros A [t1 o1] [t2 o2] [He|[Ht Ho]]; [left; exact He|right]. simpl in *. subst.
  destruct o1, o2; simpl in *; try contradiction; subst; auto.
Qed.

Lemma resrel_refl_eq : forall A (m : res A), resrel eq m m.
Proof. intros A [t o]. right. split; simpl; auto. destruct o; auto. Qed.

Lemma opt_rel_case : forall A (R : A -> A -> Prop) a b, opt_rel R a b ->
  forall P : option A -> option A -> Prop,
  (forall x y, R x y -> P (Some x) (Some y)) -> P None None -> P a b.
Proof. intros A R [x|] [y|] H P HS HN; simpl in H; try contradiction; auto. Qed.

Lemma opt_rel_all : forall A (R : nat -> A -> A -> Prop) a b,
  (forall k, opt_rel (R k) a b) -> opt_rel (fun x y => forall k, R k x y) a b.
Proof.
  intros A R [x|] [y|] H; simpl in *; auto; exact (H 0).
Qed.

Lemma trelw_inv : forall r1 e1 r2 e2, trelw (r1, e1) (r2, e2) ->
  markerb e1 = true \/
  (esim e1 e2 /\ okfld e1 = true /\ okfld e2 = true /\
   erel trelw (fun x => fvb x e1 = true /\ fvb x e2 = true) (selfb e1 = true) r1 r2).
Proof.
  intros r1 e1 r2 e2 H. destruct (markerb e1) eqn:Mk; [left; reflexivity|right].
  assert (H' : forall k, esim e1 e2 /\ okfld e1 = true /\ okfld e2 = true /\
       erel (trel k) (fun x => fvb x e1 = true /\ fvb x e2 = true) (selfb e1 = true) r1 r2).
  { intros k. destruct (H (S k)) as [Hk|Hk]; [simpl in Hk; congruence|exact Hk]. }
  destruct (H' 0) as (Es & O1 & O2 & _). repeat split; auto.
  - intros x Hx. apply (opt_rel_all _ (fun k => trel k)). intros k.
    destruct (H' k) as (_ & _ & _ & [L _]). auto.
  - intros Hs.
    assert (Hk : forall k, opt_rel (orel (trel k)) (self_of r1) (self_of r2))
      by (intros k; destruct (H' k) as (_ & _ & _ & [_ S']); auto).
    destruct (self_of r1) as [o1|], (self_of r2) as [o2|]; simpl in *; auto; try exact (Hk 0).
    split; [exact (proj1 (Hk 0))|]. intros f Hf k. exact (proj2 (Hk k) f Hf).
Qed.

Lemma trelw_intro : forall r1 e1 r2 e2,
  esim e1 e2 -> okfld e1 = true -> okfld e2 = true ->
  (forall k, erel (trel k) (fun x => fvb x e1 = true /\ fvb x e2 = true) (selfb e1 = true) r1 r2) ->
  trelw (r1, e1) (r2, e2).
Proof.
  intros r1 e1 r2 e2 Es O1 O2 H [|k]; simpl; auto.
Qed.

Lemma erel_trelw_level : forall S sf r1 r2 k, erel trelw S sf r1 r2 -> erel (trel k) S sf r1 r2.
Proof.
  intros S sf r1 r2 k [L Sf]. split.
  - intros x Hx. specialize (L x Hx). destruct (lookup x r1), (lookup x r2); simpl in *; auto.
  - intros Hs. specialize (Sf Hs). destruct (self_of r1) as [o1|], (self_of r2) as [o2|]; simpl in *; auto.
    destruct Sf as [Lv F]. split; auto. intros f Hf. exact (F f Hf k).
Qed.

Lemma erel_weaken : forall R (S S' : name -> Prop) (sf sf' : Prop) r1 r2,
  erel R S sf r1 r2 -> (forall x, S' x -> S x) -> (sf' -> sf) -> erel R S' sf' r1 r2.
Proof. intros R S S' sf sf' r1 r2 [L Sf] HS Hs. split; auto. Qed.

(* the same direct sub-expression of both sides, in the scope of its parent *)
Lemma trelw_kid : forall r1 r2 e1 e2 e',
  erel trelw (fun x => fvb x e1 = true /\ fvb x e2 = true) (selfb e1 = true) r1 r2 ->
  okfld e1 = true -> In e' (kids e1) -> In e' (kids e2) ->
  trelw (r1, e') (r2, e').
Proof.
  intros r1 r2 e1 e2 e' E O K1 K2.
  destruct (kids_scope _ _ K1) as (F1 & S1 & N1), (kids_scope _ _ K2) as (F2 & _ & _).
  assert (O' : okfld e' = true) by (unfold okfld in *; destruct D; auto).
  apply trelw_intro; auto; [left; reflexivity|].
  intros k. apply erel_trelw_level. eapply erel_weaken; [exact E| |exact S1].
  intros x [Hx _]. auto.
Qed.

Lemma okfld_in_list : forall (A : Type) (g : A -> expr) (l : list A) (a : A),
  (match D with Some d => forallb (fun x => nofld d (g x)) l | None => true end) = true ->
  In a l -> okfld (g a) = true.
Proof.
  intros A g l a H Hin. unfold okfld. destruct D as [d|]; auto.
  rewrite forallb_forall in H. auto.
Qed.

Lemma okfld_local : forall bs body, okfld (ELocal bs body) = true ->
  (forall x ex, In (x, ex) bs -> okfld ex = true) /\ okfld body = true.
Proof.
  unfold okfld. destruct D as [d|]; [|auto]. simpl. intros bs body H.
  apply andb_true_iff in H. destruct H as [Hb Hbody]. rewrite forallb_forall in Hb.
  split; [|exact Hbody]. intros x ex Hin. exact (Hb _ Hin).
Qed.

Lemma okfld_func : forall ps body, okfld (EFunc ps body) = true ->
  (forall x ex, In (x, Some ex) ps -> okfld ex = true) /\ okfld body = true.
Proof.
  unfold okfld. destruct D as [d|]; [|auto]. simpl. intros ps body H.
  apply andb_true_iff in H. destruct H as [Hp Hbody]. rewrite forallb_forall in Hp.
  split; [|exact Hbody]. intros x ex Hin. exact (Hp _ Hin).
Qed.

Definition not_dead_name (f : name) : Prop := forall d, D = Some d -> name_eqb f d = false.

Lemma assoc_live : forall f (fs : list field), not_dead_name f -> assoc f (live fs) = assoc f fs.
Proof.
  intros f fs Hf. induction fs as [|[g [h e]] fs IH]; simpl; auto.
  unfold is_dead. simpl. destruct D as [d|] eqn:ED.
  - destruct (name_eqb g d) eqn:G; simpl.
    + destruct h; simpl.
      * rewrite IH. apply name_eqb_eq in G. subst g. rewrite (Hf d ED). reflexivity.
      * rewrite IH. reflexivity.
    + rewrite IH. reflexivity.
  - simpl. rewrite IH. reflexivity.
Qed.

Lemma find_field_live : forall f fs, not_dead_name f -> find_field f (live fs) = find_field f fs.
Proof. intros. unfold find_field. rewrite assoc_live by assumption. reflexivity. Qed.

Lemma find_field_In : forall f (fs : list field) fe,
  find_field f fs = Some fe -> exists fld, In fld fs /\ snd (snd fld) = fe.
Proof.
  intros f fs fe H. unfold find_field in H. destruct (assoc f fs) as [[h e]|] eqn:A; [|discriminate].
  inversion H; subst. exists (f, (h, fe)). split; [eapply assoc_In; eauto|reflexivity].
Qed.

Lemma visible_live : forall fs, visible_sorted (live fs) = visible_sorted fs.
Proof.
  intros fs. unfold visible_sorted. f_equal. f_equal.
  induction fs as [|[g [h e]] fs IH]; simpl; auto.
  unfold is_dead. simpl. destruct D as [d|].
  - destruct (name_eqb g d); simpl; destruct h; simpl; rewrite ?IH; auto.
  - simpl. destruct h; simpl; rewrite IH; auto.
Qed.

Lemma live_In : forall f fs, In f (live fs) -> In f fs.
Proof. intros f fs H. unfold live in H. apply filter_In in H. tauto. Qed.

(* the same code in two environments *)
Lemma trel_same : forall k r1 r2 e, okfld e = true ->
  (forall x, fvb x e = true -> opt_rel (trel k) (lookup x r1) (lookup x r2)) ->
  (selfb e = true -> opt_rel (orel (trel k)) (self_of r1) (self_of r2)) ->
  trel (S k) (r1, e) (r2, e).
Proof.
  intros k r1 r2 e O L Sf. right. split; [left; reflexivity|]. split; [exact O|]. split; [exact O|].
  split; [intros x [Hx _]; auto|exact Sf].
Qed.

Lemma trel_rec : forall bs r1 r2 (S : name -> Prop) (sf : Prop),
  erel trelw S sf r1 r2 ->
  (forall x ex, In (x, ex) bs ->
     okfld ex = true /\ (forall y, fvb y ex = true -> mem y (map fst bs) = true \/ S y) /\
     (selfb ex = true -> sf)) ->
  forall k e', okfld e' = true ->
    (forall y, fvb y e' = true -> mem y (map fst bs) = true \/ S y) -> (selfb e' = true -> sf) ->
    trel k (RRec bs r1, e') (RRec bs r2, e').
Proof.
  intros bs r1 r2 S sf H Hbs. induction k as [|k IH]; intros e' Ho Hfv Hs; [exact I|].
  destruct (erel_trelw_level _ _ _ _ k H) as [L Sf]. apply trel_same; [exact Ho| |].
  - intros x Hx. simpl. destruct (assoc x bs) as [ex|] eqn:A.
    + simpl. destruct (Hbs x ex (assoc_In _ _ _ _ A)) as (O & F & Sx). apply IH; auto.
    + destruct (Hfv x Hx) as [Hm|Sx]; [rewrite (assoc_None_mem _ _ _ A) in Hm; discriminate|]. auto.
  - intros Hself. simpl. auto.
Qed.

Fixpoint env_nofld (d : name) (r : env) : bool :=
  match r with
  | RNil => true
  | RRec bs r' => forallb (fun p => nofld d (snd p)) bs && env_nofld d r'
  | RArg _ tr te r' => env_nofld d tr && nofld d te && env_nofld d r'
  | RObj fs r' => forallb (fun f => nofld d (snd (snd f))) fs && env_nofld d r'
  end.

Definition env_ok (r : env) : Prop :=
  match D with Some d => env_nofld d r = true | None => True end.

Lemma lookup_ok : forall x r tr te, env_ok r -> lookup x r = Some (tr, te) -> env_ok tr /\ okfld te = true.
Proof.
  unfold env_ok, okfld. destruct D as [d|]; [|auto].
  intros x r. induction r as [|bs r' IH|y tr0 IHt te0 r' IH|fs r' IH]; intros tr te Hr Hl; simpl in *.
  - discriminate.
  - apply andb_true_iff in Hr. destruct Hr as [Hb Hr'].
    destruct (assoc x bs) as [e|] eqn:A.
    + inversion Hl; subst. split; [simpl; rewrite Hb, Hr'; reflexivity|].
      rewrite forallb_forall in Hb. exact (Hb (x, te) (assoc_In _ _ _ _ A)).
    + auto.
  - apply andb_true_iff in Hr. destruct Hr as [Hr Hr']. apply andb_true_iff in Hr. destruct Hr as [Ht He].
    destruct (name_eqb x y); [inversion Hl; subst; auto|auto].
  - apply andb_true_iff in Hr. destruct Hr as [Hb Hr']. auto.
Qed.

Lemma self_ok : forall r fs r', env_ok r -> self_of r = Some (fs, r') ->
  env_ok (RObj fs r') /\ (forall f, In f fs -> okfld (snd (snd f)) = true).
Proof.
  unfold env_ok, okfld. destruct D as [d|]; [|auto].
  induction r as [|bs r0 IH|y tr0 IHt te0 r0 IH|fs0 r0 IH]; intros fs r' Hr Hs; simpl in *.
  - discriminate.
  - apply andb_true_iff in Hr. destruct Hr. auto.
  - apply andb_true_iff in Hr. destruct Hr. auto.
  - inversion Hs; subst. split; [exact Hr|]. apply andb_true_iff in Hr. destruct Hr as [Hb _].
    rewrite forallb_forall in Hb. auto.
Qed.

(* a relation that holds of every well-formed closure with itself relates what an
   environment binds with itself *)
Lemma lookup_diag : forall R : thunk -> thunk -> Prop,
  (forall r e, env_ok r -> okfld e = true -> R (r, e) (r, e)) ->
  forall x r, env_ok r -> opt_rel R (lookup x r) (lookup x r).
Proof.
  intros R Rd x r Hr. destruct (lookup x r) as [[tr te]|] eqn:L; simpl; auto.
  destruct (lookup_ok _ _ _ _ Hr L). auto.
Qed.

Lemma self_diag : forall R : thunk -> thunk -> Prop,
  (forall r e, env_ok r -> okfld e = true -> R (r, e) (r, e)) ->
  forall r, env_ok r -> opt_rel (orel R) (self_of r) (self_of r).
Proof.
  intros R Rd r Hr. destruct (self_of r) as [[fs r']|] eqn:S; simpl; auto.
  destruct (self_ok _ _ _ Hr S) as [Ho Hf]. split; [reflexivity|].
  intros f Hf'. simpl. apply Rd; [exact Ho|]. apply Hf, live_In, Hf'.
Qed.

Lemma trel_refl : forall k r e, env_ok r -> okfld e = true -> trel k (r, e) (r, e).
Proof.
  induction k as [|k IH]; intros r e Hr He; [exact I|].
  apply trel_same; [exact He|intros x _; apply lookup_diag|intros _; apply self_diag]; assumption.
Qed.

Lemma lookup_refl : forall k x r, env_ok r -> opt_rel (trel k) (lookup x r) (lookup x r).
Proof. intros k. apply lookup_diag, trel_refl. Qed.

Lemma self_refl : forall k r, env_ok r -> opt_rel (orel (trel k)) (self_of r) (self_of r).
Proof. intros k. apply self_diag, trel_refl. Qed.

(* [local x = l1; ..] against [local x = l2; ..] where l1 is a demand marker, or
   l1 and l2 are literals that differ in dead fields or marked items: related for every
   body, and so are the two literals themselves under their own binding *)
Lemma trel_local_bind : forall x l1 l2 r,
  markerb l1 = true \/ (esim l1 l2 /\ okfld l1 = true /\ okfld l2 = true) -> env_ok r ->
  forall k,
    (forall e', okfld e' = true -> trel k (RRec [(x, l1)] r, e') (RRec [(x, l2)] r, e')) /\
    trel k (RRec [(x, l1)] r, l1) (RRec [(x, l2)] r, l2).
Proof.
  intros x l1 l2 r Hl Hr. induction k as [|k [IH1 IH2]]; [split; simpl; auto|].
  assert (HL : forall y, opt_rel (trel k) (lookup y (RRec [(x, l1)] r)) (lookup y (RRec [(x, l2)] r))).
  { intros y. simpl. destruct (name_eqb y x); simpl; [exact IH2|]. apply lookup_refl. exact Hr. }
  assert (HS : opt_rel (orel (trel k)) (self_of (RRec [(x, l1)] r)) (self_of (RRec [(x, l2)] r)))
    by (simpl; apply self_refl; exact Hr).
  split.
  - intros e' He'. apply trel_same; auto.
  - simpl. destruct Hl as [Mk|(Es & O1 & O2)]; [left; exact Mk|right].
    split; [exact Es|]. split; [exact O1|]. split; [exact O2|].
    split; [intros y _; apply HL|intros _; exact HS].
Qed.

(* related values have the same form; a case analysis over the seven related pairs *)
Lemma vrel_case : forall R v1 v2, vrel R v1 v2 -> forall P : value -> value -> Prop,
  P VNull VNull -> (forall b, P (VBool b) (VBool b)) -> (forall z, P (VNum z) (VNum z)) ->
  (forall s, P (VStr s) (VStr s)) -> (forall a b, Forall2 R a b -> P (VArr a) (VArr b)) ->
  (forall fs1 r1 fs2 r2, orel R (fs1, r1) (fs2, r2) -> P (VObj fs1 r1) (VObj fs2 r2)) ->
  (forall ps b r1 r2, R (r1, EFunc ps b) (r2, EFunc ps b) -> P (VFun ps b r1) (VFun ps b r2)) ->
  P v1 v2.
Proof.
  intros R v1 v2 H P H1 H2 H3 H4 H5 H6 H7. destruct v1, v2; simpl in H; try contradiction; subst; auto.
  destruct H as (-> & -> & H). auto.
Qed.

Lemma tostr_rel : forall R a b, vrel R a b -> tostr a = tostr b.
Proof.
  intros R a b H. apply (vrel_case R a b H); reflexivity.
Qed.

Lemma vrel_tostr_none : forall R a b, vrel R a b -> tostr a = None -> tostr b = None.
Proof. intros R a b H E. rewrite <- (tostr_rel R a b H). exact E. Qed.

Lemma add_values_rel : forall R a1 a2 b1 b2, vrel R a1 a2 -> vrel R b1 b2 ->
  resrel (vrel R) (add_values a1 b1) (add_values a2 b2).
Proof.
  intros R a1 a2 b1 b2 Ha Hb.
  apply (vrel_case R a1 a2 Ha); intros; apply (vrel_case R b1 b2 Hb); intros; simpl;
    try (apply resrel_fail);
    try (apply resrel_ret; simpl; auto; fail);
    try (match goal with |- context [if ?c then _ else _] => destruct c end;
         [apply resrel_ret; simpl; auto|apply resrel_fail]);
    try (match goal with b : bool |- _ => destruct b end; apply resrel_ret; simpl; auto).
  apply resrel_ret. simpl. apply Forall2_app; auto.
Qed.

Lemma Forall2_len : forall A B (R : A -> B -> Prop) l1 l2, Forall2 R l1 l2 -> length l1 = length l2.
Proof. induction 1; simpl; auto. Qed.

Lemma eq_values_rel : forall R a1 a2 b1 b2, vrel R a1 a2 -> vrel R b1 b2 ->
  resrel (vrel R) (eq_values a1 b1) (eq_values a2 b2).
Proof.
  intros R a1 a2 b1 b2 Ha Hb.
  apply (vrel_case R a1 a2 Ha); [| | | |intros ta1 ta2 Hta| |]; intros;
    (apply (vrel_case R b1 b2 Hb); [| | | |intros tb1 tb2 Htb| |]; intros); simpl;
    try (apply resrel_fail);
    try (apply resrel_ret; simpl; auto; fail).
  rewrite <- (Forall2_len _ _ _ _ _ Hta), <- (Forall2_len _ _ _ _ _ Htb).
  destruct (negb (length ta1 =? length tb1)%nat); [apply resrel_ret; simpl; auto|].
  inversion Hta; subst; [apply resrel_ret; simpl; auto|apply resrel_fail].
Qed.

Lemma index_array_rel : forall (R : thunk -> thunk -> Prop) ts1 ts2 v1 v2,
  Forall2 R ts1 ts2 -> vrel R v1 v2 ->
  match index_array ts1 v1, index_array ts2 v2 with
  | inl e1, inl e2 => e1 = e2
  | inr t1, inr t2 => R t1 t2
  | _, _ => False
  end.
Proof.
  intros R ts1 ts2 v1 v2 Hts Hv.
  apply (vrel_case R v1 v2 Hv); simpl; auto. intros z.
  destruct (Z.ltb z 0); auto.
  rewrite <- (Forall2_len _ _ _ _ _ Hts).
  destruct (Z.leb (Z.of_nat (length ts1)) z); auto.
  generalize (Z.to_nat z). intros k. revert k.
  induction Hts as [|a b l1 l2 Hab Hl IH]; intros [|k]; simpl; auto.
  apply IH.
Qed.

Lemma bind_pos_rest_incl : forall ps args cr fr p,
  In p (snd (bind_pos ps args cr fr)) -> In p ps.
Proof.
  induction ps as [|[x dx] ps IH]; intros args cr fr p H; simpl in *; auto.
  destruct args as [|a args]; simpl in *; auto. right. eapply IH; eauto.
Qed.

Lemma bind_pos_rel : forall ps args cr1 cr2 fr1 fr2 (S : name -> Prop) sf,
  erel trelw S sf fr1 fr2 ->
  (forall a, In a args -> trelw (cr1, a) (cr2, a)) ->
  snd (bind_pos ps args cr1 fr1) = snd (bind_pos ps args cr2 fr2) /\
  erel trelw
     (fun y => S y \/ (mem y (map fst ps) = true /\
                       mem y (map fst (snd (bind_pos ps args cr1 fr1))) = false)) sf
     (fst (bind_pos ps args cr1 fr1)) (fst (bind_pos ps args cr2 fr2)).
Proof.
  induction ps as [|[x dx] ps IH]; intros args cr1 cr2 fr1 fr2 S sf H Ha.
  - simpl. split; auto. eapply erel_weaken; [exact H| |auto].
    intros y [Hy|[Hy _]]; [auto|discriminate].
  - destruct args as [|a args].
    + simpl. split; auto. eapply erel_weaken; [exact H| |auto].
      intros y [Hy|[Hy1 Hy2]]; [auto|]. simpl in *. congruence.
    + simpl.
      assert (H' : erel trelw (fun y => y = x \/ S y) sf (RArg x cr1 a fr1) (RArg x cr2 a fr2)).
      { destruct H as [L Sf]. split; [|exact Sf]. intros y Hy. simpl.
        destruct (name_eqb y x) eqn:E; [apply Ha; left; reflexivity|].
        destruct Hy as [->|Hy]; [rewrite name_eqb_refl in E; discriminate|auto]. }
      destruct (IH args cr1 cr2 _ _ _ sf H' (fun a' Hin => Ha a' (or_intror Hin))) as [E1 E2].
      split; [exact E1|]. eapply erel_weaken; [exact E2| |auto].
      intros y [Hy|[Hy1 Hy2]]; [left; right; exact Hy|].
      simpl in Hy1. apply orb_true_iff in Hy1. destruct Hy1 as [Hy1|Hy1].
      * left. left. apply name_eqb_eq. exact Hy1.
      * right. split; assumption.
Qed.

Lemma defaults_of_spec : forall rest ds, defaults_of rest = inr ds ->
  map fst ds = map fst rest /\ (forall x ex, In (x, ex) ds -> In (x, Some ex) rest).
Proof.
  induction rest as [|[x [dx|]] rest IH]; intros ds H; simpl in *.
  - inversion H; subst. split; auto; intros x ex [].
  - destruct (defaults_of rest) as [e|l] eqn:E; [discriminate|]. inversion H; subst.
    destruct (IH l eq_refl) as [N I]. split; [simpl; rewrite N; reflexivity|].
    intros y ey [Hy|Hy]; [inversion Hy; subst; left; reflexivity|right; auto].
  - discriminate.
Qed.

Lemma fvb_func_default : forall y ps body x ex,
  In (x, Some ex) ps -> fvb y ex = true -> mem y (map fst ps) = false -> fvb y (EFunc ps body) = true.
Proof.
  intros y ps body x ex Hin Hy Hm. simpl. rewrite Hm. apply orb_true_iff. left.
  apply existsb_exists. exists (x, Some ex). split; auto.
Qed.

Lemma bind_args_rel : forall ps body args cr1 cr2 fr1 fr2,
  trelw (fr1, EFunc ps body) (fr2, EFunc ps body) ->
  (forall a, In a args -> trelw (cr1, a) (cr2, a)) ->
  match bind_args ps args cr1 fr1, bind_args ps args cr2 fr2 with
  | inl e1, inl e2 => e1 = e2
  | inr c1, inr c2 => trelw (c1, body) (c2, body)
  | _, _ => False
  end.
Proof.
  intros ps body args cr1 cr2 fr1 fr2 Hf Ha. unfold bind_args.
  match goal with |- context [Nat.ltb ?a ?b] => destruct (Nat.ltb a b) end; [reflexivity|].
  apply trelw_inv in Hf. destruct Hf as [Mk|(_ & Of & _ & Ef)]; [unfold markerb in Mk; destruct M; discriminate|].
  assert (H0 : erel trelw (fun y => fvb y (EFunc ps body) = true) (selfb (EFunc ps body) = true) fr1 fr2)
    by (eapply erel_weaken; [exact Ef| |auto]; intros x Hx; split; exact Hx).
  destruct (bind_pos_rel ps args cr1 cr2 fr1 fr2 _ _ H0 Ha) as [E1 E2].
  destruct (bind_pos ps args cr1 fr1) as [r1' rest] eqn:B1.
  destruct (bind_pos ps args cr2 fr2) as [r2' rest2] eqn:B2. simpl in *. subst rest2.
  destruct (defaults_of rest) as [err|ds] eqn:Dd; [reflexivity|].
  destruct (defaults_of_spec _ _ Dd) as [Nm Hds].
  assert (Hincl : forall p, In p rest -> In p ps).
  { intros p Hp. apply (bind_pos_rest_incl ps args cr1 fr1). rewrite B1. exact Hp. }
  destruct (okfld_func _ _ Of) as [Od Ob].
  assert (Hscope : forall e', (forall y, fvb y e' = true -> mem y (map fst ps) = false -> fvb y (EFunc ps body) = true) ->
            forall y, fvb y e' = true ->
            mem y (map fst ds) = true \/
            (fvb y (EFunc ps body) = true \/ (mem y (map fst ps) = true /\ mem y (map fst rest) = false))).
  { intros e' He' y Hy. destruct (mem y (map fst ps)) eqn:Hm.
    - destruct (mem y (map fst rest)) eqn:M2; [left; rewrite Nm; exact M2|right; right; auto].
    - right. left. apply He'; auto. }
  intros k. eapply trel_rec with (sf := selfb (EFunc ps body) = true); [exact E2| | exact Ob | |].
  - intros x ex Hin. specialize (Hds x ex Hin). pose proof (Hincl _ Hds) as Hps. split; [|split].
    + exact (Od _ _ Hps).
    + apply Hscope. intros y Hy Hm. eapply fvb_func_default; eauto.
    + intros Hs. simpl. apply orb_true_iff. left. apply existsb_exists. exists (x, Some ex). auto.
  - apply Hscope. intros y Hy Hm. simpl. rewrite Hm. apply orb_true_iff. right. exact Hy.
  - intros Hs. simpl. apply orb_true_iff. right. exact Hs.
Qed.

(* forcing a demand marker emits its message (or runs out of fuel) *)
Lemma marker_esc : forall e, markerb e = true -> forall n r, @esc value (eval n r e).
Proof.
  unfold markerb, esc. destruct M as [mk|]; [|discriminate].
  intros e H n r.
  repeat match type of H with context [match ?x with _ => _ end] => destruct x; try discriminate end.
  apply name_eqb_eq in H. subst.
  destruct n as [|[|n2]]; [right; reflexivity|right; reflexivity|]. rewrite eval_index1.
  destruct n2 as [|n3].
  - assert (ET : eval 1 r (ETrace (EStr mk) (ENum 0)) = ([], OutOfFuel)) by reflexivity.
    rewrite ET. right. reflexivity.
  - assert (ET : eval (S (S n3)) r (ETrace (EStr mk) (ENum 0)) = ([mk], Ok (VNum 0))) by reflexivity.
    rewrite ET. clear ET. unfold rbind.
    change (index_array [(r, e)] (VNum 0)) with (@inr errk thunk (r, e)). cbv iota beta.
    destruct (eval (S (S n3)) r e) as [t o]. simpl. left. left. reflexivity.
Qed.

Lemma arr_thunks_rel : forall r1 r2 es1 es2,
  Forall2 (fun a b => a = b \/ markerb a = true) es1 es2 ->
  (forall a, In a es1 -> In a es2 -> trelw (r1, a) (r2, a)) ->
  Forall2 trelw (map (fun x => (r1, x)) es1) (map (fun x => (r2, x)) es2).
Proof.
  intros r1 r2 es1 es2 H. induction H as [|a b l1 l2 Hab Hl IH]; intros Hin; simpl; constructor.
  - destruct Hab as [<-|Mk].
    + apply Hin; left; reflexivity.
    + intros [|k]; simpl; auto.
  - apply IH. intros c H1 H2. apply Hin; right; assumption.
Qed.

Lemma esim_shape : forall e1 e2, esim e1 e2 ->
  match e1 with
  | EObj fs1 => exists fs2, e2 = EObj fs2 /\ live fs1 = live fs2
  | EArr es1 => exists es2, e2 = EArr es2 /\ Forall2 (fun a b => a = b \/ markerb a = true) es1 es2
  | _ => e2 = e1
  end.
Proof.
  intros e1 e2 [<-|[(fs1 & fs2 & -> & -> & Lv)|(es1 & es2 & -> & -> & Fa)]]; eauto.
  destruct e1; eauto. exists es. split; [reflexivity|]. induction es; constructor; auto.
Qed.

Lemma obj_fields_rel : forall fs1 fs2 r1 r2,
  live fs1 = live fs2 -> okfld (EObj fs1) = true ->
  erel trelw (fun x => fvb x (EObj fs1) = true /\ fvb x (EObj fs2) = true) (selfb (EObj fs1) = true) r1 r2 ->
  orel trelw (fs1, r1) (fs2, r2).
Proof.
  intros fs1 fs2 r1 r2 Lv O [L _]. split; [exact Lv|]. intros f Hf k. revert f Hf. simpl.
  (* a live field of one object is a field of both: its free variables are free in both literals *)
  induction k as [|k IH]; intros f Hf; [exact I|]. apply trel_same.
  - apply (okfld_in_list _ (fun f : field => snd (snd f)) fs1); [exact O|]. apply live_In. exact Hf.
  - intros x Hx. simpl.
    assert (Hx1 : fvb x (EObj fs1) = true)
      by (simpl; apply existsb_exists; exists f; split; [apply live_In; exact Hf|exact Hx]).
    assert (Hx2 : fvb x (EObj fs2) = true)
      by (simpl; apply existsb_exists; exists f; split; [apply live_In; rewrite <- Lv; exact Hf|exact Hx]).
    specialize (L x (conj Hx1 Hx2)). destruct (lookup x r1), (lookup x r2); simpl in *; auto.
  - intros _. simpl. split; [exact Lv|]. intros g Hg. apply IH. exact Hg.
Qed.

Theorem fundamental : forall n r1 e1 r2 e2,
  trelw (r1, e1) (r2, e2) ->
  resrel (vrel trelw) (eval n r1 e1) (eval n r2 e2).
Proof.
  induction n as [|n IH]; intros r1 e1 r2 e2 H; [right; split; simpl; auto|].
  destruct (trelw_inv _ _ _ _ H) as [Mk|(Es & O1 & _ & E)]; [left; apply marker_esc; exact Mk|].
  assert (Hk : forall e', In e' (kids e1) -> In e' (kids e2) -> trelw (r1, e') (r2, e'))
    by (intros e'; apply (trelw_kid _ _ _ _ _ E O1)).
  (* except for object and array literals the two sides are the same code; [eval] is
     unfolded once both sides show their constructor, so that no step has to unfold the
     right one by conversion *)
  apply esim_shape in Es.
  destruct e1; simpl in Es; try subst e2; cbn [eval]; simpl in Hk.
  - (* ENull *) apply resrel_ret. exact I.
  - (* EBool *) apply resrel_ret. reflexivity.
  - (* ENum *) destruct (in_range z); [apply resrel_ret; reflexivity|destruct (overflows z); apply resrel_fail].
  - (* EStr *) apply resrel_ret. reflexivity.
  - (* EVar *)
    assert (Hx : fvb x (EVar x) = true) by (simpl; apply name_eqb_refl).
    pose proof (proj1 E x (conj Hx Hx)) as L.
    apply (opt_rel_case _ _ _ _ L).
    + intros [tr1 te1] [tr2 te2] T. apply IH. exact T.
    + right; split; simpl; auto.
  - (* ELocal *)
    destruct E as [L Sf], (okfld_local _ _ O1) as [Ob Obody]. apply IH. intros k.
    apply trel_rec with (S := fun x => fvb x (ELocal bs e1) = true) (sf := selfb (ELocal bs e1) = true).
    + split; [|exact Sf]. intros x Hx. apply L. split; exact Hx.
    + intros x ex Hin. split; [exact (Ob _ _ Hin)|split].
      * intros y Hy. destruct (mem y (map fst bs)) eqn:Hm; [left; reflexivity|right].
        simpl. rewrite Hm. apply orb_true_iff. left. eapply existsb_in; eauto.
      * intros Hs. simpl. apply orb_true_iff. left. eapply existsb_in; eauto.
    + exact Obody.
    + intros y Hy. destruct (mem y (map fst bs)) eqn:Hm; [left; reflexivity|right].
      simpl. rewrite Hm. apply orb_true_iff. right. exact Hy.
    + intros Hs. simpl. apply orb_true_iff. right. exact Hs.
  - (* EFunc *) apply resrel_ret. simpl. repeat split; auto.
  - (* ECall *)
    eapply resrel_bind; [apply IH, Hk; auto|].
    intros v1 v2 Hv. apply (vrel_case _ v1 v2 Hv); try (intros; apply resrel_fail).
    intros ps b fr1 fr2 Hf. cbn beta iota.
    pose proof (bind_args_rel ps b args r1 r2 fr1 fr2 Hf
                  (fun a Ha => Hk a (or_intror Ha) (or_intror Ha))) as B.
    destruct (bind_args ps args r1 fr1) as [er1|c1], (bind_args ps args r2 fr2) as [er2|c2]; try contradiction.
    + subst. apply resrel_fail.
    + apply IH. exact B.
  - (* EArr *)
    destruct Es as (es2 & -> & Fa). cbn [eval]. apply resrel_ret. simpl. apply arr_thunks_rel; [exact Fa|exact Hk].
  - (* EIndex *)
    eapply resrel_bind; [apply IH, Hk; auto|]. intros va1 va2 Hva.
    eapply resrel_bind; [apply IH, Hk; auto|]. intros vi1 vi2 Hvi.
    apply (vrel_case _ va1 va2 Hva); try (intros; apply resrel_fail).
    intros ts1 ts2 Hts. cbn beta iota.
    pose proof (index_array_rel trelw ts1 ts2 vi1 vi2 Hts Hvi) as X.
    destruct (index_array ts1 vi1) as [er1|[tr1 te1]], (index_array ts2 vi2) as [er2|[tr2 te2]]; try contradiction.
    + subst. apply resrel_fail.
    + apply IH. exact X.
  - (* EObj *)
    destruct Es as (fs2 & -> & Lv). cbn [eval]. apply resrel_ret. exact (obj_fields_rel _ _ _ _ Lv O1 E).
  - (* EField *)
    eapply resrel_bind; [apply IH, Hk; auto|].
    intros v1 v2 Hv. apply (vrel_case _ v1 v2 Hv); try (intros; apply resrel_fail).
    intros fs1 or1 fs2 or2 [Lv F]. simpl in Lv, F. cbn beta iota.
    assert (Nd : not_dead_name f).
    { intros d Ed. clear - O1 Ed. unfold okfld in O1. rewrite Ed in O1. simpl in O1.
      apply andb_true_iff in O1. destruct O1 as [O1 _]. apply negb_true_iff in O1. exact O1. }
    rewrite <- (find_field_live f fs1 Nd), <- (find_field_live f fs2 Nd), <- Lv.
    destruct (find_field f (live fs1)) as [fe|] eqn:FF; [|apply resrel_fail].
    destruct (find_field_In _ _ _ FF) as (fld & Hin & <-).
    apply IH. apply F. exact Hin.
  - (* ESelf *)
    pose proof (proj2 E eq_refl) as Sf.
    apply (opt_rel_case _ _ _ _ Sf).
    + intros [fsa oa] [fsb ob] T. apply resrel_ret. exact T.
    + right; split; simpl; auto.
  - (* EIf *)
    eapply resrel_bind; [apply IH, Hk; auto|].
    intros v1 v2 Hv. apply (vrel_case _ v1 v2 Hv); try (intros; apply resrel_fail).
    intros b. destruct b; apply IH, Hk; auto.
  - (* EError *)
    eapply resrel_bind; [apply IH, Hk; auto|].
    intros v1 v2 Hv. rewrite <- (tostr_rel _ _ _ Hv). destruct (tostr v1); apply resrel_fail.
  - (* EAdd *)
    eapply resrel_bind; [apply IH, Hk; auto|]. intros va1 va2 Hva.
    eapply resrel_bind; [apply IH, Hk; auto|]. intros vb1 vb2 Hvb. apply add_values_rel; auto.
  - (* EEq *)
    eapply resrel_bind; [apply IH, Hk; auto|]. intros va1 va2 Hva.
    eapply resrel_bind; [apply IH, Hk; auto|]. intros vb1 vb2 Hvb. apply eq_values_rel; auto.
  - (* ETrace: the traced expression first, then the message *)
    eapply resrel_bind; [apply IH, Hk; auto|]. intros vx1 vx2 Hvx.
    eapply resrel_bind; [apply IH, Hk; auto|]. intros vm1 vm2 Hvm.
    apply (vrel_case _ vm1 vm2 Hvm); try (intros; apply resrel_fail).
    intros s. right; split; simpl; auto.
Qed.

Lemma mapM_resrel : forall A B (R : A -> A -> Prop) (f g : A -> res B) l1 l2,
  Forall2 R l1 l2 -> (forall a b, R a b -> resrel eq (f a) (g b)) ->
  resrel eq (mapM f l1) (mapM g l2).
Proof.
  intros A B R f g l1 l2 H Hfg. induction H as [|a b l1 l2 Hab Hl IH]; simpl.
  - apply resrel_ret. reflexivity.
  - eapply resrel_bind; [apply Hfg; exact Hab|]. intros x y <-.
    eapply resrel_bind; [exact IH|]. intros xs ys <-. apply resrel_ret. reflexivity.
Qed.

Lemma Forall2_diag_In : forall A (P : A -> Prop) (l : list A),
  (forall a, In a l -> P a) -> Forall2 (fun p q => p = q /\ P p) l l.
Proof.
  induction l as [|a l IH]; intros H; constructor.
  - split; [reflexivity|apply H; left; reflexivity].
  - apply IH. intros b Hb. apply H. right. exact Hb.
Qed.

Lemma insert_field_In : forall x m y, In y (insert_field x m) -> y = x \/ In y m.
Proof.
  induction m as [|z m IH]; simpl; intros y Hy; [destruct Hy as [<-|[]]; auto|].
  destruct (name_ltb (fst z) (fst x)); simpl in Hy; destruct Hy as [<-|Hy]; auto.
  destruct (IH y Hy); auto.
Qed.

Lemma visible_sorted_In : forall fs p, In p (visible_sorted fs) ->
  exists fld, In fld fs /\ snd (snd fld) = snd p.
Proof.
  intros fs p H. unfold visible_sorted in H.
  (* sorting only rearranges: p is one of the visible fields *)
  assert (Hs : forall l, In p (fold_right insert_field [] l) -> In p l).
  { induction l as [|q l IH]; simpl; intros Hp; [exact Hp|]. destruct (insert_field_In _ _ _ Hp); auto. }
  apply Hs, in_map_iff in H. destruct H as (fld & <- & Hf). apply filter_In in Hf.
  exists fld. split; [tauto|reflexivity].
Qed.

Theorem manifest_rel : forall fc n v1 v2, vrel trelw v1 v2 ->
  resrel eq (manifest fc n v1) (manifest fc n v2).
Proof.
  intros fc. induction n as [|n IH]; intros v1 v2 Hv; [apply resrel_refl_eq|].
  apply (vrel_case _ v1 v2 Hv); try (intros; apply resrel_refl_eq); cbn [manifest].
  - (* arrays *)
    intros tsa tsb Hts. eapply resrel_bind.
    + apply mapM_resrel with (R := trelw); [exact Hts|].
      intros [ra ea] [rb eb] Hab. simpl.
      eapply resrel_bind; [apply fundamental; exact Hab|]. intros x y Hxy. apply IH. exact Hxy.
    + intros xs ys <-. apply resrel_ret. reflexivity.
  - (* objects *)
    intros fsa ora fsb orb' [Lv F]. simpl in Lv, F.
    rewrite <- (visible_live fsa), <- (visible_live fsb), <- Lv.
    eapply resrel_bind.
    + apply mapM_resrel with (R := fun p q => p = q /\ In p (visible_sorted (live fsa))).
      * apply Forall2_diag_In. auto.
      * intros p q [<- Hp].
        destruct (visible_sorted_In _ _ Hp) as (fld & Hfld & Efld).
        pose proof (F fld Hfld) as T. rewrite Efld in T.
        eapply resrel_bind; [apply fundamental; exact T|]. intros x y Hxy.
        eapply resrel_bind; [apply IH; exact Hxy|]. intros j j' <-. apply resrel_ret. reflexivity.
    + intros xs ys <-. apply resrel_ret. reflexivity.
Qed.

(* related computations of a value give the same observable outcome of the whole run
   (trace output, JSON tree / error / panic / fuel exhaustion) — unless the left run
   emitted the marker message or ran out of fuel *)
Lemma run_of_rel : forall fc fm (m1 m2 : res value),
  resrel (vrel trelw) m1 m2 ->
  resrel eq (rdo v <- m1; rdo j <- manifest fc fm v; finish j)
            (rdo v <- m2; rdo j <- manifest fc fm v; finish j).
Proof.
  intros fc fm m1 m2 H. eapply resrel_bind; [exact H|]. intros v1 v2 Hv.
  eapply resrel_bind; [apply manifest_rel; exact Hv|]. intros j j' <-. apply resrel_refl_eq.
Qed.

Theorem run_rel : forall fe fc fm r1 e1 r2 e2,
  trelw (r1, e1) (r2, e2) -> resrel eq (run_in fe fc fm r1 e1) (run_in fe fc fm r2 e2).
Proof. intros. unfold run_in. apply run_of_rel. apply fundamental. assumption. Qed.

End Rel.

Lemma esc_none : forall A (m : res A), esc None m -> False.
Proof. intros A m H. exact H. Qed.

Theorem run_rel_eq : forall D fe fc fm r1 e1 r2 e2,
  trelw D None (r1, e1) (r2, e2) -> run_in fe fc fm r1 e1 = run_in fe fc fm r2 e2.
Proof.
  intros D fe fc fm r1 e1 r2 e2 H.
  destruct (resrel_eq None _ _ _ (run_rel D None fe fc fm r1 e1 r2 e2 H)) as [[]|E]. exact E.
Qed.

Lemma run_of_rel_eq : forall D fc fm (m1 m2 : res value),
  @resrel None _ (vrel D (trelw D None)) m1 m2 ->
  (rdo v <- m1; rdo j <- manifest fc fm v; finish j) = (rdo v <- m2; rdo j <- manifest fc fm v; finish j).
Proof.
  intros D fc fm m1 m2 H.
  destruct (resrel_eq None _ _ _ (run_of_rel D None fc fm m1 m2 H)) as [[]|E]. exact E.
Qed.

(* the two environments give the same closures to the free variables of e
   (and the same self when e mentions it); all other bindings are arbitrary *)
Definition agree_on (e : expr) (r1 r2 : env) : Prop :=
  (forall x, fvb x e = true -> lookup x r1 = lookup x r2) /\
  (selfb e = true -> self_of r1 = self_of r2).

Lemma trelw_agree : forall r1 r2 e, agree_on e r1 r2 -> trelw None None (r1, e) (r2, e).
Proof.
  intros r1 r2 e [L S]. apply trelw_intro; [left; reflexivity|reflexivity|reflexivity|].
  intros k. split.
  - intros x [Hx _]. rewrite (L x Hx). apply lookup_refl. exact I.
  - intros Hs. rewrite (S Hs). apply self_refl. exact I.
Qed.

Theorem coincidence_eval : forall n r1 r2 e, agree_on e r1 r2 ->
  @resrel None _ (vrel None (trelw None None)) (eval n r1 e) (eval n r2 e).
Proof. intros. apply fundamental. apply trelw_agree. assumption. Qed.

Theorem coincidence : forall fe fc fm r1 r2 e, agree_on e r1 r2 ->
  run_in fe fc fm r1 e = run_in fe fc fm r2 e.
Proof. intros. apply (run_rel_eq None). apply trelw_agree. assumption. Qed.

Lemma agree_arg : forall e x tr te r, fvb x e = false -> agree_on e (RArg x tr te r) r.
Proof.
  intros e x tr te r H. split; [|reflexivity]. intros y Hy. simpl.
  destruct (name_eqb y x) eqn:E; [|reflexivity]. apply name_eqb_eq in E. subst. congruence.
Qed.

Lemma agree_rec1 : forall e x e0 r, fvb x e = false -> agree_on e (RRec [(x, e0)] r) r.
Proof.
  intros e x e0 r H. split; [|reflexivity]. intros y Hy. simpl.
  destruct (name_eqb y x) eqn:E; [|reflexivity]. apply name_eqb_eq in E. subst. congruence.
Qed.

Lemma agree_obj : forall e fs r, selfb e = false -> agree_on e (RObj fs r) r.
Proof. intros e fs r H. split; [reflexivity|]. intros Hs. congruence. Qed.

(* local x = e; x   ==   e        (x fresh for e) *)
Theorem rw_local_name : forall fe fc fm r x e, fvb x e = false ->
  run_in (S (S fe)) fc fm r (ELocal [(x, e)] (EVar x)) = run_in fe fc fm r e.
Proof.
  intros fe fc fm r x e H. unfold run_in at 1. cbn [eval lookup assoc]. rewrite name_eqb_refl.
  change (run_in fe fc fm (RRec [(x, e)] r) e = run_in fe fc fm r e).
  apply coincidence, agree_rec1, H.
Qed.

(* (function(x) x)(e)   ==   e        (no side condition: the argument closure keeps its own environment) *)
Theorem rw_identity : forall fe fc fm r x e,
  run_in (S (S fe)) fc fm r (ECall (EFunc [(x, None)] (EVar x)) [e]) = run_in fe fc fm r e.
Proof.
  intros. unfold run_in. rewrite eval_call1. cbn [eval lookup assoc]. rewrite name_eqb_refl. reflexivity.
Qed.

(* [e][0]   ==   e *)
Theorem rw_array_proj : forall fe fc fm r e,
  run_in (S (S fe)) fc fm r (EIndex (EArr [e]) (ENum 0)) = run_in (S fe) fc fm r e.
Proof.
  intros. unfold run_in. rewrite eval_index1.
  change (eval (S fe) r (ENum 0)) with (ret (VNum 0)). rewrite rbind_ret_l. reflexivity.
Qed.

(* {f: e}.f   ==   e        (e does not mention self) *)
Theorem rw_object_proj : forall fe fc fm r f h e, selfb e = false ->
  run_in (S (S fe)) fc fm r (EField (EObj [(f, (h, e))]) f) = run_in (S fe) fc fm r e.
Proof.
  intros fe fc fm r f h e H.
  transitivity (run_in (S fe) fc fm (RObj [(f, (h, e))] r) e); [|apply coincidence, agree_obj, H].
  unfold run_in. rewrite eval_field1. unfold find_field. cbn [assoc]. rewrite name_eqb_refl. reflexivity.
Qed.

(* local x = e0; body   ==   body        (x not free in body) *)
Theorem rw_dead_local : forall fe fc fm r x e0 body, fvb x body = false ->
  run_in (S fe) fc fm r (ELocal [(x, e0)] body) = run_in fe fc fm r body.
Proof.
  intros fe fc fm r x e0 body H.
  change (run_in fe fc fm (RRec [(x, e0)] r) body = run_in fe fc fm r body).
  apply coincidence, agree_rec1, H.
Qed.

(* a dead bind inside an existing (mutually recursive) local *)
Lemma trel_rec_dead : forall bs1 bs2 x e0 r,
  (forall y ey, In (y, ey) (bs1 ++ bs2) -> fvb x ey = false) ->
  forall k e', fvb x e' = false ->
    trel None None k (RRec (bs1 ++ (x, e0) :: bs2) r, e') (RRec (bs1 ++ bs2) r, e').
Proof.
  intros bs1 bs2 x e0 r Hbs. induction k as [|k IH]; intros e' He'; [exact I|].
  apply trel_same; [reflexivity| |].
  - intros y Hy. simpl.
    assert (Ne : name_eqb y x = false) by (apply name_eqb_neq; intros ->; congruence).
    rewrite (assoc_app_skip _ y bs1 bs2 x e0 Ne).
    destruct (assoc y (bs1 ++ bs2)) as [ey|] eqn:A; simpl.
    + apply IH. eapply Hbs. eapply assoc_In. exact A.
    + apply lookup_refl. exact I.
  - intros _. simpl. apply self_refl. exact I.
Qed.

Theorem rw_dead_bind : forall fe fc fm r bs1 bs2 x e0 body,
  (forall y ey, In (y, ey) (bs1 ++ bs2) -> fvb x ey = false) -> fvb x body = false ->
  run_in fe fc fm r (ELocal (bs1 ++ (x, e0) :: bs2) body) = run_in fe fc fm r (ELocal (bs1 ++ bs2) body).
Proof.
  intros fe fc fm r bs1 bs2 x e0 body Hbs Hb. destruct fe as [|fe]; [reflexivity|].
  unfold run_in. cbn [eval].
  change (run_in fe fc fm (RRec (bs1 ++ (x, e0) :: bs2) r) body = run_in fe fc fm (RRec (bs1 ++ bs2) r) body).
  apply (run_rel_eq None). intros k. apply trel_rec_dead; assumption.
Qed.

Lemma bind_pos_app : forall ps extra args cr fr, length args <= length ps ->
  bind_pos (ps ++ extra) args cr fr =
  (fst (bind_pos ps args cr fr), snd (bind_pos ps args cr fr) ++ extra).
Proof.
  induction ps as [|[x dx] ps IH]; intros extra args cr fr H.
  - destruct args; [|simpl in H; lia]. simpl. destruct extra as [|[y dy] extra]; reflexivity.
  - destruct args as [|a args]; [reflexivity|]. simpl. apply IH. simpl in H. lia.
Qed.

Lemma defaults_of_app : forall rest p e0,
  defaults_of (rest ++ [(p, Some e0)]) =
  match defaults_of rest with inl e => inl e | inr ds => inr (ds ++ [(p, e0)]) end.
Proof.
  induction rest as [|[x [dx|]] rest IH]; intros p e0; simpl; auto.
  rewrite IH. destruct (defaults_of rest); reflexivity.
Qed.

Theorem rw_dead_param : forall fe fc fm r ps p e0 body args,
  length args <= length ps -> fvb p body = false ->
  (forall q dq, In (q, Some dq) ps -> fvb p dq = false) ->
  run_in fe fc fm r (ECall (EFunc (ps ++ [(p, Some e0)]) body) args) =
  run_in fe fc fm r (ECall (EFunc ps body) args).
Proof.
  intros fe fc fm r ps p e0 body args Hlen Hb Hd.
  destruct fe as [|m]; [reflexivity|].
  unfold run_in. apply (run_of_rel_eq None). cbn [eval].
  destruct m as [|n]; [right; split; simpl; auto|].
  rewrite !eval_func, !rbind_ret_l. unfold bind_args.
  assert (L1 : Nat.ltb (@length param (ps ++ [(p, Some e0)])) (length args) = false)
    by (apply Nat.ltb_ge; unfold param; rewrite app_length; simpl; lia).
  assert (L2 : Nat.ltb (@length param ps) (length args) = false) by (apply Nat.ltb_ge; unfold param; lia).
  rewrite L1, L2.
  rewrite bind_pos_app by exact Hlen.
  pose proof (bind_pos_rest_incl ps args r r) as Hincl.
  destruct (bind_pos ps args r r) as [r1 rest]. simpl fst. simpl snd. simpl in Hincl.
  rewrite defaults_of_app.
  destruct (defaults_of rest) as [err|ds] eqn:Dd; [apply resrel_fail|].
  apply (fundamental None None). intros k.
  assert (Hds' : forall y ey, In (y, ey) (ds ++ []) -> fvb p ey = false).
  { intros y ey Hin. rewrite app_nil_r in Hin.
    destruct (defaults_of_spec _ _ Dd) as [_ Hds]. eapply Hd. apply Hincl. apply Hds. exact Hin. }
  pose proof (trel_rec_dead ds [] p e0 r1 Hds' k body Hb) as T. rewrite app_nil_r in T. exact T.
Qed.

Lemma live_dead_field : forall d fs1 fs2 e0,
  live (Some d) (fs1 ++ (d, (true, e0)) :: fs2) = live (Some d) (fs1 ++ fs2).
Proof.
  intros. unfold live. rewrite !filter_app. f_equal. cbn [filter]. unfold is_dead. cbn [fst snd].
  rewrite name_eqb_refl. reflexivity.
Qed.

Lemma dead_field_sim : forall d fs1 fs2 e0,
  forallb (fun f : field => nofld d (snd (snd f))) (fs1 ++ (d, (true, e0)) :: fs2) = true ->
  esim (Some d) None (EObj (fs1 ++ (d, (true, e0)) :: fs2)) (EObj (fs1 ++ fs2)) /\
  okfld (Some d) (EObj (fs1 ++ (d, (true, e0)) :: fs2)) = true /\
  okfld (Some d) (EObj (fs1 ++ fs2)) = true.
Proof.
  intros d fs1 fs2 e0 Hfs. split; [|split; [exact Hfs|]].
  - right. left. eexists. eexists. split; [reflexivity|split; [reflexivity|apply live_dead_field]].
  - change (forallb (fun f : field => nofld d (snd (snd f))) (fs1 ++ fs2) = true).
    rewrite forallb_app in *. simpl in Hfs. apply andb_true_iff in Hfs. destruct Hfs as [A B].
    apply andb_true_iff in B. destruct B as [_ B]. rewrite A, B. reflexivity.
Qed.

(* local o = {fs1, d:: e0, fs2}; body   ==   local o = {fs1, fs2}; body
   when the field name d is accessed nowhere (in body, in the object, in the environment) *)
Theorem rw_dead_field : forall fe fc fm r d fs1 fs2 e0 o body,
  env_nofld d r = true ->
  forallb (fun f : field => nofld d (snd (snd f))) (fs1 ++ (d, (true, e0)) :: fs2) = true ->
  nofld d body = true ->
  run_in fe fc fm r (ELocal [(o, EObj (fs1 ++ (d, (true, e0)) :: fs2))] body) =
  run_in fe fc fm r (ELocal [(o, EObj (fs1 ++ fs2))] body).
Proof.
  intros fe fc fm r d fs1 fs2 e0 o body Hr Hfs Hb. destruct fe as [|fe]; [reflexivity|].
  unfold run_in. cbn [eval].
  apply (run_of_rel_eq (Some d)). apply (fundamental (Some d) None). intros k.
  apply (trel_local_bind (Some d) None o _ _ r (or_intror (dead_field_sim d fs1 fs2 e0 Hfs)) Hr k).
  exact Hb.
Qed.

(* the fuel offsets of the laws are bookkeeping: stated without them, the two sides have
   the same proper results *)
Theorem rw_local_name_results : forall fc fm r x e res, fvb x e = false -> snd res <> OutOfFuel ->
  ((exists fe, run_in fe fc fm r (ELocal [(x, e)] (EVar x)) = res) <->
   (exists fe, run_in fe fc fm r e = res)).
Proof.
  intros fc fm r x e res Hx Hres. split; intros [fe H].
  - destruct fe as [|[|n]].
    + subst res. exfalso. apply Hres. reflexivity.
    + subst res. exfalso. apply Hres. reflexivity.
    + exists n. rewrite <- H. symmetry. apply rw_local_name. exact Hx.
  - exists (S (S fe)). rewrite <- H. apply rw_local_name. exact Hx.
Qed.

(* Laziness monotonicity: a binding that may well be free in the body, but is never
   demanded in this run, can be replaced by anything.  Demand is observed through the marker
   [e][std.trace(mk, 0)], which emits mk strictly before e is evaluated. *)

Definition marker (mk : str) (e : expr) : expr := EIndex (EArr [e]) (ETrace (EStr mk) (ENum 0)).

Lemma markerb_marker : forall mk e, markerb (Some mk) (marker mk e) = true.
Proof. intros. unfold markerb, marker. apply name_eqb_refl. Qed.

(* two related closures give the same run unless the left one demands a marker *)
Lemma undemanded_run : forall mk fe fc fm r1 e1 r2 e2,
  trelw None (Some mk) (r1, e1) (r2, e2) ->
  let res := run_in fe fc fm r1 e1 in
  ~ In mk (fst res) -> snd res <> OutOfFuel -> run_in fe fc fm r2 e2 = res.
Proof.
  intros mk fe fc fm r1 e1 r2 e2 H res Hm Hf.
  destruct (resrel_eq (Some mk) _ _ _ (run_rel None (Some mk) fe fc fm r1 e1 r2 e2 H)) as [[E|E]|E];
    [contradiction|contradiction|symmetry; exact E].
Qed.

Theorem laziness_monotone : forall fe fc fm r x e1 e2 body mk,
  let res := run_in fe fc fm r (ELocal [(x, marker mk e1)] body) in
  ~ In mk (fst res) -> snd res <> OutOfFuel ->
  run_in fe fc fm r (ELocal [(x, e2)] body) = res.
Proof.
  intros fe fc fm r x e1 e2 body mk res Hm Hf. subst res.
  destruct fe as [|fe]; [exfalso; apply Hf; reflexivity|].
  apply (undemanded_run mk fe fc fm (RRec [(x, marker mk e1)] r) body (RRec [(x, e2)] r) body); auto.
  intros k.
  apply (trel_local_bind None (Some mk) x _ e2 r (or_introl (markerb_marker mk e1)) I k). reflexivity.
Qed.

(* the same for a function argument that is never demanded *)
Theorem laziness_monotone_arg : forall fe fc fm r x e1 e2 body mk,
  let res := run_in fe fc fm r (ECall (EFunc [(x, None)] body) [marker mk e1]) in
  ~ In mk (fst res) -> snd res <> OutOfFuel ->
  run_in fe fc fm r (ECall (EFunc [(x, None)] body) [e2]) = res.
Proof.
  intros fe fc fm r x e1 e2 body mk res Hm Hf. subst res.
  destruct fe as [|[|fe]]; [exfalso; apply Hf; reflexivity|exfalso; apply Hf; reflexivity|].
  assert (E1 : forall a, run_in (S (S fe)) fc fm r (ECall (EFunc [(x, None)] body) [a]) =
                         run_in (S fe) fc fm (RRec [] (RArg x r a r)) body)
    by (intros a; unfold run_in; rewrite eval_call1; reflexivity).
  rewrite !E1 in *. apply (undemanded_run mk); auto.
  intros [|k]; [exact I|]. apply trel_same; [reflexivity| |].
  - intros y _. simpl. destruct (name_eqb y x); simpl; [|apply lookup_refl; exact I].
    destruct k as [|k]; simpl; auto. left. exact (markerb_marker mk e1).
  - intros _. simpl. apply self_refl. exact I.
Qed.

(* ... and for an array item that is never demanded: the array is bound by a local and used
   by arbitrary code (indexing other items, concatenation, length-based equality, ...) *)
Lemma items_marker_rel : forall mk (es1 es2 : list expr) e1 e2,
  Forall2 (fun a b => a = b \/ markerb (Some mk) a = true) (es1 ++ marker mk e1 :: es2) (es1 ++ e2 :: es2).
Proof.
  intros mk es1 es2 e1 e2. induction es1 as [|a es1 IH]; simpl.
  - constructor; [right; exact (markerb_marker mk e1)|]. induction es2; constructor; auto.
  - constructor; auto.
Qed.

Theorem laziness_monotone_item : forall fe fc fm r x es1 es2 e1 e2 body mk,
  let res := run_in fe fc fm r (ELocal [(x, EArr (es1 ++ marker mk e1 :: es2))] body) in
  ~ In mk (fst res) -> snd res <> OutOfFuel ->
  run_in fe fc fm r (ELocal [(x, EArr (es1 ++ e2 :: es2))] body) = res.
Proof.
  intros fe fc fm r x es1 es2 e1 e2 body mk res Hm Hf. subst res.
  destruct fe as [|fe]; [exfalso; apply Hf; reflexivity|].
  apply (undemanded_run mk fe fc fm (RRec [(x, EArr (es1 ++ marker mk e1 :: es2))] r) body
                                    (RRec [(x, EArr (es1 ++ e2 :: es2))] r) body); auto.
  intros k.
  assert (Es : esim None (Some mk) (EArr (es1 ++ marker mk e1 :: es2)) (EArr (es1 ++ e2 :: es2))).
  { right. right. eexists. eexists. split; [reflexivity|split; [reflexivity|apply items_marker_rel]]. }
  apply (trel_local_bind None (Some mk) x _ _ r (or_intror (conj Es (conj eq_refl eq_refl))) I k).
  reflexivity.
Qed.
