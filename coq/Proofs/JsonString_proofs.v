(* Proofs/JsonString_proofs.v — the JSON string lexer of Model/JsonParse.v inverts the
   two string printers: the minimal [print_string] of the model and std.escapeStringJson
   (Model/Esc.v [escape_json], with the C0 range of the current source). *)
From RJ Require Import Base.Outcome Base.F64 Model.JsonParse Model.Esc Proofs.JsonParse_proofs.
From Coq Require Import Lia.
Local Open Scope N_scope.

Arguments N.div : simpl never.
Arguments N.modulo : simpl never.

(* inside a string literal the lexer reads the text [u] as the one character [c] *)
Definition reads_as (u : str) (c : N) : Prop :=
  u <> [] /\
  forall fuel line col start acc rest, exists col',
    lex_string_body (S fuel) {| lx_line := line; lx_col := col; lx_rem := u ++ rest |} start acc =
    lex_string_body fuel {| lx_line := line; lx_col := col'; lx_rem := rest |} start (c :: acc).

Lemma body_generic (enc : N -> str) : (forall c, reads_as (enc c) c) ->
  forall s fuel line col start acc rest, (length (flat_map enc s) < fuel)%nat ->
  exists col',
    lex_string_body fuel {| lx_line := line; lx_col := col; lx_rem := flat_map enc s ++ 34 :: rest |} start acc =
    Ok (rev acc ++ s, {| lx_line := line; lx_col := col'; lx_rem := rest |}).
Proof.
  intros Henc. induction s as [|c r IH]; intros fuel line col start acc rest Hf;
    (destruct fuel as [|f]; [inversion Hf|]).
  - cbn [flat_map app lex_string_body lx_rem N.eqb Pos.eqb].
    exists (col + 1). unfold advance. cbn [lx_line lx_col]. now rewrite app_nil_r.
  - destruct (Henc c) as [Hne Hread]. cbn [flat_map] in *. rewrite <- app_assoc.
    destruct (Hread f line col start acc (flat_map enc r ++ 34 :: rest)) as [col1 E1]. rewrite E1.
    destruct (IH f line col1 start (c :: acc) rest) as [col2 E2].
    { rewrite app_length in Hf. destruct (enc c); [contradiction Hne; reflexivity|cbn [length] in Hf; lia]. }
    exists col2. rewrite E2. cbn [rev]. now rewrite <- app_assoc.
Qed.

Lemma lex_string_encoded (enc : N -> str) : (forall c, reads_as (enc c) c) ->
  forall s rest line col, exists col',
    lex_string {| lx_line := line; lx_col := col; lx_rem := 34 :: flat_map enc s ++ 34 :: rest |} =
    Ok (Some (s, {| lx_line := line; lx_col := col'; lx_rem := rest |})).
Proof.
  intros Henc s rest line col. unfold lex_string, eat_char. cbn [lx_rem N.eqb Pos.eqb].
  unfold advance. cbn [lx_line lx_col lx_rem].
  destruct (body_generic enc Henc s (S (length (flat_map enc s ++ 34 :: rest))) line (col + 1) (col + 1) [] rest)
    as [col' E]; [rewrite app_length; lia|].
  exists col'. rewrite E. reflexivity.
Qed.

Lemma reads_plain c : plain c -> reads_as [c] c.
Proof.
  intros Hc. split; [discriminate|]. intros fuel line col start acc rest. exists (col + 1).
  exact (lex_string_body_plain c rest fuel line col start acc Hc).
Qed.

Lemma reads_simple e c : e <> 117 -> simple_escape e = Some c -> reads_as [92; e] c.
Proof.
  intros He Hs. split; [discriminate|]. intros fuel line col start acc rest. exists (col + 2).
  cbn [app lex_string_body lx_rem N.eqb Pos.eqb].
  destruct (N.eqb_spec e 117); [contradiction|]. rewrite Hs. reflexivity.
Qed.

Lemma hex_from_jhex d : d < 16 -> hex_from_digit (jhex_digit d) = Some d.
Proof.
  intros Hd. unfold jhex_digit, hex_from_digit. destruct (N.ltb_spec d 10).
  - rewrite (proj2 (N.leb_le 48 (48 + d))), (proj2 (N.leb_le (48 + d) 57)) by lia. cbn [andb]. f_equal. lia.
  - rewrite (proj2 (N.leb_gt (87 + d) 57)), andb_false_r by lia.
    rewrite (proj2 (N.leb_le 97 (87 + d))), (proj2 (N.leb_le (87 + d) 102)) by lia. cbn [andb]. f_equal. lia.
Qed.

(* \u00XY with the two hex digits of a code point below U+00A0: not a surrogate, so no second
   escape is looked for *)
Lemma lex_u_escape_small c rest : c < 160 ->
  lex_u_escape (48 :: 48 :: jhex_digit (c / 16) :: jhex_digit (c mod 16) :: rest) = Some (c, 4, rest).
Proof.
  intros Hc. unfold lex_u_escape, eat_codeunit. change (hex_from_digit 48) with (Some 0).
  rewrite !hex_from_jhex by (apply N.div_lt_upper_bound || apply N.mod_lt; lia).
  replace (0 * 4096 + 0 * 256 + c / 16 * 16 + c mod 16) with c by (pose proof (N.div_mod c 16); lia).
  unfold is_surrogate. rewrite (proj2 (N.leb_gt 55296 c)) by lia. reflexivity.
Qed.

Lemma reads_u c : c < 160 -> reads_as [92; 117; 48; 48; jhex_digit (c / 16); jhex_digit (c mod 16)] c.
Proof.
  intros Hc. split; [discriminate|]. intros fuel line col start acc rest. exists (col + (2 + 4)).
  cbn [app lex_string_body lx_rem N.eqb Pos.eqb]. rewrite (lex_u_escape_small c rest Hc). reflexivity.
Qed.

(* the hex digits of the two printers coincide (lower case) *)
Lemma hex_digit_same d : Esc.hex_digit d = jhex_digit d.
Proof. reflexivity. Qed.

Lemma print_char_ok c : reads_as (print_char c) c.
Proof.
  unfold print_char.
  destruct (N.eqb_spec c 34) as [->|H34]; [now apply (reads_simple 34)|].
  destruct (N.eqb_spec c 92) as [->|H92]; [now apply (reads_simple 92)|].
  destruct (N.ltb_spec c 32); [apply reads_u; lia|now apply reads_plain].
Qed.

Theorem lex_string_print_string : forall s rest line col,
  exists col',
    lex_string {| lx_line := line; lx_col := col; lx_rem := print_string s ++ rest |} =
    Ok (Some (s, {| lx_line := line; lx_col := col'; lx_rem := rest |})).
Proof.
  intros s rest line col. unfold print_string. cbn [app]. rewrite <- app_assoc.
  exact (lex_string_encoded print_char print_char_ok s rest line col).
Qed.

(* below U+00A0 the four hex digits of \uXXXX start with two zeros *)
Lemma u_escape_small c : c < 160 ->
  u_escape c = [92; 117; 48; 48; jhex_digit (c / 16); jhex_digit (c mod 16)].
Proof.
  intros Hc. unfold u_escape. rewrite (N.div_small c 4096), (N.div_small c 256) by lia.
  rewrite (N.mod_small (c / 16) 16) by (apply N.div_lt_upper_bound; lia). reflexivity.
Qed.

(* std.escapeStringJson with the C0 range of the repaired source (0x1F) *)
Lemma json_char_ok c : reads_as (json_char 31 c) c.
Proof.
  unfold json_char.
  destruct (N.eqb_spec c 8) as [->|_]; [now apply (reads_simple 98)|].
  destruct (N.eqb_spec c 9) as [->|_]; [now apply (reads_simple 116)|].
  destruct (N.eqb_spec c 10) as [->|_]; [now apply (reads_simple 110)|].
  destruct (N.eqb_spec c 12) as [->|_]; [now apply (reads_simple 102)|].
  destruct (N.eqb_spec c 13) as [->|_]; [now apply (reads_simple 114)|].
  destruct (N.eqb_spec c 34) as [->|H34]; [now apply (reads_simple 34)|].
  destruct (N.eqb_spec c 92) as [->|H92]; [now apply (reads_simple 92)|].
  destruct (N.leb_spec c 31); cbn [orb]; [rewrite u_escape_small by lia; apply reads_u; lia|].
  destruct (N.leb_spec 127 c); cbn [andb]; [|apply reads_plain; repeat split; assumption || lia].
  destruct (N.leb_spec c 159); [rewrite u_escape_small by lia; apply reads_u; lia|apply reads_plain; repeat split; assumption || lia].
Qed.

Lemma json_body_flat_map hi s : json_body hi s = flat_map (json_char hi) s.
Proof. induction s as [|c r IH]; [reflexivity|]. cbn [json_body flat_map]. now rewrite IH. Qed.

(* the JSON lexer reads std.escapeStringJson(s) back as s *)
Theorem lex_string_escape_json : forall s rest line col,
  exists col',
    lex_string {| lx_line := line; lx_col := col; lx_rem := escape_json 31 s ++ rest |} =
    Ok (Some (s, {| lx_line := line; lx_col := col'; lx_rem := rest |})).
Proof.
  intros s rest line col. unfold escape_json. cbn [app]. rewrite json_body_flat_map, <- app_assoc.
  exact (lex_string_encoded (json_char 31) json_char_ok s rest line col).
Qed.

Lemma start_value_quote lx r s lx1 : lx_rem lx = 34 :: r -> lex_string lx = Ok (Some (s, lx1)) ->
  start_value lx = Ok (SVValue (JStr s) (skip_spaces lx1)).
Proof.
  intros Hr Hl. unfold start_value.
  rewrite !(fun a p => eat_str_miss a p lx 34 r Hr) by discriminate.
  rewrite (lex_number_none lx 34 r Hr) by (discriminate || reflexivity). cbn [obind]. rewrite Hl. reflexivity.
Qed.

Lemma parse_json_string r s col' :
  lex_string {| lx_line := 0; lx_col := 0; lx_rem := 34 :: r |} = Ok (Some (s, {| lx_line := 0; lx_col := col'; lx_rem := [] |})) ->
  parse_json (34 :: r) = Ok (JStr s).
Proof.
  intros Hl. rewrite (parse_json_nonws 34 r eq_refl). cbn [parse_loop].
  rewrite (start_value_quote {| lx_line := 0; lx_col := 0; lx_rem := 34 :: r |} r s _ eq_refl Hl). reflexivity.
Qed.

(* std.parseJson(std.escapeStringJson(s)) = s *)
Theorem parse_escape_json : forall s, parse_json (escape_json 31 s) = Ok (JStr s).
Proof.
  intros s. destruct (lex_string_escape_json s [] 0 0) as [col' E]. rewrite app_nil_r in E.
  exact (parse_json_string _ s col' E).
Qed.

Theorem parse_print_string : forall s, parse_json (print_string s) = Ok (JStr s).
Proof.
  intros s. destruct (lex_string_print_string s [] 0 0) as [col' E]. rewrite app_nil_r in E.
  exact (parse_json_string _ s col' E).
Qed.

(* the snapshot's range (0x19) left U+001A..U+001F raw, which the lexer rejects *)
Example escape_json_0x19_refuted :
  parse_json (escape_json 25 [26]) = Err {| je_line := 0; je_col := 1; je_kind := EInvalidChrInString |}.
Proof. vm_compute. reflexivity. Qed.
