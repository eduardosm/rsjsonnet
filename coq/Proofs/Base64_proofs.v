(* Proofs/Base64_proofs.v — Model/Base64.v: decoding undoes encoding (group by group, on the
   byte arithmetic of Base64_arith_proofs.v), the shape of an encoding, and which texts the
   decoder rejects for which reason. *)
From RJ Require Import Base.Outcome Base.F64 Model.Base64 Proofs.Base64_arith_proofs.
From Coq Require Import Lia.
Local Open Scope N_scope.

(* the encoder's six index expressions stay below 64 *)
Lemma lt64_a b : b < 256 -> b / 4 < 64.
Proof. intros. apply N.div_lt_upper_bound; lia. Qed.
Lemma lt64_b b0 b1 : b1 < 256 -> (b0 mod 4) * 16 + b1 / 16 < 64.
Proof.
  intros. assert (b0 mod 4 < 4) by (apply N.mod_lt; discriminate).
  assert (b1 / 16 < 16) by (apply N.div_lt_upper_bound; lia). lia.
Qed.
Lemma lt64_b0 b0 : (b0 mod 4) * 16 < 64.
Proof. assert (b0 mod 4 < 4) by (apply N.mod_lt; discriminate). lia. Qed.
Lemma lt64_c b1 b2 : b2 < 256 -> (b1 mod 16) * 4 + b2 / 64 < 64.
Proof.
  intros. assert (b1 mod 16 < 16) by (apply N.mod_lt; discriminate).
  assert (b2 / 64 < 4) by (apply N.div_lt_upper_bound; lia). lia.
Qed.
Lemma lt64_c0 b1 : (b1 mod 16) * 4 < 64.
Proof. assert (b1 mod 16 < 16) by (apply N.mod_lt; discriminate). lia. Qed.
Lemma lt64_d b2 : b2 mod 64 < 64.
Proof. apply N.mod_lt; discriminate. Qed.

Local Hint Resolve lt64_a lt64_b lt64_b0 lt64_c lt64_c0 lt64_d : b64.

(* a full group of three bytes decodes to itself *)
Lemma dec_chunk_enc b0 b1 b2 : b0 < 256 -> b1 < 256 -> b2 < 256 ->
  dec_chunk (encmap (b0 / 4)) (encmap ((b0 mod 4) * 16 + b1 / 16))
            (encmap ((b1 mod 16) * 4 + b2 / 64)) (encmap (b2 mod 64)) = Ok [b0; b1; b2].
Proof.
  intros H0 H1 H2. unfold dec_chunk. rewrite !chr_encmap by auto with b64. cbn [obind].
  rewrite !div_low by (apply N.div_lt_upper_bound; lia).
  now rewrite byte0, byte1, byte2.
Qed.

(* without padding the last group is read like any other *)
Lemma dec_last_enc3 b0 b1 b2 : b0 < 256 -> b1 < 256 -> b2 < 256 ->
  dec_last (encmap (b0 / 4)) (encmap ((b0 mod 4) * 16 + b1 / 16))
           (encmap ((b1 mod 16) * 4 + b2 / 64)) (encmap (b2 mod 64)) = Ok [b0; b1; b2].
Proof.
  intros H0 H1 H2. rewrite <- (dec_chunk_enc b0 b1 b2) by assumption.
  unfold dec_last, dec_chunk. now rewrite !encmap_not_pad by auto with b64.
Qed.

Lemma dec_last_enc2 b0 b1 : b0 < 256 -> b1 < 256 ->
  dec_last (encmap (b0 / 4)) (encmap ((b0 mod 4) * 16 + b1 / 16)) (encmap ((b1 mod 16) * 4)) pad = Ok [b0; b1].
Proof.
  intros H0 H1. unfold dec_last.
  rewrite encmap_not_pad, N.eqb_refl, !chr_encmap by auto with b64. cbn [obind andb].
  rewrite div_low, N.div_mul by (discriminate || apply N.div_lt_upper_bound; lia).
  now rewrite byte0, byte1.
Qed.

Lemma dec_last_enc1 b0 : b0 < 256 ->
  dec_last (encmap (b0 / 4)) (encmap ((b0 mod 4) * 16)) pad pad = Ok [b0].
Proof.
  intros H0. unfold dec_last. rewrite N.eqb_refl, !chr_encmap by auto with b64. cbn [obind andb].
  now rewrite N.div_mul, byte0.
Qed.

Lemma list_ind3 {A} (P : list A -> Prop) :
  P [] -> (forall a, P [a]) -> (forall a b, P [a; b]) ->
  (forall a b c r, P r -> P (a :: b :: c :: r)) -> forall l, P l.
Proof.
  intros H0 H1 H2 H3.
  fix IH 1. intros [|a [|b [|c r]]]; [apply H0 | apply H1 | apply H2 | apply H3, IH].
Qed.

Lemma list_ind4 {A} (P : list A -> Prop) :
  P [] -> (forall a, P [a]) -> (forall a b, P [a; b]) -> (forall a b c, P [a; b; c]) ->
  (forall a b c d r, P r -> P (a :: b :: c :: d :: r)) -> forall l, P l.
Proof.
  intros H0 H1 H2 H3 H4.
  fix IH 1. intros [|a [|b [|c [|d r]]]]; [apply H0 | apply H1 | apply H2 | apply H3 | apply H4, IH].
Qed.

Definition bytes (bs : list N) : Prop := Forall (fun b => b < 256) bs.

Lemma encode_nil_iff bs : b64_encode bs = [] <-> bs = [].
Proof. destruct bs as [|a [|b [|c r]]]; cbn; split; intros H; try discriminate; reflexivity. Qed.

Lemma dec_chunks_cons2 c0 c1 c2 c3 ch l :
  dec_chunks ((c0, c1, c2, c3) :: ch :: l) =
  obind (dec_chunk c0 c1 c2 c3) (fun a => obind (dec_chunks (ch :: l)) (fun b => Ok (a ++ b))).
Proof. reflexivity. Qed.

Lemma chunks4_nil s : chunks4 s = Some [] -> s = [].
Proof.
  destruct s as [|a [|b [|c [|d r]]]]; try discriminate; [reflexivity|].
  cbn [chunks4]. destruct (chunks4 r); discriminate.
Qed.

Theorem decode_encode : forall bs, bytes bs -> b64_decode (b64_encode bs) = Ok bs.
Proof.
  unfold b64_decode, bytes.
  induction bs as [|a|a b|a b c r IH] using list_ind3; rewrite ?Forall_cons_iff.
  - reflexivity.
  - intros [Ha _]. now apply dec_last_enc1.
  - intros (Ha & Hb & _). now apply dec_last_enc2.
  - intros (Ha & Hb & Hc & Hr). specialize (IH Hr). cbn [b64_encode chunks4].
    destruct (chunks4 (b64_encode r)) as [[|ch l]|]; [| |discriminate].
    + injection IH as <-. now apply dec_last_enc3.
    + now rewrite dec_chunks_cons2, dec_chunk_enc, IH.
Qed.

(* std.base64Decode(std.base64(s)) = s for strings of code points below 256 *)
Theorem decode_encode_string : forall s r, base64_string s = Ok r -> base64_decode r = Ok s.
Proof.
  unfold base64_string, base64_decode. intros s r H.
  destruct (forallb (fun c => c <? 256) s) eqn:E; [|discriminate].
  injection H as <-. apply decode_encode.
  apply Forall_forall. intros x Hx. rewrite forallb_forall in E. apply N.ltb_lt. now apply E.
Qed.

(* well-formed base64 text: groups of four alphabet characters; the last group may
   end in one or two '=' *)
Fixpoint wf_b64 (s : str) : bool :=
  match s with
  | [] => true
  | c0 :: c1 :: c2 :: c3 :: r =>
      match r with
      | [] => in_alpha c0 && in_alpha c1 &&
              (((c2 =? pad) && (c3 =? pad)) || (in_alpha c2 && ((c3 =? pad) || in_alpha c3)))
      | _ => in_alpha c0 && in_alpha c1 && in_alpha c2 && in_alpha c3 && wf_b64 r
      end
  | _ => false
  end.

Theorem encode_wf : forall bs, bytes bs -> wf_b64 (b64_encode bs) = true.
Proof.
  unfold bytes.
  induction bs as [|a|a b|a b c r IH] using list_ind3; rewrite ?Forall_cons_iff.
  - reflexivity.
  - intros [Ha _]. cbn [b64_encode wf_b64].
    now rewrite !encmap_alpha, N.eqb_refl by auto with b64.
  - intros (Ha & Hb & _). cbn [b64_encode wf_b64].
    now rewrite !encmap_alpha, encmap_not_pad, N.eqb_refl by auto with b64.
  - intros (Ha & Hb & Hc & Hr). cbn [b64_encode wf_b64].
    rewrite !encmap_alpha, !encmap_not_pad, (IH Hr) by auto with b64.
    now destruct (b64_encode r).
Qed.

Theorem encode_length : forall bs,
  N.of_nat (length (b64_encode bs)) = 4 * ((N.of_nat (length bs) + 2) / 3).
Proof.
  induction bs as [|a|a b|a b c r IH] using list_ind3.
  - reflexivity.
  - reflexivity.
  - reflexivity.
  - cbn [b64_encode length]. rewrite !Nat2N.inj_succ, IH.
    replace (N.succ (N.succ (N.succ (N.of_nat (length r)))) + 2) with ((N.of_nat (length r) + 2) + 1 * 3) by lia.
    rewrite N.div_add by discriminate. lia.
Qed.

Lemma dec_chunk_ok c0 c1 c2 c3 :
  is_ok (dec_chunk c0 c1 c2 c3) = in_alpha c0 && in_alpha c1 && in_alpha c2 && in_alpha c3.
Proof.
  unfold dec_chunk. rewrite <- !chr_to_index_alpha.
  destruct (chr_to_index c0); cbn; try reflexivity.
  destruct (chr_to_index c1); cbn; try reflexivity.
  destruct (chr_to_index c2); cbn; try reflexivity.
  destruct (chr_to_index c3); cbn; reflexivity.
Qed.

Lemma dec_last_ok c0 c1 c2 c3 :
  is_ok (dec_last c0 c1 c2 c3) =
  in_alpha c0 && in_alpha c1 && (((c2 =? pad) && (c3 =? pad)) || (in_alpha c2 && ((c3 =? pad) || in_alpha c3))).
Proof.
  unfold dec_last. rewrite <- !chr_to_index_alpha.
  destruct (chr_to_index c0); cbn; try reflexivity.
  destruct (chr_to_index c1); cbn; try reflexivity.
  destruct (c2 =? pad) eqn:E2.
  - (* '=' is no alphabet character: after it only another '=' passes *)
    apply N.eqb_eq in E2. subst c2. now destruct (c3 =? pad).
  - cbn. destruct (c3 =? pad), (chr_to_index c2); cbn; try reflexivity.
    now destruct (chr_to_index c3).
Qed.

Lemma chunks4_none_iff s : chunks4 s = None <-> (N.of_nat (length s)) mod 4 <> 0.
Proof.
  induction s as [|a|a b|a b c|a b c d r IH] using list_ind4.
  1-4: split; [discriminate | try reflexivity]. now intros [].
  cbn [chunks4 length]. rewrite !Nat2N.inj_succ.
  replace (N.succ (N.succ (N.succ (N.succ (N.of_nat (length r)))))) with (N.of_nat (length r) + 1 * 4) by lia.
  rewrite N.mod_add, <- IH by discriminate. now destruct (chunks4 r).
Qed.

Lemma dec_chunks_ok_cons c0 c1 c2 c3 ch l :
  is_ok (dec_chunks ((c0, c1, c2, c3) :: ch :: l)) =
  in_alpha c0 && in_alpha c1 && in_alpha c2 && in_alpha c3 && is_ok (dec_chunks (ch :: l)).
Proof.
  rewrite dec_chunks_cons2, <- dec_chunk_ok.
  now destruct (dec_chunk c0 c1 c2 c3), (dec_chunks (ch :: l)).
Qed.

Theorem decode_ok_iff_wf : forall s, is_ok (b64_decode s) = wf_b64 s.
Proof.
  unfold b64_decode.
  induction s as [|a|a b|a b c|a b c d r IH] using list_ind4; try reflexivity.
  cbn [chunks4 wf_b64].
  destruct (chunks4 r) as [[|ch l]|] eqn:El.
  - apply chunks4_nil in El as ->. apply dec_last_ok.
  - rewrite dec_chunks_ok_cons, IH. now destruct r.
  - rewrite <- IH. destruct r; [discriminate El | symmetry; apply andb_false_r].
Qed.

Lemma obind_err {A B E} (P : E -> Prop) (x : outcome A E) (f : A -> outcome B E) :
  (forall e, x = Err e -> P e) -> (forall a e, f a = Err e -> P e) ->
  forall e, obind x f = Err e -> P e.
Proof.
  intros Hx Hf e' H. destruct x; try discriminate; [exact (Hf _ _ H) | injection H as <-; now apply Hx].
Qed.

Lemma chr_to_index_err c : forall e, chr_to_index c = Err e -> exists c, e = BBadChar c.
Proof.
  unfold chr_to_index. intros e.
  do 3 (destruct (_ && _); [discriminate|]). do 2 (destruct (_ =? _); [discriminate|]).
  intros [= <-]. now exists c.
Qed.

Lemma dec_chunk_err c0 c1 c2 c3 : forall e, dec_chunk c0 c1 c2 c3 = Err e -> exists c, e = BBadChar c.
Proof. unfold dec_chunk. repeat (apply obind_err; [apply chr_to_index_err | intros ?]). discriminate. Qed.

Lemma dec_last_err c0 c1 c2 c3 : forall e, dec_last c0 c1 c2 c3 = Err e -> exists c, e = BBadChar c.
Proof.
  unfold dec_last. do 2 (apply obind_err; [apply chr_to_index_err | intros ?]).
  destruct (_ && _); [discriminate|].
  destruct (c3 =? pad); repeat (apply obind_err; [apply chr_to_index_err | intros ?]); discriminate.
Qed.

(* once the text is cut into groups, the only error left is a character outside the alphabet *)
Lemma dec_chunks_err l : forall e, dec_chunks l = Err e -> exists c, e = BBadChar c.
Proof.
  induction l as [|[[[c0 c1] c2] c3] [|ch l] IH]; [discriminate | apply dec_last_err |].
  rewrite dec_chunks_cons2. apply obind_err; [apply dec_chunk_err | intros a].
  apply obind_err; [exact IH | discriminate].
Qed.

Theorem decode_bad_length_iff : forall s,
  b64_decode s = Err BBadLength <-> (N.of_nat (length s)) mod 4 <> 0.
Proof.
  intros s. rewrite <- chunks4_none_iff. unfold b64_decode.
  destruct (chunks4 s) as [l|]; [|now split].
  split; [|discriminate]. intros H. now destruct (dec_chunks_err l _ H).
Qed.

Lemma lor_u8_lt a b : b < 256 -> N.lor (u8 a) b < 256.
Proof.
  intros Hb. unfold u8.
  assert (Ha : a mod 256 < 256) by (apply N.mod_lt; discriminate).
  set (x := a mod 256) in *. clearbody x.
  change 256 with (2 ^ 8) in *.
  destruct (N.eq_dec (N.lor x b) 0) as [E|E]; [rewrite E; reflexivity|].
  apply N.log2_lt_pow2; [lia|]. rewrite N.log2_lor. apply N.max_lub_lt.
  - destruct (N.eq_dec x 0) as [->|Hx]; [reflexivity|]. apply N.log2_lt_pow2; lia.
  - destruct (N.eq_dec b 0) as [->|Hx]; [reflexivity|]. apply N.log2_lt_pow2; lia.
Qed.
