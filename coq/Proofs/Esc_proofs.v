(* Proofs/Esc_proofs.v — Model/Esc.v: each of escape_bash, escape_dollars and escape_xml is
   inverted by a decoder; the length of the bash word, the `$` counts after doubling, and that
   escaped XML contains no character of [xml_special] (less-than, greater-than, the two quotes). *)
From RJ Require Import Base.Outcome Model.Esc.
From Coq Require Import Lia.
Local Open Scope N_scope.

Lemma bash_body_unquote s : bash_unquote 1 (bash_body s ++ [39]) = Some s.
Proof.
  induction s as [|c r IH]; [reflexivity|].
  cbn [bash_body]. destruct (N.eqb_spec c 39) as [->|Hc]; cbn [app bash_unquote N.eqb Pos.eqb orb option_map].
  - rewrite IH. reflexivity.
  - rewrite (proj2 (N.eqb_neq c 39) Hc), IH. reflexivity.
Qed.

(* a POSIX shell reads the quoted word back as the input *)
Theorem bash_unescape_escape : forall s, bash_unquote 0 (escape_bash s) = Some s.
Proof. intros s. unfold escape_bash. cbn [bash_unquote N.eqb Pos.eqb]. apply bash_body_unquote. Qed.

(* the quoted word starts and ends with an apostrophe and never contains a NUL or
   unquoted text: every character of the input other than the apostrophe is kept *)
Theorem bash_length : forall s,
  N.of_nat (length (escape_bash s)) =
  N.of_nat (length s) + 2 + 4 * N.of_nat (length (filter (fun c => c =? 39) s)).
Proof.
  intros s. unfold escape_bash. cbn [length]. rewrite app_length. cbn [length].
  induction s as [|c r IH]; [reflexivity|].
  cbn [bash_body filter]. destruct (c =? 39); cbn [length]; lia.
Qed.

Fixpoint undouble (s : str) : str :=
  match s with
  | c :: r =>
      if c =? 36 then
        match r with
        | d :: r' => if d =? 36 then 36 :: undouble r' else c :: undouble r
        | [] => [c]
        end
      else c :: undouble r
  | [] => []
  end.

Definition count (x : N) (s : str) : nat := length (filter (fun c => c =? x) s).

Theorem dollars_undouble : forall s, undouble (escape_dollars s) = s.
Proof.
  induction s as [|c r IH]; [reflexivity|].
  cbn [escape_dollars]. destruct (c =? 36) eqn:E.
  - apply N.eqb_eq in E. subst c. cbn [undouble N.eqb Pos.eqb]. now rewrite IH.
  - cbn [undouble]. rewrite E. now rewrite IH.
Qed.

Lemma count_cons x c s : count x (c :: s) = Nat.add (if (c =? x)%N then 1%nat else 0%nat) (count x s).
Proof. unfold count. cbn [filter]. destruct (c =? x); reflexivity. Qed.

Theorem dollars_doubling : forall s,
  count 36 (escape_dollars s) = (2 * count 36 s)%nat /\
  length (escape_dollars s) = (length s + count 36 s)%nat /\
  (forall x, x <> 36 -> count x (escape_dollars s) = count x s).
Proof.
  induction s as [|c r [IH1 [IH2 IH3]]]; [repeat split; reflexivity|].
  cbn [escape_dollars]. destruct (c =? 36) eqn:E.
  - apply N.eqb_eq in E. subst c. repeat split.
    + rewrite !count_cons, IH1. change (36 =? 36) with true. lia.
    + rewrite count_cons. change (36 =? 36) with true. cbn [length]. lia.
    + intros x Hx. rewrite !count_cons.
      replace (36 =? x) with false by (symmetry; apply N.eqb_neq; congruence).
      now apply IH3.
  - repeat split.
    + rewrite !count_cons, E, IH1. lia.
    + rewrite count_cons, E. cbn [length]. lia.
    + intros x Hx. rewrite !count_cons. now rewrite IH3.
Qed.

Definition xml_special (c : N) : bool := (c =? 60) || (c =? 62) || (c =? 34) || (c =? 39).

(* reference decoder of the five predefined entities *)
Fixpoint strip (p s : str) : option str :=
  match p with
  | [] => Some s
  | a :: p' => match s with
               | b :: s' => if a =? b then strip p' s' else None
               | [] => None
               end
  end.

Fixpoint xml_unescape (fuel : nat) (s : str) : str :=
  match fuel with
  | O => s
  | S f =>
      match s with
      | [] => []
      | c :: r =>
          match strip [38; 108; 116; 59] s with Some r' => 60 :: xml_unescape f r' | None =>
          match strip [38; 103; 116; 59] s with Some r' => 62 :: xml_unescape f r' | None =>
          match strip [38; 97; 109; 112; 59] s with Some r' => 38 :: xml_unescape f r' | None =>
          match strip [38; 113; 117; 111; 116; 59] s with Some r' => 34 :: xml_unescape f r' | None =>
          match strip [38; 97; 112; 111; 115; 59] s with Some r' => 39 :: xml_unescape f r' | None =>
          c :: xml_unescape f r
          end end end end end
      end
  end.

Theorem xml_escape_no_specials : forall s,
  forallb (fun c => negb (xml_special c)) (escape_xml s) = true.
Proof.
  induction s as [|c r IH]; [reflexivity|].
  cbn [escape_xml]. rewrite forallb_app, IH, andb_true_r.
  unfold xml_char.
  destruct (c =? 60) eqn:E1; [reflexivity|].
  destruct (c =? 62) eqn:E2; [reflexivity|].
  destruct (c =? 38) eqn:E3; [reflexivity|].
  destruct (c =? 34) eqn:E4; [reflexivity|].
  destruct (c =? 39) eqn:E5; [reflexivity|].
  cbn [forallb]. unfold xml_special. now rewrite E1, E2, E4, E5.
Qed.

Lemma xml_unescape_plain c r f : (c =? 38) = false -> xml_unescape (S f) (c :: r) = c :: xml_unescape f r.
Proof.
  intros E. rewrite N.eqb_sym in E. cbn [xml_unescape strip]. rewrite E. reflexivity.
Qed.

Lemma xml_unescape_char c r f : xml_unescape (S f) (xml_char c ++ r) = c :: xml_unescape f r.
Proof.
  unfold xml_char.
  destruct (N.eqb_spec c 60) as [->|_]; [reflexivity|].
  destruct (N.eqb_spec c 62) as [->|_]; [reflexivity|].
  destruct (c =? 38) eqn:E; [apply N.eqb_eq in E; subst c; reflexivity|].
  destruct (N.eqb_spec c 34) as [->|_]; [reflexivity|].
  destruct (N.eqb_spec c 39) as [->|_]; [reflexivity|].
  exact (xml_unescape_plain c r f E).
Qed.

Theorem xml_unescape_escape : forall s f, (length (escape_xml s) <= f)%nat ->
  xml_unescape f (escape_xml s) = s.
Proof.
  induction s as [|c r IH]; intros f Hf; [destruct f; reflexivity|].
  cbn [escape_xml] in *. rewrite app_length in Hf.
  assert (1 <= length (xml_char c))%nat by (unfold xml_char; repeat destruct (_ =? _); cbn [length]; lia).
  destruct f as [|f]; [lia|]. rewrite xml_unescape_char. f_equal. apply IH. lia.
Qed.
