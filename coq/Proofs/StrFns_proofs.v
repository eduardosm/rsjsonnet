(* Proofs/StrFns_proofs.v — lemmas about Model/StrFns.v (property C18). *)
From RJ Require Import Base.Outcome Base.F64 Model.StrFns.
From Coq Require Import Lia List Floats.SpecFloat.
Import ListNotations.

Arguments N.add : simpl never.
Arguments N.sub : simpl never.
Arguments N.mul : simpl never.
Arguments N.min : simpl never.
Arguments N.max : simpl never.
Arguments N.of_nat : simpl never.

Lemma is_prefix_app p r : is_prefix p (p ++ r) = true.
Proof. induction p as [|a p IH]; simpl; auto. rewrite N.eqb_refl. exact IH. Qed.

Lemma is_prefix_true p s : is_prefix p s = true -> s = p ++ skipn (length p) s.
Proof.
  revert s; induction p as [|a p IH]; intros [|b s] H; simpl in *; auto; try discriminate.
  apply andb_true_iff in H as [H1 H2]. apply N.eqb_eq in H1. subst. f_equal. auto.
Qed.

Lemma is_prefix_iff p s : is_prefix p s = true <-> exists r, s = p ++ r.
Proof.
  split.
  - intros H. eexists. apply is_prefix_true. exact H.
  - intros [r ->]. apply is_prefix_app.
Qed.

Lemma is_prefix_nil_r p : p <> [] -> is_prefix p [] = false.
Proof. destruct p; [congruence|reflexivity]. Qed.

Lemma skipn_add {A} a b (l : list A) : skipn (a + b) l = skipn b (skipn a l).
Proof.
  revert l; induction a as [|a IH]; intros l; simpl; auto.
  destruct l; simpl; auto. rewrite skipn_nil. reflexivity.
Qed.

(* p occurs in s at character index i *)
Definition occurs_at (p s : str) (i : nat) : bool := is_prefix p (skipn i s).

Lemma occurs_at_app b p a : occurs_at p (b ++ p ++ a) (length b) = true.
Proof. unfold occurs_at. rewrite skipn_app, skipn_all, Nat.sub_diag. simpl. apply is_prefix_app. Qed.

Lemma occurs_at_iff p s i : p <> [] ->
  occurs_at p s i = true <-> exists b a, s = b ++ p ++ a /\ length b = i.
Proof.
  intros Hp. split.
  - intros H. apply is_prefix_iff in H as [r Hr].
    exists (firstn i s), r. split.
    + rewrite <- Hr. symmetry. apply firstn_skipn.
    + apply firstn_length_le.
      destruct (Nat.le_gt_cases i (length s)) as [Hle|Hgt]; auto.
      rewrite skipn_all2 in Hr by lia. destruct p; [congruence|discriminate].
  - intros (b & a & -> & <-). apply occurs_at_app.
Qed.

Lemma rev_app3 {A} (b p a : list A) : rev (b ++ p ++ a) = rev a ++ rev p ++ rev b.
Proof. rewrite !rev_app_distr, app_assoc. reflexivity. Qed.

Lemma rev_neq_nil {A} (p : list A) : p <> [] -> rev p <> [].
Proof. intros Hp E. apply Hp. rewrite <- (rev_involutive p), E. reflexivity. Qed.

Lemma no_match_rev p s : p <> [] ->
  (forall i, occurs_at (rev p) (rev s) i = false) -> forall i, occurs_at p s i = false.
Proof.
  intros Hp H i. destruct (occurs_at p s i) eqn:E; [|reflexivity].
  apply (occurs_at_iff _ _ _ Hp) in E as (b & a & -> & _).
  rewrite rev_app3 in H. rewrite <- (H (length (rev a))). symmetry. apply occurs_at_app.
Qed.

Lemma str_find_none p s : str_find p s = None -> forall i, occurs_at p s i = false.
Proof.
  unfold occurs_at. induction s as [|c r IH]; simpl; intros H i.
  - destruct (is_prefix p []) eqn:E; [discriminate|]. rewrite skipn_nil. exact E.
  - destruct (is_prefix p (c :: r)) eqn:E; [discriminate|].
    destruct (str_find p r) eqn:E2; [discriminate|].
    destruct i as [|j]; simpl; auto.
Qed.

Lemma str_find_none_intro p s : (forall i, occurs_at p s i = false) -> str_find p s = None.
Proof.
  unfold occurs_at. induction s as [|c r IH]; simpl; intros H.
  - specialize (H O). simpl in H. rewrite H. reflexivity.
  - pose proof (H O) as H0. simpl in H0. rewrite H0, IH; [reflexivity|]. intros i. apply (H (S i)).
Qed.

Lemma str_find_some p s i : str_find p s = Some i ->
  occurs_at p s i = true /\ forall j, (j < i)%nat -> occurs_at p s j = false.
Proof.
  unfold occurs_at. revert i. induction s as [|c r IH]; simpl; intros i H.
  - destruct (is_prefix p []) eqn:E; [|discriminate]. inversion H; subst. simpl. split; auto. intros; lia.
  - destruct (is_prefix p (c :: r)) eqn:E.
    + inversion H; subst. simpl. split; auto. intros; lia.
    + destruct (str_find p r) as [k|] eqn:E2; [|discriminate]. inversion H; subst.
      destruct (IH k eq_refl) as [I1 I2]. split; simpl; auto.
      intros [|j] Hj; simpl; auto. apply I2. lia.
Qed.

Lemma split_first_find p s :
  split_first p s = match str_find p s with
                    | Some i => Some (firstn i s, skipn (i + length p) s)
                    | None => None
                    end.
Proof.
  induction s as [|c r IH]; simpl.
  - destruct (is_prefix p []); reflexivity.
  - destruct (is_prefix p (c :: r)); [reflexivity|].
    rewrite IH. destruct (str_find p r); reflexivity.
Qed.

Lemma split_first_none_iff p s : split_first p s = None <-> str_find p s = None.
Proof. rewrite split_first_find. destruct (str_find p s); split; congruence. Qed.

Lemma split_first_none p s : split_first p s = None -> forall i, occurs_at p s i = false.
Proof. intros H. apply str_find_none, split_first_none_iff, H. Qed.

Lemma split_first_sound p s b a : split_first p s = Some (b, a) -> s = b ++ p ++ a.
Proof.
  rewrite split_first_find. destruct (str_find p s) as [i|] eqn:F; [|discriminate].
  intros H. inversion H; subst. apply str_find_some in F as [F _].
  rewrite skipn_add, <- (is_prefix_true p _ F). symmetry. apply firstn_skipn.
Qed.

Lemma split_first_minimal p s b a : split_first p s = Some (b, a) ->
  forall i, (i < length b)%nat -> occurs_at p s i = false.
Proof.
  rewrite split_first_find. destruct (str_find p s) as [i0|] eqn:F; [|discriminate].
  intros H i Hi. inversion H; subst. apply str_find_some in F as [_ F]. apply F.
  pose proof (firstn_le_length i0 s). lia.
Qed.

Lemma split_first_spec p s b a : split_first p s = Some (b, a) ->
  s = b ++ p ++ a /\ forall b' a', s = b' ++ p ++ a' -> (length b <= length b')%nat.
Proof.
  intros H. split; [apply split_first_sound; exact H|].
  intros b' a' ->. apply Nat.le_ngt. intros Hlt.
  pose proof (split_first_minimal _ _ _ _ H _ Hlt) as Hno.
  rewrite occurs_at_app in Hno. discriminate.
Qed.

Lemma split_first_complete p s b' a' : s = b' ++ p ++ a' -> exists b a, split_first p s = Some (b, a).
Proof.
  intros ->. destruct (split_first p (b' ++ p ++ a')) as [[b a]|] eqn:E; eauto.
  pose proof (split_first_none _ _ E (length b')) as H. rewrite occurs_at_app in H. discriminate.
Qed.

Lemma split_first_shorter p s b a : p <> [] -> split_first p s = Some (b, a) ->
  (length a < length s)%nat.
Proof.
  intros Hp H. apply split_first_sound in H. subst s. rewrite !app_length.
  destruct p; [congruence|simpl; lia].
Qed.

Lemma split_first_before_clean p s b a : p <> [] -> split_first p s = Some (b, a) ->
  forall i, occurs_at p b i = false.
Proof.
  intros Hp H i. destruct (occurs_at p b i) eqn:E; auto. exfalso.
  apply occurs_at_iff in E as (x & y & Hb & Hx); auto.
  assert (i < length b)%nat as Hlt.
  { rewrite Hb, !app_length. destruct p; [congruence|simpl; lia]. }
  pose proof (split_first_minimal _ _ _ _ H _ Hlt) as Hno.
  rewrite (split_first_sound _ _ _ _ H), Hb, <- Hx, <- !app_assoc, occurs_at_app in Hno. discriminate.
Qed.

Lemma rsplit_first_sound p s b a : rsplit_first p s = Some (b, a) -> s = b ++ p ++ a.
Proof.
  revert b a; induction s as [|c r IH]; intros b a H; simpl in H.
  - destruct (is_prefix p []) eqn:E; [|discriminate]. inversion H; subst.
    apply is_prefix_true in E. simpl in *. rewrite skipn_nil in E. exact E.
  - destruct (rsplit_first p r) as [[b' a']|] eqn:E2.
    + inversion H; subst. simpl. f_equal. apply IH. reflexivity.
    + destruct (is_prefix p (c :: r)) eqn:E; [|discriminate]. inversion H; subst.
      apply is_prefix_true in E. exact E.
Qed.

Lemma rsplit_first_none p s : rsplit_first p s = None -> forall i, occurs_at p s i = false.
Proof.
  unfold occurs_at. induction s as [|c r IH]; simpl; intros H i.
  - destruct (is_prefix p []) eqn:E; [discriminate|]. rewrite skipn_nil. exact E.
  - destruct (rsplit_first p r) as [[b a]|] eqn:E2; [discriminate|].
    destruct (is_prefix p (c :: r)) eqn:E; [discriminate|].
    destruct i as [|j]; simpl; auto.
Qed.

Lemma rsplit_first_maximal p s b a : p <> [] -> rsplit_first p s = Some (b, a) ->
  forall i, (length b < i)%nat -> occurs_at p s i = false.
Proof.
  intros Hp. unfold occurs_at. revert b a; induction s as [|c r IH]; intros b a H i Hi; simpl in H.
  - rewrite skipn_nil. apply is_prefix_nil_r. exact Hp.
  - destruct (rsplit_first p r) as [[b' a']|] eqn:E2.
    + inversion H; subst. destruct i as [|j]; [lia|]. simpl. eapply IH; eauto. simpl in Hi. lia.
    + destruct (is_prefix p (c :: r)) eqn:E; [|discriminate]. inversion H; subst.
      destruct i as [|j]; [simpl in Hi; lia|]. simpl.
      apply (rsplit_first_none _ _ E2 j).
Qed.

Lemma rsplit_first_spec p s b a : p <> [] -> rsplit_first p s = Some (b, a) ->
  s = b ++ p ++ a /\ forall b' a', s = b' ++ p ++ a' -> (length b' <= length b)%nat.
Proof.
  intros Hp H. split; [apply rsplit_first_sound; exact H|].
  intros b' a' ->. apply Nat.le_ngt. intros Hlt.
  pose proof (rsplit_first_maximal _ _ _ _ Hp H _ Hlt) as Hno.
  rewrite occurs_at_app in Hno. discriminate.
Qed.

Lemma rsplit_first_shorter p s b a : p <> [] -> rsplit_first p s = Some (b, a) ->
  (length b < length s)%nat.
Proof.
  intros Hp H. apply rsplit_first_sound in H. subst s. rewrite !app_length.
  destruct p; [congruence|simpl; lia].
Qed.

Lemma rsplit_first_none_find p s : rsplit_first p s = None -> str_find p s = None.
Proof. intros H. apply str_find_none_intro, rsplit_first_none, H. Qed.

Lemma app_eq_len {A} (a1 a2 b1 b2 : list A) :
  a1 ++ b1 = a2 ++ b2 -> length a1 = length a2 -> a1 = a2 /\ b1 = b2.
Proof.
  revert a2; induction a1 as [|x a1 IH]; intros [|y a2] H L; simpl in *; try discriminate; auto.
  inversion H; subst. destruct (IH a2 H2 ltac:(lia)) as [-> ->]. auto.
Qed.

(* Read backwards, the last match of p in s is the first match of [rev p] in [rev s]: both
   are extremal among the decompositions s = b ++ p ++ a, so their lengths agree.  Everything
   about splitting from the right is obtained through this equation. *)
Lemma rsplit_first_rev p s : p <> [] ->
  rsplit_first p s =
  option_map (fun ba => (rev (snd ba), rev (fst ba))) (split_first (rev p) (rev s)).
Proof.
  intros Hp.
  destruct (rsplit_first p s) as [[b a]|] eqn:R, (split_first (rev p) (rev s)) as [[b' a']|] eqn:F;
    cbn [option_map fst snd]; try reflexivity.
  - destruct (rsplit_first_spec _ _ _ _ Hp R) as [Hs Hmax].
    destruct (split_first_spec _ _ _ _ F) as [Hs' Hmin].
    pose proof (f_equal (@rev N) Hs) as Hrs. rewrite rev_app3 in Hrs.
    pose proof (f_equal (@rev N) Hs') as Hs2. rewrite rev_app3, !rev_involutive in Hs2.
    specialize (Hmin _ _ Hrs). specialize (Hmax _ _ Hs2).
    assert (length b' = length (rev a)) as Hlen.
    { pose proof (f_equal (@length _) Hs') as L1. pose proof (f_equal (@length _) Hrs) as L2.
      rewrite !app_length in L1, L2. rewrite !rev_length in *. lia. }
    rewrite Hs' in Hrs. destruct (app_eq_len _ _ _ _ Hrs Hlen) as [-> Hrest].
    apply app_inv_head in Hrest. subst a'. rewrite !rev_involutive. reflexivity.
  - exfalso. apply rsplit_first_sound in R. apply (f_equal (@rev N)) in R. rewrite rev_app3 in R.
    destruct (split_first_complete _ _ _ _ R) as (b' & a' & E). congruence.
  - exfalso. apply split_first_sound in F. apply (f_equal (@rev N)) in F.
    rewrite rev_app3, !rev_involutive in F.
    pose proof (rsplit_first_none _ _ R (length (rev a'))) as Hno.
    rewrite F, occurs_at_app in Hno. discriminate.
Qed.

Lemma rsplit_first_after_clean p s b a : p <> [] -> rsplit_first p s = Some (b, a) ->
  forall i, occurs_at p a i = false.
Proof.
  intros Hp H. rewrite (rsplit_first_rev p s Hp) in H.
  destruct (split_first (rev p) (rev s)) as [[b' a']|] eqn:F; [|discriminate H].
  inversion H; subst. apply (no_match_rev p _ Hp). rewrite rev_involutive.
  exact (split_first_before_clean _ _ _ _ (rev_neq_nil p Hp) F).
Qed.

Lemma join_cons sep a r : r <> [] -> join sep (a :: r) = a ++ sep ++ join sep r.
Proof. destruct r; [congruence|reflexivity]. Qed.

Lemma join_single sep a : join sep [a] = a.
Proof. reflexivity. Qed.

Lemma join_app sep l1 l2 : l1 <> [] -> l2 <> [] ->
  join sep (l1 ++ l2) = join sep l1 ++ sep ++ join sep l2.
Proof.
  intros H1 H2. induction l1 as [|x l1 IH]; [congruence|].
  destruct l1 as [|y l1].
  - simpl app. rewrite join_cons by exact H2. reflexivity.
  - change ((x :: y :: l1) ++ l2) with (x :: (y :: l1) ++ l2).
    rewrite join_cons by discriminate. rewrite IH by discriminate.
    rewrite (join_cons sep x (y :: l1)) by discriminate. rewrite <- !app_assoc. reflexivity.
Qed.

Lemma join_firstn_rest sep ps k : (k < length ps)%nat ->
  join sep (firstn k ps ++ [join sep (skipn k ps)]) = join sep ps.
Proof.
  intros Hk. destruct k as [|k]; [reflexivity|].
  assert (firstn (S k) ps <> []) as H1 by (destruct ps; simpl in *; [lia|discriminate]).
  assert (skipn (S k) ps <> []) as H2.
  { intros E. pose proof (skipn_length (S k) ps) as L. rewrite E in L. simpl in L. lia. }
  rewrite join_app by (auto; discriminate). simpl (join sep [_]).
  rewrite <- join_app by auto. rewrite firstn_skipn. reflexivity.
Qed.

Lemma rev_join sep l : rev (join sep l) = join (rev sep) (rev (map (@rev N) l)).
Proof.
  induction l as [|a l IH]; [reflexivity|].
  destruct l as [|b l]; [reflexivity|].
  rewrite join_cons by discriminate. rewrite rev_app3.
  cbn [map rev] in *.
  rewrite join_app by (try discriminate; intros E; apply app_eq_nil in E as [_ E]; discriminate).
  rewrite <- IH. reflexivity.
Qed.

Lemma map_rev_rev l : map (@rev N) (map (@rev N) l) = l.
Proof. rewrite map_map. rewrite <- (map_id l) at 2. apply map_ext. intros x. apply rev_involutive. Qed.

(* str::split as a derivation, independent of fuel *)

Inductive Split (p : str) : str -> list str -> Prop :=
| Split_last s : split_first p s = None -> Split p s [s]
| Split_cons s b a l : split_first p s = Some (b, a) -> Split p a l -> Split p s (b :: l).

Lemma split_fuel_Split p fuel s l : split_fuel fuel p s = Ok l -> Split p s l.
Proof.
  revert s l; induction fuel as [|f IH]; intros s l H; simpl in H; [discriminate|].
  destruct (split_first p s) as [[b a]|] eqn:E.
  - destruct (split_fuel f p a) as [rest| | |] eqn:R; simpl in H; try discriminate.
    inversion H; subst. eapply Split_cons; eauto.
  - inversion H; subst. apply Split_last. exact E.
Qed.

Lemma Split_split_fuel p : p <> [] -> forall s l, Split p s l ->
  forall fuel, (length s < fuel)%nat -> split_fuel fuel p s = Ok l.
Proof.
  intros Hp s l HS. induction HS as [s E|s b a l E HS IH]; intros fuel Hf;
    (destruct fuel as [|f]; [lia|]); simpl; rewrite E; auto.
  rewrite IH; auto. pose proof (split_first_shorter _ _ _ _ Hp E). lia.
Qed.

Lemma Split_exists p : p <> [] -> forall s, exists l, Split p s l.
Proof.
  intros Hp s. remember (length s) as n eqn:Hn. revert s Hn.
  induction n as [n IH] using lt_wf_ind. intros s Hn.
  destruct (split_first p s) as [[b a]|] eqn:E.
  - pose proof (split_first_shorter _ _ _ _ Hp E) as Hlt.
    destruct (IH (length a) ltac:(lia) a eq_refl) as [l Hl].
    exists (b :: l). eapply Split_cons; eauto.
  - exists [s]. apply Split_last. exact E.
Qed.

Lemma Split_det p s l1 l2 : Split p s l1 -> Split p s l2 -> l1 = l2.
Proof.
  intros H1. revert l2. induction H1 as [s E|s b a l E H1 IH]; intros l2 H2; inversion H2; subst; try congruence.
  rewrite E in H. inversion H; subst. f_equal. auto.
Qed.

Lemma Split_nonempty p s l : Split p s l -> l <> [].
Proof. intros H; inversion H; congruence. Qed.

Lemma Split_join p s l : Split p s l -> join p l = s.
Proof.
  induction 1 as [s E|s b a l E HS IH]; [reflexivity|].
  rewrite join_cons by (eapply Split_nonempty; eauto).
  rewrite IH. symmetry. apply split_first_sound. exact E.
Qed.

Lemma Split_clean p s l : p <> [] -> Split p s l ->
  Forall (fun piece => forall i, occurs_at p piece i = false) l.
Proof.
  intros Hp. induction 1 as [s E|s b a l E HS IH].
  - constructor; [|constructor]. apply split_first_none. exact E.
  - constructor; auto. eapply split_first_before_clean; eauto.
Qed.

Lemma split_total s p : p <> [] -> exists l, StrFns.split s p = Ok l /\ Split p s l.
Proof.
  intros Hp. destruct (Split_exists p Hp s) as [l Hl]. exists l. split; auto.
  unfold StrFns.split. apply Split_split_fuel; auto.
Qed.

Lemma join_split s p l : p <> [] -> StrFns.split s p = Ok l -> join p l = s.
Proof. intros _ H. apply Split_join. eapply split_fuel_Split. exact H. Qed.

Lemma split_no_sep_inside s p l : p <> [] -> StrFns.split s p = Ok l ->
  Forall (fun piece => forall i, occurs_at p piece i = false) l.
Proof. intros Hp H. apply (Split_clean p s l Hp). eapply split_fuel_Split. exact H. Qed.

Lemma splitn_Split p : p <> [] -> forall s ps, Split p s ps ->
  forall k fuel, (length s < fuel)%nat ->
  splitn_fuel fuel (N.of_nat (S k)) p s =
    Ok (if (length ps <=? S k)%nat then ps else firstn k ps ++ [join p (skipn k ps)]).
Proof.
  intros Hp s ps HS. induction HS as [s E|s b a l E HS IH]; intros k fuel Hf;
    (destruct fuel as [|f]; [lia|]); cbn [splitn_fuel];
    replace (N.of_nat (S k) =? 0)%N with false by (symmetry; apply N.eqb_neq; lia).
  - destruct (N.of_nat (S k) =? 1)%N; [reflexivity|]. rewrite E. reflexivity.
  - pose proof (Split_nonempty _ _ _ HS) as Hne.
    assert (length l <> 0)%nat as Hl by (destruct l; [congruence|simpl; lia]).
    destruct k as [|k'].
    + replace (N.of_nat 1 =? 1)%N with true by reflexivity.
      replace (length (b :: l) <=? 1)%nat with false by (symmetry; apply Nat.leb_gt; simpl; lia).
      simpl. f_equal. f_equal. symmetry. apply (Split_join p s (b :: l)). eapply Split_cons; eauto.
    + replace (N.of_nat (S (S k')) =? 1)%N with false by (symmetry; apply N.eqb_neq; lia).
      rewrite E. replace (N.of_nat (S (S k')) - 1)%N with (N.of_nat (S k')) by lia.
      rewrite IH by (pose proof (split_first_shorter _ _ _ _ Hp E); lia).
      simpl obind. f_equal.
      change (length (b :: l) <=? S (S k'))%nat with (length l <=? S k')%nat.
      destruct (length l <=? S k')%nat; reflexivity.
Qed.

Inductive RSplit (p : str) : str -> list str -> Prop :=      (* pieces listed right to left *)
| RSplit_last s : rsplit_first p s = None -> RSplit p s [s]
| RSplit_cons s b a l : rsplit_first p s = Some (b, a) -> RSplit p b l -> RSplit p s (a :: l).

Lemma RSplit_exists p : p <> [] -> forall s, exists l, RSplit p s l.
Proof.
  intros Hp s. remember (length s) as n eqn:Hn. revert s Hn.
  induction n as [n IH] using lt_wf_ind. intros s Hn.
  destruct (rsplit_first p s) as [[b a]|] eqn:E.
  - pose proof (rsplit_first_shorter _ _ _ _ Hp E) as Hlt.
    destruct (IH (length b) ltac:(lia) b eq_refl) as [l Hl].
    exists (a :: l). eapply RSplit_cons; eauto.
  - exists [s]. apply RSplit_last. exact E.
Qed.

Lemma RSplit_det p s l1 l2 : RSplit p s l1 -> RSplit p s l2 -> l1 = l2.
Proof.
  intros H1. revert l2. induction H1 as [s E|s b a l E H1 IH]; intros l2 H2; inversion H2; subst; try congruence.
  rewrite E in H. inversion H; subst. f_equal. auto.
Qed.

Lemma RSplit_nonempty p s l : RSplit p s l -> l <> [].
Proof. intros H; inversion H; congruence. Qed.

Lemma RSplit_mirror p s l : p <> [] -> RSplit p s l -> Split (rev p) (rev s) (map (@rev N) l).
Proof.
  intros Hp. induction 1 as [s E|s b a l E HS IH]; simpl;
    rewrite (rsplit_first_rev p s Hp) in E;
    destruct (split_first (rev p) (rev s)) as [[b' a']|] eqn:F; try discriminate E.
  - apply Split_last. exact F.
  - inversion E; subst. rewrite rev_involutive in *. eapply Split_cons; [exact F|exact IH].
Qed.

Lemma RSplit_join p s l : p <> [] -> RSplit p s l -> join p (rev l) = s.
Proof.
  intros Hp H. apply (RSplit_mirror p s l Hp), Split_join, (f_equal (@rev N)) in H.
  rewrite rev_join, map_rev_rev, !rev_involutive in H. exact H.
Qed.

Lemma RSplit_clean p s l : p <> [] -> RSplit p s l ->
  Forall (fun piece => forall i, occurs_at p piece i = false) l.
Proof.
  intros Hp H. apply (RSplit_mirror p s l Hp), (Split_clean _ _ _ (rev_neq_nil p Hp)) in H.
  rewrite Forall_map in H. eapply Forall_impl; [|exact H]. intros piece. apply no_match_rev, Hp.
Qed.

Lemma rsplit_exists_clean s sep : sep <> [] ->
  exists rs, RSplit sep s rs /\ join sep (rev rs) = s /\
             Forall (fun piece => forall i, occurs_at sep piece i = false) rs.
Proof.
  intros Hp. destruct (RSplit_exists sep Hp s) as [rs H]. exists rs.
  split; [exact H|]. split; [apply RSplit_join|apply (RSplit_clean sep s)]; assumption.
Qed.

Lemma rsplitn_fuel_rev p : p <> [] -> forall fuel n s,
  rsplitn_fuel fuel n p s = omap (map (@rev N)) (splitn_fuel fuel n (rev p) (rev s)).
Proof.
  intros Hp. induction fuel as [|f IH]; intros n s; [reflexivity|].
  cbn [splitn_fuel rsplitn_fuel]. rewrite (rsplit_first_rev p s Hp).
  destruct (n =? 0)%N; [reflexivity|].
  destruct (n =? 1)%N; [cbn; rewrite rev_involutive; reflexivity|].
  destruct (split_first (rev p) (rev s)) as [[b' a']|]; cbn [option_map fst snd].
  - rewrite IH, rev_involutive. destruct (splitn_fuel f (n - 1) (rev p) a'); reflexivity.
  - cbn. rewrite rev_involutive. reflexivity.
Qed.

(* all pieces from the right, listed left to right *)
Definition rsplit_all_spec (p s : str) (qs : list str) : Prop := RSplit p s (rev qs).

Lemma splitLimit_first_n s p ps k : p <> [] -> StrFns.split s p = Ok ps ->
  split_limit_cps s p (Some (N.of_nat (S k))) =
    Ok (if (length ps <=? S k)%nat then ps else firstn k ps ++ [join p (skipn k ps)]).
Proof.
  intros Hp H. apply split_fuel_Split in H. unfold split_limit_cps, splitn.
  apply splitn_Split; auto.
Qed.

Lemma N_as_succ n : (1 <= n)%N -> n = N.of_nat (S (N.to_nat (n - 1))).
Proof. lia. Qed.

Lemma splitLimit_join s p n l : p <> [] -> (1 <= n)%N ->
  split_limit_cps s p (Some n) = Ok l -> join p l = s.
Proof.
  intros Hp Hn H. destruct (split_total s p Hp) as (ps & Hps & HS).
  rewrite (N_as_succ n Hn) in H. rewrite (splitLimit_first_n s p ps _ Hp Hps) in H.
  inversion H; subst. clear H.
  destruct (length ps <=? S (N.to_nat (n - 1)))%nat eqn:E.
  - apply Split_join. exact HS.
  - apply Nat.leb_gt in E. rewrite join_firstn_rest by lia. apply Split_join. exact HS.
Qed.

(* std.splitLimitR is upstream's definition, for every limit: reverse string and separator,
   splitLimit, reverse the pieces and their order back *)
Lemma split_limit_r_rev s p n : p <> [] ->
  split_limit_r_cps s p (Some n) =
  omap (fun l => rev (map (@rev N) l)) (split_limit_cps (rev s) (rev p) (Some n)).
Proof.
  intros Hp. unfold split_limit_r_cps, split_limit_cps, rsplitn, splitn.
  rewrite (rsplitn_fuel_rev p Hp), rev_length.
  destruct (splitn_fuel (S (length s)) n (rev p) (rev s)); reflexivity.
Qed.

Lemma splitLimitR_mirror s p k l' : p <> [] ->
  split_limit_cps (rev s) (rev p) (Some (N.of_nat (S k))) = Ok l' ->
  split_limit_r_cps s p (Some (N.of_nat (S k))) = Ok (rev (map (@rev N) l')).
Proof. intros Hp H. rewrite (split_limit_r_rev s p _ Hp), H. reflexivity. Qed.

Lemma splitLimitR_last_n s p rs k : p <> [] -> RSplit p s rs ->
  split_limit_r_cps s p (Some (N.of_nat (S k))) =
    Ok (rev (if (length rs <=? S k)%nat then rs else firstn k rs ++ [join p (rev (skipn k rs))])).
Proof.
  intros Hp HR. pose proof (rev_neq_nil p Hp) as Hrp.
  assert (StrFns.split (rev s) (rev p) = Ok (map (@rev N) rs)) as Hsp.
  { unfold StrFns.split. apply Split_split_fuel; [exact Hrp|apply RSplit_mirror; assumption|lia]. }
  rewrite (split_limit_r_rev s p _ Hp), (splitLimit_first_n _ _ _ k Hrp Hsp), map_length.
  cbn [omap obind]. do 2 f_equal. unfold str in *. destruct (length rs <=? S k)%nat.
  - apply map_rev_rev.
  - rewrite map_app, firstn_map, map_rev_rev, skipn_map. cbn [map]. do 2 f_equal.
    rewrite rev_join, map_rev_rev, rev_involutive. reflexivity.
Qed.

Lemma splitLimitR_join s p n l : p <> [] -> (1 <= n)%N ->
  split_limit_r_cps s p (Some n) = Ok l -> join p l = s.
Proof.
  intros Hp Hn H. rewrite (split_limit_r_rev s p n Hp) in H.
  destruct (split_limit_cps (rev s) (rev p) (Some n)) as [l'| | |] eqn:E; try discriminate H.
  inversion H; subst. apply (splitLimit_join _ _ _ _ (rev_neq_nil p Hp) Hn), (f_equal (@rev N)) in E.
  rewrite rev_join, !rev_involutive in E. exact E.
Qed.

Lemma replace_Split from to : from <> [] -> forall s l, Split from s l ->
  forall fuel, (length s < fuel)%nat -> replace_fuel fuel from to s = Ok (join to l).
Proof.
  intros Hp s l HS. induction HS as [s E|s b a l E HS IH]; intros fuel Hf;
    (destruct fuel as [|f]; [lia|]); cbn [replace_fuel]; rewrite E; auto.
  rewrite IH by (pose proof (split_first_shorter _ _ _ _ Hp E); lia). cbn [obind].
  rewrite join_cons by (eapply Split_nonempty; eauto). reflexivity.
Qed.

Lemma strReplace_is_join_split s from to l : from <> [] -> StrFns.split s from = Ok l ->
  str_replace s from to = Ok (join to l).
Proof.
  intros Hp H. apply split_fuel_Split in H. unfold str_replace.
  destruct from as [|c from']; [congruence|]. apply replace_Split; auto.
Qed.

Lemma filter_none {A} (f : A -> bool) l : (forall x, In x l -> f x = false) -> filter f l = [].
Proof.
  induction l as [|x l IH]; simpl; intros H; auto.
  rewrite (H x) by auto. apply IH. intros y Hy. apply H. auto.
Qed.

Lemma occurs_at_skipn p s k j : occurs_at p (skipn k s) j = occurs_at p s (k + j).
Proof. unfold occurs_at. rewrite skipn_add. reflexivity. Qed.

Lemma byte_skip_0 s : byte_skip 0 s = Some s.
Proof. destruct s; reflexivity. Qed.

Lemma cp_utf8_len_pos c : (1 <= cp_utf8_len c)%N.
Proof. unfold cp_utf8_len. destruct (c <? 128)%N, (c <? 2048)%N, (c <? 65536)%N; lia. Qed.

Lemma byte_skip_first c r : byte_skip (cp_utf8_len c) (c :: r) = Some r.
Proof.
  simpl. pose proof (cp_utf8_len_pos c) as H.
  replace (cp_utf8_len c =? 0)%N with false by (symmetry; apply N.eqb_neq; lia).
  rewrite N.leb_refl, N.sub_diag. apply byte_skip_0.
Qed.

(* the loop that has consumed the first k characters of s returns the matches from k on *)
Lemma find_loop_spec c0 pt s : forall fuel k, (length s - k < fuel)%nat ->
  find_substr_loop fuel (c0 :: pt) c0 (skipn k s) (N.of_nat k) =
    Ok (map N.of_nat (filter (occurs_at (c0 :: pt) s) (seq k (length s - k)))).
Proof.
  set (pat := c0 :: pt).
  induction fuel as [|f IH]; intros k Hf; [lia|].
  simpl find_substr_loop. destruct (str_find pat (skipn k s)) as [i|] eqn:F.
  - destruct (str_find_some _ _ _ F) as [Hyes Hno].
    assert (exists rest, skipn i (skipn k s) = c0 :: rest) as [rest SK].
    { unfold occurs_at in Hyes. destruct (skipn i (skipn k s)) as [|d rest]; [discriminate|].
      simpl in Hyes. apply andb_true_iff in Hyes as [H1 _]. apply N.eqb_eq in H1. subst d. eauto. }
    assert (i < length s - k)%nat as Hi.
    { rewrite <- (skipn_length k s). apply Nat.lt_nge. intros Hge. rewrite skipn_all2 in SK by exact Hge. discriminate. }
    rewrite SK, byte_skip_first.
    assert (rest = skipn (k + S i) s) as ->.
    { rewrite skipn_add. replace (S i) with (i + 1)%nat by lia. rewrite skipn_add, SK. reflexivity. }
    replace (N.of_nat k + N.of_nat i + 1)%N with (N.of_nat (k + S i)) by lia.
    rewrite IH by lia. cbn [obind].
    (* the positions from k on: i without a match, the match at k + i, the rest *)
    replace (length s - k)%nat with (i + S (length s - (k + S i)))%nat by lia.
    rewrite seq_app, filter_app, (filter_none _ (seq k i)).
    2:{ intros j Hj. apply in_seq in Hj. replace j with (k + (j - k))%nat by lia.
        rewrite <- occurs_at_skipn. apply Hno. lia. }
    cbn [seq filter app]. rewrite <- occurs_at_skipn, Hyes. cbn [map].
    rewrite Nat2N.inj_add, Nat.add_succ_r. reflexivity.
  - rewrite filter_none; [reflexivity|].
    intros j Hj. apply in_seq in Hj. replace j with (k + (j - k))%nat by lia.
    rewrite <- occurs_at_skipn. apply str_find_none. exact F.
Qed.

Lemma findSubstr_spec pat s : pat <> [] ->
  find_substr_cps pat s = Ok (map N.of_nat (filter (occurs_at pat s) (seq 0 (length s)))).
Proof.
  intros Hp. destruct pat as [|c0 pt]; [congruence|]. unfold find_substr_cps.
  rewrite <- (Nat.sub_0_r (length s)) at 2. apply (find_loop_spec c0 pt s _ 0). lia.
Qed.

Lemma findSubstr_in pat s l : pat <> [] -> find_substr_cps pat s = Ok l ->
  forall k, In (N.of_nat k) l <-> ((k < length s)%nat /\ occurs_at pat s k = true).
Proof.
  intros Hp H k. rewrite (findSubstr_spec pat s Hp) in H. inversion H; subst. clear H.
  rewrite in_map_iff. split.
  - intros (x & Hx & Hin). apply Nat2N.inj in Hx. subst x. apply filter_In in Hin as [H1 H2].
    apply in_seq in H1. split; [lia|exact H2].
  - intros [H1 H2]. exists k. split; auto. apply filter_In. split; auto. apply in_seq. lia.
Qed.

Definition listed (cs : str) (c : N) : Prop := memN c cs = true.

Lemma lstrip_spec cs s : exists a, s = a ++ lstrip cs s /\ Forall (listed cs) a /\ (lstrip cs s = [] \/ exists c t, lstrip cs s = c :: t /\ memN c cs = false).
Proof.
  induction s as [|c r IH]; simpl.
  - exists []. auto.
  - destruct (memN c cs) eqn:E.
    + destruct IH as (a & Ha & Hl & Hh). exists (c :: a). split; [simpl; f_equal; exact Ha|].
      split; [constructor; auto|exact Hh].
    + exists []. split; auto. split; auto. right. eauto.
Qed.

Lemma rstrip_spec cs s : exists b, s = rstrip cs s ++ b /\ Forall (listed cs) b /\ (rstrip cs s = [] \/ exists t c, rstrip cs s = t ++ [c] /\ memN c cs = false).
Proof.
  induction s as [|c r IH]; simpl.
  - exists []. auto.
  - destruct IH as (b & Hb & Hl & Hh). destruct (rstrip cs r) as [|x r'] eqn:R.
    + destruct (memN c cs) eqn:E.
      * exists (c :: b). simpl in Hb. subst r. split; [reflexivity|]. split; [constructor; auto|left; reflexivity].
      * exists b. simpl in Hb. subst r. split; [reflexivity|]. split; [exact Hl|]. right. exists [], c. split; [reflexivity|exact E].
    + exists b. split; [simpl; f_equal; exact Hb|]. split; auto. right.
      destruct Hh as [Hh|(t & c' & Ht & Hc')]; [discriminate|].
      exists (c :: t), c'. split; auto. simpl. f_equal. exact Ht.
Qed.

Lemma lstrip_stops cs a x t : memN x cs = false -> exists u, lstrip cs (a ++ x :: t) = u ++ x :: t.
Proof.
  intros Hx. induction a as [|c a IH]; simpl.
  - rewrite Hx. exists []. reflexivity.
  - destruct (memN c cs); [exact IH|]. exists (c :: a). reflexivity.
Qed.

Lemma rstrip_stops cs t y b : memN y cs = false -> exists v, rstrip cs (t ++ y :: b) = t ++ y :: v.
Proof.
  intros Hy. induction t as [|c t [v IH]]; simpl.
  - destruct (rstrip cs b) as [|d r]; [rewrite Hy; exists []|exists (d :: r)]; reflexivity.
  - rewrite IH. exists v. destruct t; reflexivity.
Qed.

Lemma strip_decomposes cs s : exists a b, s = a ++ strip cs s ++ b /\
  Forall (listed cs) a /\ Forall (listed cs) b /\
  (strip cs s = [] \/
   (exists c t, strip cs s = c :: t /\ memN c cs = false) /\
   (exists t c, strip cs s = t ++ [c] /\ memN c cs = false)).
Proof.
  unfold strip. destruct (lstrip_spec cs s) as (a & Ha & Hla & Hha).
  destruct (rstrip_spec cs (lstrip cs s)) as (b & Hb & Hlb & Hhb).
  exists a, b. split; [rewrite <- Hb; exact Ha|]. split; auto. split; auto.
  destruct Hhb as [E|(t & c & Ht & Hc)]; [left; exact E|]. right. split; [|eauto].
  destruct Hha as [E|(c0 & t0 & Ht0 & Hc0)].
  - rewrite E in Ht. simpl in Ht. destruct t; discriminate.
  - rewrite Ht0. destruct (rstrip_stops cs [] c0 t0 Hc0) as [v Hv]. cbn [app] in Hv. rewrite Hv. eauto.
Qed.

(* any infix of s delimited by unlisted characters lies inside the stripped result:
   the result is the longest such infix *)
Lemma strip_maximal cs s a' r' b' x m m' y :
  s = a' ++ r' ++ b' -> r' = x :: m -> r' = m' ++ [y] ->
  memN x cs = false -> memN y cs = false ->
  exists u v, strip cs s = u ++ r' ++ v.
Proof.
  intros -> Hx Hy Ux Uy. unfold strip.
  destruct (lstrip_stops cs a' x (m ++ b') Ux) as [u Hu].
  destruct (rstrip_stops cs (u ++ m') y b' Uy) as [v Hv].
  assert (E : forall w, (u ++ m') ++ y :: w = u ++ r' ++ w) by (intros w; rewrite Hy, <- !app_assoc; reflexivity).
  rewrite !E in Hv. exists u, v. rewrite <- Hv. f_equal. rewrite Hx. exact Hu.
Qed.

Lemma length_counts_cps s : std_length (VStr s) = Ok (VNum (f_of_N (N.of_nat (length s)))).
Proof. reflexivity. Qed.

Lemma utf8_len_app a b : utf8_len (a ++ b) = (utf8_len a + utf8_len b)%N.
Proof. induction a as [|c a IH]; simpl; [reflexivity|]. rewrite IH. lia. Qed.

Lemma utf8_len_ge_length s : (N.of_nat (length s) <= utf8_len s)%N.
Proof.
  induction s as [|c r IH]; simpl; [lia|]. pose proof (cp_utf8_len_pos c). lia.
Qed.

Lemma utf8_len_eq_length_iff_ascii s :
  utf8_len s = N.of_nat (length s) <-> Forall (fun c => (c < 128)%N) s.
Proof.
  induction s as [|c r IH]; simpl.
  - split; auto.
  - pose proof (utf8_len_ge_length r) as Hr. pose proof (cp_utf8_len_pos c) as Hc. split.
    + intros H. assert (cp_utf8_len c = 1%N) as H1 by lia.
      constructor; [|apply IH; lia].
      unfold cp_utf8_len in H1. destruct (c <? 128)%N eqn:E; [apply N.ltb_lt; exact E|].
      destruct (c <? 2048)%N, (c <? 65536)%N; discriminate.
    + intros H. inversion H as [|? ? Hc1 Hr1]; subst. apply IH in Hr1.
      unfold cp_utf8_len. apply N.ltb_lt in Hc1. rewrite Hc1. lia.
Qed.

Lemma reverse_involutive s l : std_reverse (VStr s) = Ok (VArr l) ->
  std_reverse (VArr l) = Ok (VArr (string_chars s)).
Proof.
  simpl. intros H. inversion H; subst. unfold string_chars.
  rewrite <- map_rev, rev_involutive. reflexivity.
Qed.

Lemma join_str_items_strs sep l first acc :
  join_str_items sep (map VStr l) first acc =
    Ok (match l with
        | [] => acc
        | _ => if first then acc ++ join sep l else acc ++ sep ++ join sep l
        end).
Proof.
  revert first acc. induction l as [|a l IH]; intros first acc; [reflexivity|].
  cbn [map join_str_items]. rewrite IH. destruct l as [|b l].
  - simpl. destruct first; reflexivity.
  - rewrite (join_cons sep a (b :: l)) by discriminate.
    destruct first; rewrite <- ?app_assoc; reflexivity.
Qed.

Lemma std_join_strs sep l : std_join (VStr sep) (strs l) = Ok (VStr (join sep l)).
Proof.
  unfold std_join, strs. simpl want_arr. cbn [obind]. rewrite join_str_items_strs.
  destruct l; reflexivity.
Qed.

(* std.join("", std.stringChars(s)) == s *)
Lemma stringChars_join s : std_join (VStr []) (VArr (string_chars s)) = Ok (VStr s).
Proof.
  unfold string_chars, char_val.
  replace (map (fun c => VStr [c]) s) with (map VStr (map (fun c => [c]) s)) by (rewrite map_map; reflexivity).
  change (VArr (map VStr (map (fun c => [c]) s))) with (strs (map (fun c => [c]) s)).
  rewrite std_join_strs. f_equal. f_equal.
  induction s as [|c r IH]; [reflexivity|]. cbn [map].
  destruct r as [|d r]; [reflexivity|].
  rewrite join_cons by discriminate. rewrite IH. reflexivity.
Qed.

Lemma map_res_length {A B} (f : A -> res B) l r : map_res f l = Ok r -> length r = length l.
Proof.
  revert r. induction l as [|x l IH]; intros r H; simpl in H.
  - inversion H. reflexivity.
  - destruct (f x); simpl in H; try discriminate.
    destruct (map_res f l); simpl in H; try discriminate. inversion H; subst. simpl. f_equal. auto.
Qed.

Lemma map_res_nth {A B} (f : A -> res B) l r : map_res f l = Ok r ->
  forall i x, nth_error l i = Some x -> exists y, nth_error r i = Some y /\ f x = Ok y.
Proof.
  revert r. induction l as [|a l IH]; intros r H i x Hx; simpl in H.
  - destruct i; discriminate.
  - destruct (f a) as [y0| | |] eqn:Fa; simpl in H; try discriminate.
    destruct (map_res f l) as [ys| | |] eqn:M; simpl in H; try discriminate. inversion H; subst.
    destruct i as [|i]; simpl in *.
    + inversion Hx; subst. eauto.
    + eapply IH; eauto.
Qed.

(* std.map over a string makes one call per code point *)
Lemma map_str_length f s l : map_str f s = Ok l ->
  length l = length s /\
  forall i c, nth_error s i = Some c -> exists v, nth_error l i = Some v /\ f [c] = Ok v.
Proof.
  unfold map_str. intros H. split; [eapply map_res_length; eauto|].
  intros i c Hc. eapply (map_res_nth (fun c => f [c])); eauto.
Qed.

Lemma flat_map_id_acc s acc : flat_map_str (fun c => Ok (VStr c)) s acc = Ok (acc ++ s).
Proof.
  revert acc. induction s as [|c r IH]; intros acc; simpl.
  - rewrite app_nil_r. reflexivity.
  - rewrite IH, <- app_assoc. reflexivity.
Qed.

Lemma flatMap_id s : std_flat_map (VFun 0) (VStr s) = Ok (VStr s).
Proof.
  unfold std_flat_map. simpl want_fun. cbn [obind].
  change (apply_fun 0) with (fun c : str => @Ok value err (VStr c)).
  rewrite flat_map_id_acc. reflexivity.
Qed.

Lemma step_by_aux_1 {A} (l : list A) : step_by_aux 1 0 l = l.
Proof. induction l as [|x l IH]; simpl; [reflexivity|]. f_equal. exact IH. Qed.

Lemma step_by_1 {A} (l : list A) : step_by 1 l = l.
Proof. apply step_by_aux_1. Qed.

Lemma skipN_spec {A} n (l : list A) : skipN n l = skipn (N.to_nat n) l.
Proof.
  unfold skipN, lenN. destruct (N.of_nat (length l) <=? n)%N eqn:E; [|reflexivity].
  apply N.leb_le in E. rewrite skipn_all2 by lia. reflexivity.
Qed.

Lemma takeN_spec {A} n (l : list A) : takeN n l = firstn (N.to_nat n) l.
Proof.
  unfold takeN, lenN. destruct (N.of_nat (length l) <=? n)%N eqn:E; [|reflexivity].
  apply N.leb_le in E. rewrite firstn_all2 by lia. reflexivity.
Qed.

Lemma nthN_spec {A} (l : list A) i : nthN l i = nth_error l (N.to_nat i).
Proof.
  unfold nthN, lenN. destruct (N.of_nat (length l) <=? i)%N eqn:E; [|reflexivity].
  apply N.leb_le in E. symmetry. apply nth_error_None. lia.
Qed.

(* on a range the right way round and a positive step, slicing neither underflows nor divides by 0 *)
Lemma slice_list_ok {A} (l : list A) st en sp : (st <= en)%N -> (1 <= sp)%N ->
  slice_list l st en sp = Ok (step_by sp (takeN (en - st) (skipN st l))).
Proof.
  intros H1 H2. unfold slice_list.
  replace (en <? st)%N with false by (symmetry; apply N.ltb_ge; exact H1).
  replace (sp =? 0)%N with false by (symmetry; apply N.eqb_neq; lia).
  reflexivity.
Qed.

(* substr(s, from, len) and the slice s[from : from+len] agree (code-point level) *)
Lemma substr_slice_cps s from len :
  slice_list s from (from + len) 1 = Ok (substr_cps s from len).
Proof.
  rewrite slice_list_ok by lia. rewrite step_by_1. unfold substr_cps.
  replace (from + len - from)%N with len by lia. reflexivity.
Qed.

(* for every double the code accepts as the index i, the answer is the i-th code point
   (one-character string) or "out of range" exactly when i >= length *)
Lemma index_is_nth s x i : try_to_usize_exact x = Some i ->
  index_value (VStr s) (VNum x) =
    match nth_error s (N.to_nat i) with
    | Some c => Ok (VStr [c])
    | None => Err ENumericIndexOutOfRange
    end.
Proof.
  intros H. unfold index_value. rewrite H, nthN_spec. destruct (nth_error s (N.to_nat i)); reflexivity.
Qed.

Lemma index_rejected s x : try_to_usize_exact x = None ->
  index_value (VStr s) (VNum x) = Err ENumericIndexIsNotValid.
Proof. intros H. unfold index_value. rewrite H. reflexivity. Qed.

(* the accepted index denotes the double: IEEE equality with the conversion back *)
Lemma try_to_usize_exact_sound x i : try_to_usize_exact x = Some i ->
  f_eqb (f_of_N i) x = true /\ (i <= usize_max)%N.
Proof.
  unfold try_to_usize_exact. destruct (f_eqb (f_of_N (sat_cast usize_max x)) x) eqn:E; [|discriminate].
  intros H. inversion H; subst. split; auto.
  unfold sat_cast. destruct x as [| [|] | |[|] m e]; try (unfold usize_max; lia).
  destruct (trunc_Z (S754_finite false m e)); [apply N.le_min_r|unfold usize_max; lia].
Qed.

Lemma trunc_Z_eq x : trunc_Z x = f_trunc_Z x.
Proof.
  destruct x as [s|s| |s m e]; try reflexivity. unfold trunc_Z, f_trunc_Z.
  destruct (0 <=? e)%Z eqn:E.
  - apply Z.leb_le in E. rewrite Z.shiftl_mul_pow2 by exact E. reflexivity.
  - apply Z.leb_gt in E. rewrite Z.shiftr_div_pow2 by lia. reflexivity.
Qed.

Lemma f_one_eq : f_one = S754_finite false 4503599627370496 (-52).
Proof. reflexivity. Qed.

Lemma sat_cast_le maxv x : (sat_cast maxv x <= maxv)%N.
Proof.
  unfold sat_cast. destruct x as [| [|] | |[|] m e]; try lia.
  destruct (trunc_Z (S754_finite false m e)); [apply N.le_min_r|lia].
Qed.

Lemma step_ok x : not_integer x = false -> f_ltb x f_one = false ->
  (1 <= sat_cast usize_max x)%N.
Proof.
  intros H1 H2. rewrite f_one_eq in H2. destruct x as [s|s| |s m e].
  - destruct s; discriminate H2.
  - discriminate H1.
  - discriminate H1.
  - destruct s; [discriminate H2|].
    unfold not_integer in H1. cbn [f_is_finite negb orb] in H1.
    unfold sat_cast, f_trunc in *. rewrite trunc_Z_eq in *. unfold f_trunc_Z in *.
    destruct (0 <=? e)%Z eqn:E.
    + apply Z.leb_le in E.
      assert (1 <= Z.pos m * 2 ^ e)%Z by (pose proof (Z.pow_pos_nonneg 2 e); nia).
      unfold usize_max. lia.
    + destruct (Z.pos m / 2 ^ (- e) =? 0)%Z eqn:Z0.
      * discriminate H1.
      * apply Z.eqb_neq in Z0.
        assert (0 <= Z.pos m / 2 ^ (- e))%Z by (apply Z.div_pos; [lia|apply Z.pow_pos_nonneg; lia]).
        unfold usize_max. lia.
Qed.

(* slice: the range computation never lets the subtraction underflow *)
Lemma slice_range_ok len a b c st en sp :
  get_slice_range len a b c = Ok (st, en, sp) -> (len <= usize_max)%N ->
  (st <= en)%N /\ (1 <= sp)%N.
Proof.
  unfold get_slice_range. intros H Hlen.
  apply obind_ok_inv in H as (st' & Hst & H). apply obind_ok_inv in H as (en' & Hen & H).
  apply obind_ok_inv in H as (sp' & Hsp & H). inversion H; subst st' en' sp'; clear H.
  split.
  - (* the end is clamped from below by the start, or is usize::MAX, which bounds every start *)
    destruct b as [y|].
    + destruct (not_integer y); [discriminate Hen|]. inversion Hen. lia.
    + inversion Hen; subst en. destruct a as [x|]; [|inversion Hst; lia].
      destruct (not_integer x); [discriminate Hst|]. pose proof (sat_cast_le usize_max x).
      destruct (f_neg_p x); inversion Hst; lia.
  - destruct c as [z|]; [|inversion Hsp; lia].
    destruct (not_integer z || f_ltb z f_one)%bool eqn:Ez; [discriminate Hsp|].
    apply orb_false_iff in Ez as [Ez1 Ez2]. inversion Hsp. apply step_ok; assumption.
Qed.

Lemma is_panic_obind {A B} (x : res A) (f : A -> res B) :
  is_panic x = false -> (forall a, is_panic (f a) = false) -> is_panic (obind x f) = false.
Proof. destruct x; cbn; auto. Qed.

Lemma slice_range_no_panic len a b c : is_panic (get_slice_range len a b c) = false.
Proof.
  unfold get_slice_range.
  apply is_panic_obind; [destruct a as [x|]; [destruct (not_integer x), (f_neg_p x)|]; reflexivity|intros st].
  apply is_panic_obind; [destruct b as [y|]; [destruct (not_integer y)|]; reflexivity|intros en].
  apply is_panic_obind; [destruct c as [z|]; [destruct (not_integer z || f_ltb z f_one)%bool|]; reflexivity|reflexivity].
Qed.

Lemma slice_no_panic s a b c isf : (lenN s <= usize_max)%N ->
  is_panic (do_slice (VStr s) a b c isf) = false.
Proof.
  intros Hlen. unfold do_slice.
  pose proof (slice_range_no_panic (lenN s) a b c) as Hnp.
  destruct (get_slice_range (lenN s) a b c) as [[[st en] sp]| | |] eqn:G; try reflexivity; [|discriminate Hnp].
  destruct (slice_range_ok _ _ _ _ _ _ _ G Hlen) as [H1 H2].
  cbn [obind]. rewrite (slice_list_ok s st en sp H1 H2). reflexivity.
Qed.

(* what a successful string slice is: skip start, take end - start, every step-th *)
Lemma slice_is_skip_take_step s a b c isf v : (lenN s <= usize_max)%N ->
  do_slice (VStr s) a b c isf = Ok v ->
  exists st en sp, get_slice_range (lenN s) a b c = Ok (st, en, sp) /\ (st <= en)%N /\ (1 <= sp)%N /\
    v = VStr (step_by sp (firstn (N.to_nat (en - st)) (skipn (N.to_nat st) s))).
Proof.
  intros Hlen H. unfold do_slice in H.
  destruct (get_slice_range (lenN s) a b c) as [[[st en] sp]| | |] eqn:G; try discriminate H.
  destruct (slice_range_ok _ _ _ _ _ _ _ G Hlen) as [H1 H2].
  exists st, en, sp. split; [reflexivity|]. split; [exact H1|]. split; [exact H2|].
  cbn [obind] in H. rewrite (slice_list_ok s st en sp H1 H2) in H.
  cbn [obind] in H. inversion H. rewrite takeN_spec, skipN_spec. reflexivity.
Qed.

(* std.substr(s, a, l) == s[a : e] whenever the double e denotes a + l *)
Lemma substr_slice_agree s a l e v :
  not_integer e = false -> f_neg_p e = false ->
  sat_cast usize_max e = (sat_cast usize_max a + sat_cast usize_max l)%N ->
  std_substr (VStr s) (VNum a) (VNum l) = Ok v ->
  slice_expr (VStr s) (VNum a) (VNum e) VNull = Ok v.
Proof.
  intros He1 He2 Hsum H. unfold std_substr in H. cbn [want_str want_num obind] in H.
  destruct (not_integer a || f_neg_p a)%bool eqn:Ea; [discriminate H|].
  destruct (not_integer l || f_neg_p l)%bool eqn:El; [discriminate H|].
  apply orb_false_iff in Ea as [Ea1 Ea2]. inversion H; subst. clear H.
  unfold slice_expr. cbn [slice_part obind]. unfold do_slice, get_slice_range.
  rewrite Ea1, Ea2, He1, He2. cbn [obind]. rewrite Hsum.
  replace (N.max (sat_cast usize_max a + sat_cast usize_max l) (sat_cast usize_max a))
    with (sat_cast usize_max a + sat_cast usize_max l)%N by lia.
  rewrite substr_slice_cps. reflexivity.
Qed.

(* char / codepoint (on an integer argument n < 2^53, by arithmetic: Proofs/StrFns_char_proofs.v) *)

(* whatever std.char returns, std.codepoint maps it back to an in-range scalar *)
Lemma codepoint_char_inverse x v : std_char (VNum x) = Ok v ->
  exists c, v = VStr [c] /\ is_scalar c = true /\ std_codepoint v = Ok (VNum (f_of_N c)).
Proof.
  unfold std_char. cbn [want_num obind]. intros H.
  destruct (try_to_u32 (f_trunc x)) as [c|]; [|discriminate H].
  destruct (is_scalar c) eqn:E; [|discriminate H]. inversion H; subst.
  exists c. split; [reflexivity|]. split; [exact E|reflexivity].
Qed.

Lemma std_join_split s sep v : std_split (VStr s) (VStr sep) = Ok v ->
  std_join (VStr sep) v = Ok (VStr s).
Proof.
  unfold std_split. cbn [want_str obind]. destruct sep as [|c sep']; [discriminate|].
  intros H. destruct (StrFns.split s (c :: sep')) as [l| | |] eqn:E; cbn [obind] in H; try discriminate H.
  inversion H; subst. rewrite std_join_strs.
  rewrite (join_split s (c :: sep') l) by (auto; discriminate). reflexivity.
Qed.

Lemma checked_limit_pos m n : checked_limit m = Some n -> (1 <= n)%N.
Proof.
  unfold checked_limit. destruct (try_to_usize m) as [v|]; [|discriminate].
  destruct (v =? usize_max)%N; [discriminate|]. intros H. inversion H. lia.
Qed.

Lemma decoded_limit_positive m n :
  (decode_maxsplits m = Ok (Some n) \/ decode_maxsplits_r m = Ok (Some n)) -> (1 <= n)%N.
Proof.
  unfold decode_maxsplits, decode_maxsplits_r.
  destruct (not_integer m); [intros [H|H]; discriminate H|].
  destruct (f_neg_p m).
  - destruct (f_ne m (f_of_Z (-1))); intros [H|H]; discriminate H.
  - intros [H|H]; inversion H as [H1].
    + apply (checked_limit_pos m). exact H1.
    + destruct (checked_limit m) as [k|] eqn:E.
      * apply (checked_limit_pos m). exact E.
      * unfold usize_max. lia.
Qed.
