(* Proofs/RefNoPanic_proofs.v — C01: the reference interpreter never answers Panic, part 2.

   Hoare-style reading of the monad [M], after RefScope_proofs.v (C02): [safe P m] — whenever the
   recursive knot maps tasks over NaN-free structures to answers of the right kind over NaN-free
   structures and never panics, [m] does not panic either and its value satisfies P.  One lemma per
   definition of RefEval.v (helpers here; builtins, calls, the evaluator proper in RefNoPanic_main.v). *)
From RJ Require Import Base.Outcome Base.F64 Model.Token Model.Ast Model.RefCore Model.RefValue Model.RefEval.
From RJ Require Import Proofs.RefScope_defs Proofs.RefNoPanic_defs.
From Coq Require Import Lia.
Local Open Scope N_scope.

Definition okres {A} (P : A -> Prop) (r : res A) : Prop :=
  match snd r with
  | Ok a => P a
  | Panic _ => False
  | _ => True
  end.

Definition nv_task (t : task) : Prop :=
  match t with
  | TEval en x => nv_env en
  | TForce th => nv_thunk th
  | TApply f pos named _ => nv_value f /\ Forall nv_thunk pos /\ nv_vars named
  | TField ls _ _ => nv_layers ls
  | TEquals a b => nv_value a /\ nv_value b
  | TCompare a b => nv_value a /\ nv_value b
  | TManifest _ v => nv_value v
  end.

(* the answer has the kind its task asks for *)
Definition kind_ok (t : task) (a : answer) : Prop :=
  match t, a with
  | (TEval _ _ | TForce _ | TApply _ _ _ _ | TField _ _ _), AVal v => nv_value v
  | TEquals _ _, ABool _ => True
  | TCompare _ _, ACmp _ => True
  | TManifest _ _, AJson _ => True
  | _, _ => False
  end.

Definition rec_ok (r : recfn) : Prop := forall t d, nv_task t -> okres (kind_ok t) (r t d).
Definition safe {A} (P : A -> Prop) (m : M A) : Prop := forall c r, rec_ok r -> okres P (m c r).
Definition any {A} : A -> Prop := fun _ => True.

Lemma safe_ret {A} (P : A -> Prop) a : P a -> safe P (ret a).
Proof. intros H c r _. exact H. Qed.

Lemma safe_kind {A} (P : A -> Prop) s : safe P (kind s).
Proof. intros c r _. exact I. Qed.
Lemma safe_unsupported {A} (P : A -> Prop) s : safe P (unsupported s).
Proof. intros c r _. exact I. Qed.
Lemma safe_argtype {A} (P : A -> Prop) : safe P argtype.
Proof. intros c r _. exact I. Qed.
Lemma safe_fail {A} (P : A -> Prop) e : safe P (fail e).
Proof. intros c r _. exact I. Qed.
Lemma safe_check_num f : safe nv_value (lift (check_num f)).
Proof. intros c r _. unfold okres, lift, check_num. destruct f; simpl; try exact I; constructor; discriminate. Qed.
Lemma safe_emit s : safe any (emit s).
Proof. intros c r _. exact I. Qed.
Lemma safe_ask_bfs : safe any ask_bfs.
Proof. intros c r _. exact I. Qed.
Lemma safe_ask_ts_tail : safe any ask_ts_tail.
Proof. intros c r _. exact I. Qed.
Lemma safe_enter d : safe any (enter d).
Proof. intros c r _. unfold okres, enter. destruct (c_limit c <? d + 1); exact I. Qed.
Lemma safe_call t d : nv_task t -> safe (kind_ok t) (call t d).
Proof. intros H c r Hr. apply Hr. exact H. Qed.

Lemma safe_bind {A B} (Q : A -> Prop) (P : B -> Prop) (m : M A) (k : A -> M B) :
  safe Q m -> (forall a, Q a -> safe P (k a)) -> safe P (bind m k).
Proof.
  intros Hm Hk c r Hr. specialize (Hm c r Hr). unfold okres, bind in *.
  destruct (m c r) as [t o]. simpl in Hm. destruct o as [a | e | s |]; simpl; try exact I.
  - specialize (Hk a Hm c r Hr). unfold okres in Hk. destruct (k a c r) as [t2 o2]. exact Hk.
  - exact Hm.
Qed.

Lemma safe_weaken {A} (Q P : A -> Prop) (m : M A) : safe Q m -> (forall a, Q a -> P a) -> safe P m.
Proof.
  intros Hm HQP c r Hr. specialize (Hm c r Hr). unfold okres in *.
  destruct (snd (m c r)) as [a | e | s |]; auto.
Qed.

Lemma safe_ret_any {A} (a : A) : safe any (ret a).
Proof. apply safe_ret. exact I. Qed.
Lemma safe_bind_any {A B} (m : M A) (k : A -> M B) : safe any m -> (forall a, safe any (k a)) -> safe any (bind m k).
Proof. intros Hm Hk. eapply safe_bind; [exact Hm|]. intros a _. apply Hk. Qed.

Lemma safe_mapM {A B} (P : B -> Prop) (f : A -> M B) l :
  (forall a, In a l -> safe P (f a)) -> safe (Forall P) (mapM f l).
Proof.
  induction l as [|x r IH]; intros H; simpl.
  - apply safe_ret. constructor.
  - eapply safe_bind; [apply H; left; reflexivity|]. intros y Hy.
    eapply safe_bind; [apply IH; intros a Ha; apply H; right; exact Ha|]. intros ys Hys.
    apply safe_ret. constructor; assumption.
Qed.

Lemma safe_iterM {A} (f : A -> M unit) l : (forall a, In a l -> safe any (f a)) -> safe any (iterM f l).
Proof.
  induction l as [|x r IH]; intros H; simpl.
  - apply safe_ret. exact I.
  - eapply safe_bind; [apply H; left; reflexivity|]. intros _ _. apply IH. intros a Ha. apply H. right. exact Ha.
Qed.

Create HintDb safe discriminated.
#[export] Hint Constants Opaque : safe.
Create HintDb nv discriminated.
#[export] Hint Constructors nv_value nv_thunk nv_env Forall : nv.
#[export] Hint Immediate nv_num_inv nv_arr_inv nv_obj_inv : nv.
#[export] Hint Unfold nv_layers : nv.
#[export] Hint Resolve nn_f_of_Z nn_f_of_N nn_f_zero nn_f_neg Forall_app_intro Forall_rev slice_list_forall : nv.
#[export] Hint Resolve safe_kind safe_unsupported safe_argtype safe_fail
  safe_check_num safe_emit safe_ask_bfs safe_ask_ts_tail safe_enter safe_ret_any safe_bind_any : safe.
#[export] Hint Extern 1 (any _) => exact I : nv.
#[export] Hint Extern 1 (any _) => exact I : safe.

(* as in RefScope_proofs.v, with the [nv] hints for the side conditions *)
Ltac safe_step :=
  match goal with
  | |- safe _ (ret _) => apply safe_ret; try solve [eauto with nv]
  | |- safe _ (bind _ _) => eapply safe_bind; [ solve [eauto with safe nv] | intros ]
  | |- safe _ (match ?x with _ => _ end) => first [ is_var x; destruct x | destruct x eqn:? ]
  | |- safe _ (if ?b then _ else _) => destruct b eqn:?
  | |- safe _ _ => solve [eauto with safe nv]
  | |- safe _ _ => eapply safe_weaken; [ solve [eauto with safe nv] | solve [intros; eauto with nv] ]
  end.
Ltac safe_tac := repeat safe_step.

(* the four RefEval:answer:* sites are unreachable: the knot answers with the kind its task asks for *)
Lemma safe_call_val t d :
  nv_task t -> (forall a, kind_ok t a -> match a with AVal v => nv_value v | _ => False end) ->
  safe nv_value (bind (call t d) as_val).
Proof.
  intros H Hk. eapply safe_bind; [apply safe_call, H|]. intros a Ha. apply Hk in Ha.
  destruct a; try contradiction. apply safe_ret. exact Ha.
Qed.

Lemma safe_eval en x d : nv_env en -> safe nv_value (eval en x d).
Proof. intros He. apply (safe_call_val (TEval en x)); [exact He | auto]. Qed.
Lemma safe_forceT t d : nv_thunk t -> safe nv_value (forceT t d).
Proof. intros Ht. apply (safe_call_val (TForce t)); [exact Ht | auto]. Qed.
Lemma safe_apply f pos named force d :
  nv_value f -> Forall nv_thunk pos -> nv_vars named -> safe nv_value (apply f pos named force d).
Proof. intros. apply (safe_call_val (TApply f pos named force)); [repeat split; assumption | auto]. Qed.
Lemma safe_applyf f pos d : nv_value f -> Forall nv_thunk pos -> safe nv_value (applyf f pos d).
Proof. intros. unfold applyf. apply safe_apply; auto. constructor. Qed.
Lemma safe_field_at ls from name d : nv_layers ls -> safe nv_value (field_at ls from name d).
Proof. intros Hl. apply (safe_call_val (TField ls from name)); [exact Hl | auto]. Qed.
Lemma safe_equals a b d : nv_value a -> nv_value b -> safe any (equals a b d).
Proof.
  intros. unfold equals. eapply safe_bind; [apply (safe_call (TEquals a b)); simpl; auto|].
  intros [] Hk; try contradiction. apply safe_ret_any.
Qed.
Lemma safe_compare a b d : nv_value a -> nv_value b -> safe any (compare a b d).
Proof.
  intros. unfold compare. eapply safe_bind; [apply (safe_call (TCompare a b)); simpl; auto|].
  intros [] Hk; try contradiction. apply safe_ret_any.
Qed.
Lemma safe_manifest s v d : nv_value v -> safe any (manifest s v d).
Proof.
  intros. unfold manifest. eapply safe_bind; [apply (safe_call (TManifest s v)); simpl; auto|].
  intros [] Hk; try contradiction. apply safe_ret_any.
Qed.
#[export] Hint Resolve safe_eval safe_forceT safe_apply safe_applyf safe_field_at safe_equals safe_compare safe_manifest : safe.

Lemma safe_render_m j : safe any (render_m j).
Proof. unfold render_m. safe_tac. Qed.
#[export] Hint Resolve safe_render_m : safe.
Lemma safe_to_string v d : nv_value v -> safe any (to_string v d).
Proof. intros H. unfold to_string. destruct v; safe_tac. Qed.
#[export] Hint Resolve safe_to_string : safe.

Lemma safe_un_op op v : nv_value v -> safe nv_value (un_op op v).
Proof. intros Hv. unfold un_op. destruct op, v; try apply safe_kind; safe_tac. Qed.
Lemma safe_int2 P a b k : (forall x y, safe P (k x y)) -> safe P (int2 a b k).
Proof. intros H. unfold int2. safe_tac; apply H. Qed.
Lemma safe_num_bin op a b : safe nv_value (num_bin op a b).
Proof. unfold num_bin. destruct op; safe_tac; apply safe_int2; intros; safe_tac. Qed.
#[export] Hint Resolve safe_un_op safe_num_bin : safe.

Lemma safe_add_vals l r d : nv_value l -> nv_value r -> safe nv_value (add_vals l r d).
Proof. intros Hl Hr. unfold add_vals. destruct l, r; try apply safe_kind; safe_tac. Qed.
#[export] Hint Resolve safe_add_vals : safe.

Lemma safe_bin_op op l r d : nv_value l -> nv_value r -> safe nv_value (bin_op op l r d).
Proof.
  intros Hl Hr. unfold bin_op. apply (num_or_case (safe nv_value)); [|intros; apply safe_num_bin].
  destruct op; try apply safe_kind.
  - apply safe_add_vals; assumption.
  - destruct l; auto with safe.
  - destruct l; try apply safe_kind. destruct r; try apply safe_kind. apply safe_ret. constructor.
Qed.
#[export] Hint Resolve safe_bin_op : safe.

Lemma safe_run_assert en a d : nv_env en -> safe any (run_assert en a d).
Proof. intros He. unfold run_assert. safe_tac. Qed.

Lemma safe_run_layer_asserts ls : nv_layers ls -> forall rest i d, nv_layers rest -> safe any (run_layer_asserts ls rest i d).
Proof.
  intros Hls rest i d Hrest. revert i. induction Hrest as [|l r Hl Hr IH]; intros i; simpl; [apply safe_ret_any|].
  apply safe_bind_any; [|intros; apply IH].
  apply safe_iterM. intros a Ha. apply safe_run_assert. apply layer_env_nv; [exact Hls|].
  destruct Hl. assumption.
Qed.

Lemma safe_run_asserts ls c d : nv_layers ls -> safe any (run_asserts ls c d).
Proof. intros H. unfold run_asserts. destruct c; [apply safe_ret_any | apply safe_run_layer_asserts; assumption]. Qed.
#[export] Hint Resolve safe_run_asserts : safe.

Lemma safe_missing_field {A} (P : A -> Prop) ls n : safe P (missing_field ls n).
Proof. unfold missing_field. safe_tac. Qed.
#[export] Hint Resolve safe_missing_field : safe.

Lemma safe_get_field ls c n d : nv_layers ls -> safe nv_value (get_field ls c n d).
Proof. intros H. unfold get_field. safe_tac. Qed.
#[export] Hint Resolve safe_get_field : safe.

(* the RefEval:do_field:layer site is unreachable: the layer lookup cannot fail (find_field_sound) *)
Lemma safe_do_field ls from name d : nv_layers ls -> safe nv_value (do_field ls from name d).
Proof.
  intros Hls. unfold do_field.
  destruct (find_field ls from name) as [[i f]|] eqn:Ef; [|safe_tac].
  destruct (find_field_sound _ _ _ _ _ Ef) as (l & En & Hl & Hf). rewrite En.
  pose proof (field_env_nv ls i l name f Hls Hl Hf) as Hen.
  safe_tac.
Qed.
#[export] Hint Resolve safe_do_field : safe.

Lemma safe_with_super {P} en k :
  nv_env en -> (forall ls i, nv_layers ls -> safe P (k ls i)) -> safe P (with_super en k).
Proof.
  intros He Hk. unfold with_super. destruct (lookup_obj en) as [[[ls i] c]|] eqn:E; [|apply safe_fail].
  apply Hk. eapply lookup_obj_nv; eassumption.
Qed.

Lemma safe_super_field en name d : nv_env en -> safe nv_value (super_field en name d).
Proof. intros He. unfold super_field. apply safe_with_super; auto. intros. safe_tac. Qed.
#[export] Hint Resolve safe_super_field : safe.

Definition field_ok (nf : str * field) : Prop := forall fe, f_fenv (snd nf) = Some fe -> nv_env fe.

Lemma safe_field_name_of v : safe any (field_name_of v).
Proof. unfold field_name_of. destruct v; safe_tac. Qed.
#[export] Hint Resolve safe_field_name_of : safe.

Lemma safe_add_field acc on f :
  Forall field_ok acc -> (forall s, field_ok (s, f)) -> safe (Forall field_ok) (add_field acc on f).
Proof.
  intros Ha Hf. unfold add_field. destruct on as [s|]; [|apply safe_ret; exact Ha].
  destruct (assoc s acc); [apply safe_kind|]. apply safe_ret. apply Forall_app_intro; [exact Ha|]. constructor; [apply Hf | constructor].
Qed.

Lemma safe_build_fields en d : nv_env en ->
  forall fs acc, Forall field_ok acc -> safe (Forall field_ok) (build_fields en fs acc d).
Proof.
  intros He. induction fs as [|f r IH]; intros acc Hacc; simpl.
  - apply safe_ret. exact Hacc.
  - destruct f as [nm plus vis body].
    assert (Hbody : forall s, field_ok (s, MkField vis plus body None)) by (intros s fe H; discriminate H).
    eapply safe_bind with (Q := any).
    { destruct nm as [s | e]; [apply safe_ret_any|].
      eapply safe_bind; [apply safe_eval; eassumption | intros; apply safe_field_name_of]. }
    intros on _. eapply safe_bind; [apply safe_add_field; eauto|]. intros acc' Hacc'. apply IH; assumption.
Qed.

Lemma safe_expand_for x : forall vs vals,
  Forall nv_vars vs -> Forall nv_value vals -> safe (Forall nv_vars) (expand_for x vs vals).
Proof.
  intros vs vals H. revert vals. induction H as [|v vr Hv Hvr IH]; intros vals Hvals; destruct Hvals as [|a valr Ha Hvalr]; simpl; safe_tac.
  apply Forall_app_intro; [|assumption]. apply Forall_map_intro. intros it Hit.
  constructor; [exact (Forall_in _ _ _ (nv_arr_inv _ Ha) Hit) | exact Hv].
Qed.

Lemma safe_filter_if : forall vs vals, Forall nv_vars vs -> safe (Forall nv_vars) (filter_if vs vals).
Proof.
  intros vs vals H. revert vals. induction H as [|v vr Hv Hvr IH]; intros [|a valr]; simpl; safe_tac.
  match goal with |- Forall _ (if ?keep then _ else _) => destruct keep end; auto with nv.
Qed.

Lemma nv_env_vars v en : nv_vars v -> nv_env en -> nv_env (FVars v [] :: en).
Proof. intros Hv He. constructor; [exact Hv | exact He]. Qed.

Lemma safe_comp_bfs en d : nv_env en -> forall specs vs,
  Forall nv_vars vs -> safe (Forall nv_vars) (comp_bfs en specs vs d).
Proof.
  intros He. induction specs as [|s r IH]; intros vs Hvs; simpl.
  - apply safe_ret. exact Hvs.
  - destruct s as [x e | c];
      (eapply safe_bind;
       [apply safe_mapM with (P := nv_value); intros v Hv;
        apply safe_eval, nv_env_vars; [exact (Forall_in _ _ _ Hvs Hv) | exact He] |]);
      intros vals Hvals.
    + destruct (first_non_array vals); [apply safe_kind|].
      eapply safe_bind; [apply safe_expand_for; eassumption|]. intros vs' Hvs'.
      apply IH; assumption.
    + destruct (first_non_bool vals); [apply safe_kind|].
      eapply safe_bind; [apply safe_filter_if; eassumption|]. intros vs' Hvs'.
      apply IH; assumption.
Qed.

Lemma safe_comp_dfs en d : nv_env en -> forall specs v,
  nv_vars v -> safe (Forall nv_vars) (comp_dfs en specs v d).
Proof.
  intros He. induction specs as [|s r IH]; intros v Hv; simpl.
  - apply safe_ret. constructor; [exact Hv | constructor].
  - destruct s as [x e | c]; (eapply safe_bind; [apply safe_eval, nv_env_vars; assumption|]);
      intros a Ha; destruct a; try apply safe_kind.
    + apply nv_arr_inv in Ha. eapply safe_bind.
      { apply safe_mapM with (P := Forall nv_vars).
        intros it Hit. apply IH. constructor; [exact (Forall_in _ _ _ Ha Hit) | exact Hv]. }
      intros ll Hll. apply safe_ret, Forall_concat, Hll.
    + destruct b; [apply IH; assumption | apply safe_ret; constructor].
Qed.

Lemma safe_comp_envs en specs d : nv_env en -> safe (Forall nv_env) (comp_envs en specs d).
Proof.
  intros He. unfold comp_envs. eapply safe_bind; [apply safe_ask_bfs|]. intros bfs _.
  eapply safe_bind with (Q := Forall nv_vars).
  - destruct bfs.
    + apply (safe_comp_bfs en d He specs [[]]). constructor; [constructor | constructor].
    + apply (safe_comp_dfs en d He specs []). constructor.
  - intros vs Hvs. apply safe_ret, Forall_map_intro. intros v Hv.
    apply nv_env_vars; [exact (Forall_in _ _ _ Hvs Hv) | exact He].
Qed.

Lemma safe_build_comp_fields name plus body d :
  forall envs acc, Forall nv_env envs -> Forall field_ok acc ->
  safe (Forall field_ok) (build_comp_fields envs name plus body acc d).
Proof.
  induction envs as [|e r IH]; intros acc Henvs Hacc; simpl.
  - apply safe_ret. exact Hacc.
  - inversion Henvs as [|? ? He Hr]; subst.
    eapply safe_bind; [apply safe_eval; exact He|]. intros v Hv.
    eapply safe_bind; [apply safe_field_name_of|]. intros on _.
    eapply safe_bind; [apply safe_add_field; [exact Hacc|]|].
    { intros s fe H. cbn in H. injection H as <-. exact He. }
    intros acc' Hacc'. apply IH; assumption.
Qed.

Lemma safe_index_value v i d : nv_value v -> nv_value i -> safe nv_value (index_value v i d).
Proof.
  intros Hv Hi. unfold index_value. destruct v; try apply safe_kind; destruct i; try apply safe_kind; try solve [safe_tac].
  destruct (to_index f); [|apply safe_kind]. destruct (nthN items n) as [t|] eqn:En; [|apply safe_kind].
  pose proof (Forall_in _ _ _ (nv_arr_inv _ Hv) (nthN_in _ _ _ En)). safe_tac.
Qed.
#[export] Hint Resolve safe_index_value : safe.

Lemma safe_opt_num v s : safe any (opt_num v s).
Proof. unfold opt_num. destruct v; safe_tac. Qed.
Lemma safe_slice_pos l f : safe any (slice_pos l f).
Proof. unfold slice_pos. safe_tac. Qed.
#[export] Hint Resolve safe_opt_num safe_slice_pos : safe.
Lemma safe_slice_range l a b c : safe any (slice_range l a b c).
Proof. unfold slice_range. destruct a, b, c; safe_tac; (apply safe_bind_any; [safe_tac | auto with safe]). Qed.
#[export] Hint Resolve safe_slice_range : safe.

Lemma safe_do_slice v a b c f : nv_value v -> safe nv_value (do_slice v a b c f).
Proof. intros Hv. unfold do_slice. destruct v; safe_tac. Qed.
#[export] Hint Resolve safe_do_slice : safe.

Lemma safe_eval_opt en o d : nv_env en -> safe nv_value (eval_opt en o d).
Proof. intros He. unfold eval_opt. destruct o; safe_tac. Qed.
#[export] Hint Resolve safe_eval_opt : safe.

(* the list-walking builtins: induction on the derivation that every item is a NaN-free thunk *)
Lemma safe_filter_m fv d : nv_value fv -> forall items, Forall nv_thunk items -> safe (Forall nv_thunk) (filter_m fv items d).
Proof.
  intros Hf items H. induction H as [|it r Hit Hr IH]; simpl; safe_tac.
  match goal with |- Forall _ (if ?keep then _ else _) => destruct keep end; auto with nv.
Qed.

Lemma safe_foldl_m fv d : nv_value fv -> forall items acc, Forall nv_thunk items -> nv_thunk acc -> safe nv_value (foldl_m fv items acc d).
Proof. intros Hf items acc H. revert acc. induction H as [|it r Hit Hr IH]; intros acc Ha; simpl; safe_tac. Qed.

Lemma safe_foldr_m fv d : nv_value fv -> forall items acc, Forall nv_thunk items -> nv_thunk acc -> safe nv_value (foldr_m fv items acc d).
Proof. intros Hf items acc H. revert acc. induction H as [|it r Hit Hr IH]; intros acc Ha; simpl; safe_tac. Qed.

Lemma safe_join_str_m sep d : forall items first acc, Forall nv_thunk items -> safe nv_value (join_str_m sep items first acc d).
Proof. intros items first acc H. revert first acc. induction H as [|it r Hit Hr IH]; intros first acc; simpl; safe_tac. Qed.

Lemma safe_join_arr_m sep d : Forall nv_thunk sep -> forall items first acc,
  Forall nv_thunk items -> Forall nv_thunk acc -> safe nv_value (join_arr_m sep items first acc d).
Proof.
  intros Hs items first acc H. revert first acc. induction H as [|it r Hit Hr IH]; intros first acc Ha; simpl; safe_tac.
  apply IH. destruct first; auto with nv.
Qed.
#[export] Hint Resolve safe_filter_m safe_foldl_m safe_foldr_m safe_join_str_m safe_join_arr_m : safe.

Lemma safe_object_has o f h : safe nv_value (object_has o f h).
Proof.
  unfold object_has. destruct o; try apply safe_argtype. destruct f; try apply safe_argtype.
  destruct h as [|[|]| | | | | |]; try apply safe_argtype; apply safe_ret; constructor.
Qed.
Lemma safe_object_fields o h : safe nv_value (object_fields o h).
Proof.
  unfold object_fields. destruct o; try solve [safe_tac]. destruct h; try solve [safe_tac].
  apply safe_ret. constructor. apply Forall_map_intro. intros. repeat constructor.
Qed.
Lemma safe_prim_equals a b : safe nv_value (prim_equals a b).
Proof. unfold prim_equals. destruct a, b; safe_tac. Qed.
Lemma safe_mod_num a b : safe nv_value (mod_num a b).
Proof. unfold mod_num. destruct a, b; safe_tac. Qed.
#[export] Hint Resolve safe_object_has safe_object_fields safe_prim_equals safe_mod_num : safe.
