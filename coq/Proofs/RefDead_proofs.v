(* Proofs/RefDead_proofs.v — C02/C04: dead-binding irrelevance, part 2: a relational (two-run)
   reading of the monad [M] and one simulation lemma per helper definition of RefEval.v. *)
From RJ Require Import Base.Outcome Base.F64 Model.Token Model.Ast Model.RefCore Model.RefValue Model.RefEval.
From RJ Require Import Proofs.RefSem_proofs Proofs.RefScope_defs Proofs.RefDead_defs.
Local Open Scope N_scope.

Create HintDb rel2 discriminated.
Create HintDb rel discriminated.
(* hints of rel2 are selected by the head of the two computations, without unfolding the evaluator *)
#[global] Hint Constants Opaque : rel2.

Section DeadSim.
Variable x : str.
Variables e1 e2 : list frame.
Hypothesis Hd : dead_pair x e1 e2.
Notation vr := (vrel x e1 e2).
Notation tr := (trel x e1 e2).
Notation er := (erel x e1 e2).
Notation lsr := (lsrel x e1 e2).
Notation tsr := (tsrel x e1 e2).
Notation bvr := (bvrel x e1 e2).
Notation fr := (frel x e1 e2).

Definition orel {A} (R : A -> A -> Prop) (o o' : outcome A err) : Prop :=
  match o, o' with
  | Ok a, Ok a' => R a a'
  | Err e, Err e' => e = e'
  | Panic s, Panic s' => s = s'
  | OutOfFuel, OutOfFuel => True
  | _, _ => False
  end.
Definition rrel {A} (R : A -> A -> Prop) (r r' : res A) : Prop := fst r = fst r' /\ orel R (snd r) (snd r').

Definition task_rel (t t' : task) : Prop :=
  match t, t' with
  | TEval en e, TEval en' e' => e = e' /\ exists vs io, er en en' vs io /\ closed vs io e
  | TForce th, TForce th' => tr th th'
  | TApply f pos named force, TApply f' pos' named' force' => vr f f' /\ tsr pos pos' /\ bvr named named' /\ force = force'
  | TField ls from n, TField ls' from' n' => lsr ls ls' /\ from = from' /\ n = n'
  | TEquals a b, TEquals a' b' => vr a a' /\ vr b b'
  | TCompare a b, TCompare a' b' => vr a a' /\ vr b b'
  | TManifest s v, TManifest s' v' => s = s' /\ vr v v'
  | _, _ => False
  end.

Definition ans_rel (a a' : answer) : Prop :=
  match a, a' with
  | AVal v, AVal v' => vr v v'
  | ABool b, ABool b' => b = b'
  | ACmp c, ACmp c' => c = c'
  | AJson j, AJson j' => j = j'
  | _, _ => False
  end.

Definition rec_rel (r r' : recfn) : Prop := forall t t' d, task_rel t t' -> rrel ans_rel (r t d) (r' t' d).
Definition rel2 {A} (R : A -> A -> Prop) (m m' : M A) : Prop := forall c r r', rec_rel r r' -> rrel R (m c r) (m' c r').

Lemma rel2_ret {A} (R : A -> A -> Prop) a a' : R a a' -> rel2 R (ret a) (ret a').
Proof. intros H c r r' _. split; [reflexivity | exact H]. Qed.
Lemma rel2_err {A} (R : A -> A -> Prop) e : rel2 R (fail e) (fail e).
Proof. intros c r r' _. split; reflexivity. Qed.
Lemma rel2_kind {A} (R : A -> A -> Prop) s : rel2 R (kind s) (kind s).
Proof. apply rel2_err. Qed.
Lemma rel2_unsupported {A} (R : A -> A -> Prop) s : rel2 R (unsupported s) (unsupported s).
Proof. apply rel2_err. Qed.
Lemma rel2_argtype {A} (R : A -> A -> Prop) : rel2 R argtype argtype.
Proof. apply rel2_err. Qed.
Lemma rel2_panic {A} (R : A -> A -> Prop) s : rel2 R (lift (Panic s)) (lift (Panic s)).
Proof. intros c r r' _. split; reflexivity. Qed.
Lemma rel2_check_num f : rel2 vr (lift (check_num f)) (lift (check_num f)).
Proof. intros c r r' _. split; [reflexivity|]. unfold lift, check_num. destruct f; simpl; try reflexivity; constructor. Qed.
Lemma rel2_emit s : rel2 eq (emit s) (emit s).
Proof. intros c r r' _. split; reflexivity. Qed.
Lemma rel2_ask_bfs : rel2 eq ask_bfs ask_bfs.
Proof. intros c r r' _. split; reflexivity. Qed.
Lemma rel2_ask_ts_tail : rel2 eq ask_ts_tail ask_ts_tail.
Proof. intros c r r' _. split; reflexivity. Qed.
Lemma rel2_enter d : rel2 eq (enter d) (enter d).
Proof. intros c r r' _. unfold enter. destruct (c_limit c <? d + 1); split; reflexivity. Qed.
Lemma rel2_call t t' d : task_rel t t' -> rel2 ans_rel (call t d) (call t' d).
Proof. intros H c r r' Hr. apply Hr. exact H. Qed.

Lemma rrel_bind {A B} (Q : A -> A -> Prop) (R : B -> B -> Prop) (m m' : M A) (k k' : A -> M B) c r r' :
  rrel Q (m c r) (m' c r') -> (forall a a', Q a a' -> rrel R (k a c r) (k' a' c r')) -> rrel R (bind m k c r) (bind m' k' c r').
Proof.
  intros Hm Hk. unfold rrel, bind in *.
  destruct (m c r) as [t o]. destruct (m' c r') as [t' o']. simpl in Hm. destruct Hm as [-> Ho].
  destruct o as [a | e | s |]; destruct o' as [a' | e' | s' |]; simpl in Ho; try contradiction.
  - specialize (Hk a a' Ho). destruct (k a c r) as [t2 o2]. destruct (k' a' c r') as [t2' o2'].
    simpl in *. destruct Hk as [-> Ho2]. split; [reflexivity | exact Ho2].
  - subst. split; reflexivity.
  - subst. split; reflexivity.
  - split; reflexivity.
Qed.

Lemma rrel_eq {A} (r r' : res A) : rrel eq r r' -> r = r'.
Proof.
  destruct r as [t o], r' as [t' o']. unfold rrel. simpl. intros [-> Ho]. f_equal.
  destruct o, o'; simpl in Ho; try contradiction; congruence.
Qed.

Lemma rel2_bind {A B} (Q : A -> A -> Prop) (R : B -> B -> Prop) (m m' : M A) (k k' : A -> M B) :
  rel2 Q m m' -> (forall a a', Q a a' -> rel2 R (k a) (k' a')) -> rel2 R (bind m k) (bind m' k').
Proof.
  intros Hm Hk c r r' Hr. apply rrel_bind with (Q := Q); [apply Hm; exact Hr | intros a a' Ha; apply Hk; assumption].
Qed.

Lemma rel2_mapM {A B} (P : B -> B -> Prop) (f f' : A -> M B) l l' :
  Forall2 (fun a a' => rel2 P (f a) (f' a')) l l' -> rel2 (Forall2 P) (mapM f l) (mapM f' l').
Proof.
  induction 1 as [|a a' r r' Ha _ IH]; simpl.
  - apply rel2_ret. constructor.
  - eapply rel2_bind; [exact Ha|]. intros y y' Hy. eapply rel2_bind; [exact IH|]. intros ys ys' Hys. apply rel2_ret. constructor; assumption.
Qed.

Lemma rel2_impl {A} (R R' : A -> A -> Prop) (m m' : M A) : (forall a a', R a a' -> R' a a') -> rel2 R m m' -> rel2 R' m m'.
Proof.
  intros HR Hm c r r' Hr. destruct (Hm c r r' Hr) as [Ht Ho]. split; [exact Ht|].
  destruct (snd (m c r)), (snd (m' c r')); simpl in *; auto.
Qed.

Lemma rel2_mapM_eq {A B} (f f' : A -> M B) l l' :
  Forall2 (fun a a' => rel2 eq (f a) (f' a')) l l' -> rel2 eq (mapM f l) (mapM f' l').
Proof. intros H. apply (rel2_impl (Forall2 eq)); [|apply rel2_mapM; exact H]. induction 1; congruence. Qed.

Lemma rel2_iterM {A} (f f' : A -> M unit) l l' :
  Forall2 (fun a a' => rel2 eq (f a) (f' a')) l l' -> rel2 eq (iterM f l) (iterM f' l').
Proof.
  induction 1 as [|a a' r r' Ha _ IH]; simpl.
  - apply rel2_ret. reflexivity.
  - eapply rel2_bind; [exact Ha|]. intros; exact IH.
Qed.

Hint Constructors vrel trel : rel.
Hint Resolve rel2_err rel2_kind rel2_unsupported rel2_argtype rel2_panic rel2_check_num rel2_emit rel2_ask_bfs
  rel2_ask_ts_tail rel2_enter : rel2.
Hint Resolve Forall2_app : rel.
Hint Extern 1 (@eq _ _ _) => reflexivity : rel.

(* Two computations of the same shape are related by walking down both at once: a bind by [rel2_bind]
   with a simulation already proved for its head (failing that, the heads are to give equal results
   and are walked in turn), a match on related values or lists by the cases of the relation, a match
   or test on a common scrutinee by its cases. *)
Ltac r2_step :=
  match goal with
  | |- rel2 _ (ret _) (ret _) => apply rel2_ret; try solve [eauto with rel]
  | |- rel2 _ (bind _ _) (bind _ _) =>
      first [ eapply rel2_bind; [ solve [eauto with rel2 rel] | intros ? ? ?; subst ]
            | eapply rel2_bind with (Q := eq); [ | intros ? ? ?; subst ] ]
  | H : vr ?v ?v' |- rel2 _ (match ?v with _ => _ end) (match ?v' with _ => _ end) => destruct H
  | H : Forall2 _ ?l ?l' |- rel2 _ (match ?l with _ => _ end) (match ?l' with _ => _ end) => destruct H
  | |- rel2 _ (match ?v with _ => _ end) (match ?v with _ => _ end) => first [ is_var v; destruct v | destruct v eqn:? ]
  | |- rel2 _ (if ?b then _ else _) (if ?b then _ else _) => destruct b eqn:?
  | |- rel2 _ _ _ => solve [eauto with rel2 rel]
  end.
Ltac r2_tac := repeat r2_step.

Lemma rel2_as_val a a' : ans_rel a a' -> rel2 vr (as_val a) (as_val a').
Proof. intros H. destruct a, a'; simpl in H; try contradiction; unfold as_val; r2_tac. Qed.
Lemma rel2_as_bool a a' : ans_rel a a' -> rel2 eq (as_bool a) (as_bool a').
Proof. intros H. destruct a, a'; simpl in H; try contradiction; subst; unfold as_bool; r2_tac. Qed.
Lemma rel2_as_cmp a a' : ans_rel a a' -> rel2 eq (as_cmp a) (as_cmp a').
Proof. intros H. destruct a, a'; simpl in H; try contradiction; subst; unfold as_cmp; r2_tac. Qed.
Lemma rel2_as_json a a' : ans_rel a a' -> rel2 eq (as_json a) (as_json a').
Proof. intros H. destruct a, a'; simpl in H; try contradiction; subst; unfold as_json; r2_tac. Qed.

(* each typed view of the knot is a call followed by a projection of the answer *)
Lemma rel2_call_view {A} (R : A -> A -> Prop) (view : answer -> M A) t t' d :
  (forall a a', ans_rel a a' -> rel2 R (view a) (view a')) -> task_rel t t' ->
  rel2 R (let* a := call t d in view a) (let* a := call t' d in view a).
Proof. intros Hv Ht. eapply rel2_bind; [apply rel2_call; exact Ht | exact Hv]. Qed.

Lemma rel2_eval en en' e d vs io : er en en' vs io -> closed vs io e -> rel2 vr (eval en e d) (eval en' e d).
Proof. intros He Hc. apply rel2_call_view; [exact rel2_as_val | simpl; eauto]. Qed.
Lemma rel2_forceT t t' d : tr t t' -> rel2 vr (forceT t d) (forceT t' d).
Proof. intros H. apply rel2_call_view; [exact rel2_as_val | exact H]. Qed.
Lemma rel2_apply f f' pos pos' named named' force d :
  vr f f' -> tsr pos pos' -> bvr named named' -> rel2 vr (apply f pos named force d) (apply f' pos' named' force d).
Proof. intros. apply rel2_call_view; [exact rel2_as_val | simpl; auto]. Qed.
Lemma rel2_applyf f f' pos pos' d : vr f f' -> tsr pos pos' -> rel2 vr (applyf f pos d) (applyf f' pos' d).
Proof. intros. apply rel2_apply; auto. constructor. Qed.
Lemma rel2_field_at ls ls' from n d : lsr ls ls' -> rel2 vr (field_at ls from n d) (field_at ls' from n d).
Proof. intros. apply rel2_call_view; [exact rel2_as_val | simpl; auto]. Qed.
Lemma rel2_equals a a' b b' d : vr a a' -> vr b b' -> rel2 eq (equals a b d) (equals a' b' d).
Proof. intros. apply rel2_call_view; [exact rel2_as_bool | simpl; auto]. Qed.
Lemma rel2_compare a a' b b' d : vr a a' -> vr b b' -> rel2 eq (compare a b d) (compare a' b' d).
Proof. intros. apply rel2_call_view; [exact rel2_as_cmp | simpl; auto]. Qed.
Lemma rel2_manifest s v v' d : vr v v' -> rel2 eq (manifest s v d) (manifest s v' d).
Proof. intros. apply rel2_call_view; [exact rel2_as_json | simpl; auto]. Qed.
Hint Resolve rel2_eval rel2_forceT rel2_apply rel2_applyf rel2_field_at rel2_equals rel2_compare rel2_manifest : rel2.

Lemma rel2_render_m j : rel2 eq (render_m j) (render_m j).
Proof. unfold render_m. r2_tac. Qed.
Hint Resolve rel2_render_m : rel2.
Lemma rel2_to_string v v' d : vr v v' -> rel2 eq (to_string v d) (to_string v' d).
Proof. intros H. destruct H; unfold to_string; r2_tac. Qed.
Hint Resolve rel2_to_string : rel2.

Lemma rel2_un_op op v v' : vr v v' -> rel2 vr (un_op op v) (un_op op v').
Proof. intros H. destruct op; destruct H; unfold un_op; r2_tac. Qed.
Lemma rel2_int2 R a b k : (forall y z, rel2 R (k y z) (k y z)) -> rel2 R (int2 a b k) (int2 a b k).
Proof. intros H. unfold int2. r2_tac; apply H. Qed.
Lemma rel2_num_bin op a b : rel2 vr (num_bin op a b) (num_bin op a b).
Proof. destruct op; unfold num_bin; r2_tac; apply rel2_int2; intros; r2_tac. Qed.
Hint Resolve rel2_un_op rel2_num_bin : rel2.

(* the text of a value joined to a string on either side *)
Lemma rel2_str_concat (k : str -> str) v v' d : vr v v' ->
  rel2 vr (let* d' := enter d in let* s := to_string v d' in ret (VStr (k s)))
          (let* d' := enter d in let* s := to_string v' d' in ret (VStr (k s))).
Proof. intros Hv. r2_tac. Qed.

(* related operands have the same head constructor: string with anything is [rel2_str_concat],
   like with like is immediate, every other pair is the same kind error on both sides *)
Lemma rel2_add_vals l l' r r' d : vr l l' -> vr r r' -> rel2 vr (add_vals l r d) (add_vals l' r' d).
Proof.
  intros Hl Hr.
  pose proof (fun a => rel2_str_concat (app a) r r' d Hr) as HL.
  pose proof (fun b => rel2_str_concat (fun s => s ++ b) l l' d Hl) as HR.
  destruct Hl; destruct Hr; unfold add_vals; first [apply rel2_kind | apply HL | apply HR | apply rel2_ret].
  - constructor.
  - constructor. apply Forall2_app; assumption.
  - constructor. apply Forall2_app; assumption.
Qed.

Lemma rel2_bin_op_other op l l' r r' d : vr l l' -> vr r r' -> rel2 vr (bin_op_other op l r d) (bin_op_other op l' r' d).
Proof.
  intros Hl Hr. destruct op; unfold bin_op_other; try apply rel2_kind.
  - apply rel2_add_vals; assumption.
  - destruct Hl; first [apply rel2_kind | apply rel2_unsupported].
  - destruct Hl; try apply rel2_kind. destruct Hr as [| | | | | ls ls' c Hls | |]; try apply rel2_kind.
    rewrite (lsrel_has_field x e1 e2 ls ls' 0 s Hls). apply rel2_ret. constructor.
Qed.

Lemma rel2_bin_op op l l' r r' d : vr l l' -> vr r r' -> rel2 vr (bin_op op l r d) (bin_op op l' r' d).
Proof.
  intros Hl Hr. rewrite !bin_op_cases. pose proof (rel2_bin_op_other op l l' r r' d Hl Hr) as Ho.
  destruct Hl; try exact Ho. destruct Hr; try exact Ho. apply rel2_num_bin.
Qed.
Hint Resolve rel2_bin_op : rel2.

Lemma rel2_run_assert en en' a d vs io :
  er en en' vs io -> closed vs io (fst a) -> closed_opt vs io (snd a) -> rel2 eq (run_assert en a d) (run_assert en' a d).
Proof. intros He Hc Hm. unfold run_assert. destruct Hm; r2_tac. Qed.

Lemma rel2_run_layer_asserts ls ls' : lsr ls ls' -> forall rest rest' i d, lsr rest rest' ->
  rel2 eq (run_layer_asserts ls rest i d) (run_layer_asserts ls' rest' i d).
Proof.
  intros Hls rest rest' i d Hrest. revert i. induction Hrest as [|l l' r r' Hl _ IH]; intros i; simpl.
  - apply rel2_ret. reflexivity.
  - eapply rel2_bind; [|intros; apply IH].
    destruct Hl as [locals asserts fields fields' en en' std vs io He Hass Hf]. simpl.
    apply rel2_iterM. apply Forall2_refl. intros a Ha. rewrite Forall_forall in Hass. destruct (Hass a Ha) as [Hc Hm].
    set (l := MkLayer locals asserts fields en std). set (l' := MkLayer locals asserts fields' en' std).
    destruct (layer_env_rel x e1 e2 ls ls' i l l' en en' vs io (fst a) Hls eq_refl He Hc) as (Hen & Hcl).
    eapply rel2_run_assert; [exact Hen | exact Hcl |].
    destruct (snd a) as [m|] eqn:Em; [|constructor]. constructor. apply (Hm m eq_refl).
Qed.

Lemma rel2_run_asserts ls ls' c d : lsr ls ls' -> rel2 eq (run_asserts ls c d) (run_asserts ls' c d).
Proof. intros H. unfold run_asserts. destruct c; [apply rel2_ret; reflexivity | apply rel2_run_layer_asserts; assumption]. Qed.
Hint Resolve rel2_run_asserts : rel2.

Lemma rel2_missing_field {A} (R : A -> A -> Prop) ls ls' n : lsr ls ls' -> rel2 R (missing_field ls n) (missing_field ls' n).
Proof. intros H. unfold missing_field. rewrite <- (lsrel_has_std x e1 e2 ls ls' H). r2_tac. Qed.
Hint Resolve rel2_missing_field : rel2.

Lemma rel2_get_field ls ls' c n d : lsr ls ls' -> rel2 vr (get_field ls c n d) (get_field ls' c n d).
Proof. intros H. unfold get_field. rewrite <- (lsrel_has_field x e1 e2 ls ls' 0 n H). r2_tac. Qed.

Lemma rel2_do_field ls ls' from n d : lsr ls ls' -> rel2 vr (do_field ls from n d) (do_field ls' from n d).
Proof.
  intros Hls. unfold do_field. pose proof (lsrel_find x e1 e2 ls ls' from n Hls) as Hff.
  destruct (find_field ls from n) as [[i f]|] eqn:Ef; destruct (find_field ls' from n) as [[i' f']|] eqn:Ef'; try contradiction;
    [|apply rel2_missing_field; exact Hls].
  destruct Hff as (<- & _ & Hp & Hb). pose proof (Forall2_nthN _ _ _ i Hls) as Hl.
  destruct (nthN ls i) as [l|] eqn:En; destruct (nthN ls' i) as [l'|] eqn:En'; try contradiction; [|apply rel2_panic].
  destruct (lsrel_field x e1 e2 _ _ _ _ _ _ _ _ _ Hls Ef Ef' En En') as (vs & io & He & Hfr).
  destruct (lrel_locals x e1 e2 _ _ Hl) as (Hloc & _ & _).
  rewrite <- Hp, <- Hb, <- (lsrel_has_field x e1 e2 ls ls' (i + 1) n Hls).
  assert (Henv : exists vs2, er (field_env ls i l f) (field_env ls' i l' f') vs2 true /\ closed vs2 true (f_body f)).
  { unfold field_env. inversion Hfr; subst; simpl; eexists; eapply layer_env_rel; eauto. }
  destruct Henv as (vs2 & Hen & Hcl).
  destruct (f_plus f && has_field ls (i + 1) n); r2_tac.
Qed.

Lemma rel2_with_super {R} en en' vs k k' :
  er en en' vs true -> (forall ls ls' i, lsr ls ls' -> rel2 R (k ls i) (k' ls' i)) -> rel2 R (with_super en k) (with_super en' k').
Proof.
  intros He Hk. unfold with_super. destruct (erel_lookup_obj x e1 e2 Hd _ _ _ _ He eq_refl) as (ls & ls' & i & c & E & E' & Hls).
  rewrite E, E'. apply Hk. exact Hls.
Qed.

Lemma rel2_super_field en en' vs n d : er en en' vs true -> rel2 vr (super_field en n d) (super_field en' n d).
Proof.
  intros He. unfold super_field. eapply rel2_with_super; [exact He|]. intros ls ls' i Hls.
  rewrite <- (Forall2_len _ _ _ Hls), <- (lsrel_has_field x e1 e2 ls ls' (i + 1) n Hls). r2_tac.
Qed.

Lemma rel2_field_name_of v v' : vr v v' -> rel2 eq (field_name_of v) (field_name_of v').
Proof. intros H. destruct H; unfold field_name_of; r2_tac. Qed.

Lemma frel_assoc_none locals vs acc acc' s : Forall2 (fr locals vs) acc acc' -> assoc s acc = None <-> assoc s acc' = None.
Proof.
  intros H. pose proof (frel_assoc x e1 e2 locals vs acc acc' s H) as Ha.
  destruct (assoc s acc); destruct (assoc s acc'); try contradiction; split; congruence.
Qed.

Lemma rel2_add_field locals vs acc acc' on f f' :
  Forall2 (fr locals vs) acc acc' -> (forall s, fr locals vs (s, f) (s, f')) ->
  rel2 (Forall2 (fr locals vs)) (add_field acc on f) (add_field acc' on f').
Proof.
  intros Ha Hf. unfold add_field. destruct on as [s|]; [|apply rel2_ret; exact Ha].
  pose proof (frel_assoc x e1 e2 locals vs acc acc' s Ha) as Has.
  destruct (assoc s acc); destruct (assoc s acc'); try contradiction; [apply rel2_kind|].
  apply rel2_ret. apply Forall2_app; [exact Ha | constructor; [apply Hf | constructor]].
Qed.

Lemma rel2_build_fields locals en en' vs io d :
  er en en' vs io -> Forall (fun p => closed (map fst locals ++ vs) true (snd p)) locals ->
  forall fs acc acc', Forall (closed_field vs io (map fst locals ++ vs)) fs ->
  Forall2 (fr locals vs) acc acc' ->
  rel2 (Forall2 (fr locals vs)) (build_fields en fs acc d) (build_fields en' fs acc' d).
Proof.
  intros He Hl. induction fs as [|f r IH]; intros acc acc' Hfs Hacc; simpl.
  - apply rel2_ret. exact Hacc.
  - inversion Hfs as [|? ? Hf Hr]; subst. destruct f as [nm plus vis body].
    assert (Hbody : forall s, fr locals vs (s, MkField vis plus body None) (s, MkField vis plus body None)).
    { intros s. constructor. split; [exact Hl | inversion Hf; subst; assumption]. }
    destruct nm as [s | e].
    + eapply rel2_bind with (Q := eq); [apply rel2_ret; reflexivity|]. intros on on' ->.
      eapply rel2_bind; [apply rel2_add_field; eauto|]. intros; apply IH; assumption.
    + inversion Hf; subst.
      eapply rel2_bind with (Q := eq); [eapply rel2_bind; [eapply rel2_eval; eassumption | intros; apply rel2_field_name_of; assumption]|].
      intros on on' ->. eapply rel2_bind; [apply rel2_add_field; eauto|]. intros; apply IH; assumption.
Qed.

Definition vars_rel (names : list str) (v v' : vars) : Prop := bvr v v' /\ map fst v = names.

Lemma rel2_expand_for y names : forall vs vs' vals vals',
  Forall2 (vars_rel names) vs vs' -> Forall2 vr vals vals' ->
  rel2 (Forall2 (vars_rel (y :: names))) (expand_for y vs vals) (expand_for y vs' vals').
Proof.
  intros vs vs' vals vals' Hvs. revert vals vals'. induction Hvs as [|v v' vr0 vr0' [Hb Hn] _ IH]; intros vals vals' Hvals; simpl; r2_tac.
  apply Forall2_app; [|assumption]. eapply Forall2_map_intro; [eassumption|]. intros it it' Hit.
  split; [constructor; [split; [reflexivity | assumption] | exact Hb] | simpl; f_equal; exact Hn].
Qed.

Lemma first_non_array_rel vals vals' : Forall2 vr vals vals' -> first_non_array vals = first_non_array vals'.
Proof. induction 1 as [|a a' r r' Ha _ IH]; simpl; [reflexivity|]. destruct Ha; auto. Qed.
Lemma first_non_bool_rel vals vals' : Forall2 vr vals vals' -> first_non_bool vals = first_non_bool vals'.
Proof. induction 1 as [|a a' r r' Ha _ IH]; simpl; [reflexivity|]. destruct Ha; auto. Qed.

Lemma rel2_filter_if names : forall vs vs' vals vals',
  Forall2 (vars_rel names) vs vs' -> Forall2 vr vals vals' ->
  rel2 (Forall2 (vars_rel names)) (filter_if vs vals) (filter_if vs' vals').
Proof.
  intros vs vs' vals vals' Hvs. revert vals vals'. induction Hvs as [|v v' vr0 vr0' Hv _ IH]; intros vals vals' Hvals; simpl; r2_tac.
  destruct b; [constructor|]; assumption.
Qed.

Lemma rel2_comp_bfs en en' vs0 io d : er en en' vs0 io -> forall specs names vs vs' out,
  closed_specs (names ++ vs0) io specs out -> Forall2 (vars_rel names) vs vs' ->
  rel2 (Forall2 (fun v v' => bvr v v' /\ map fst v ++ vs0 = out)) (comp_bfs en specs vs d) (comp_bfs en' specs vs' d).
Proof.
  intros He. induction specs as [|s r IH]; intros names vs vs' out Hs Hvs; apply closed_specs_inv in Hs; simpl.
  - subst out. apply rel2_ret. eapply Forall2_imp; [|exact Hvs]. intros v v' [Hb Hn]. split; [exact Hb | rewrite Hn; reflexivity].
  - (* the expression of a spec is evaluated once per tuple of variables bound so far *)
    assert (Hvals : forall e, closed (names ++ vs0) io e ->
              rel2 (Forall2 vr) (mapM (fun v => eval (FVars v [] :: en) e d) vs) (mapM (fun v => eval (FVars v [] :: en') e d) vs')).
    { intros e Hc. apply rel2_mapM. eapply Forall2_imp; [|exact Hvs]. intros v v' [Hb Hn].
      eapply rel2_eval; [apply erel_vars; eassumption|]. rewrite Hn. assumption. }
    destruct s as [y e | c]; destruct Hs as [Hc Hr]; (eapply rel2_bind; [apply Hvals; exact Hc|]); intros vals vals' Hv.
    + rewrite <- (first_non_array_rel _ _ Hv). destruct (first_non_array vals); [apply rel2_kind|].
      eapply rel2_bind; [apply rel2_expand_for; eassumption|]. intros ws ws' Hws. apply (IH (y :: names)); assumption.
    + rewrite <- (first_non_bool_rel _ _ Hv). destruct (first_non_bool vals); [apply rel2_kind|].
      eapply rel2_bind; [apply rel2_filter_if; eassumption|]. intros ws ws' Hws. apply (IH names); assumption.
Qed.

Lemma rel2_comp_dfs en en' vs0 io d : er en en' vs0 io -> forall specs v v' out,
  closed_specs (map fst v ++ vs0) io specs out -> bvr v v' ->
  rel2 (Forall2 (fun w w' => bvr w w' /\ map fst w ++ vs0 = out)) (comp_dfs en specs v d) (comp_dfs en' specs v' d).
Proof.
  intros He. induction specs as [|s r IH]; intros v v' out Hs Hv; apply closed_specs_inv in Hs; simpl.
  - subst out. apply rel2_ret. constructor; [split; [exact Hv | reflexivity] | constructor].
  - destruct s as [y e | c]; destruct Hs as [Hc Hr].
    + eapply rel2_bind; [eapply rel2_eval; [apply erel_vars; eassumption | assumption]|].
      intros a a' Ha. destruct Ha; try apply rel2_kind.
      eapply rel2_bind with (Q := Forall2 (Forall2 (fun w w' => bvr w w' /\ map fst w ++ vs0 = out))).
      { apply rel2_mapM. eapply Forall2_imp; [|eassumption]. intros it it' Hit.
        apply IH; [assumption|]. constructor; [split; [reflexivity | assumption] | exact Hv]. }
      intros ll ll' Hll. apply rel2_ret. apply Forall2_concat. exact Hll.
    + eapply rel2_bind; [eapply rel2_eval; [apply erel_vars; eassumption | assumption]|].
      intros b b' Hb. destruct Hb; try apply rel2_kind. destruct b; [apply IH; assumption | apply rel2_ret; constructor].
Qed.

Definition env_rel2 (out : list str) (io : bool) (en en' : env) : Prop := er en en' out io.

Lemma rel2_comp_envs en en' vs io specs d out :
  er en en' vs io -> closed_specs vs io specs out -> rel2 (Forall2 (env_rel2 out io)) (comp_envs en specs d) (comp_envs en' specs d).
Proof.
  intros He Hs. unfold comp_envs. eapply rel2_bind; [apply rel2_ask_bfs|]. intros bfs bfs' ->.
  eapply rel2_bind with (Q := Forall2 (fun w w' => bvr w w' /\ map fst w ++ vs = out)).
  - destruct bfs'.
    + apply (rel2_comp_bfs en en' vs io d He specs [] [[]] [[]] out); [exact Hs|]. constructor; [split; [constructor | reflexivity] | constructor].
    + apply (rel2_comp_dfs en en' vs io d He specs [] [] out); [exact Hs | constructor].
  - intros ws ws' Hws. apply rel2_ret. induction Hws as [|w w' r r' [Hb Hn] _ IH]; simpl; constructor; [|exact IH].
    unfold env_rel2. rewrite <- Hn. apply erel_vars; assumption.
Qed.

Lemma rel2_build_comp_fields locals vs0 out io name plus body d :
  closed out io name ->
  Forall (fun p => closed (map fst locals ++ out) true (snd p)) locals ->
  closed (map fst locals ++ out) true body ->
  forall envs envs' acc acc', Forall2 (env_rel2 out io) envs envs' -> Forall2 (fr locals vs0) acc acc' ->
  rel2 (Forall2 (fr locals vs0)) (build_comp_fields envs name plus body acc d) (build_comp_fields envs' name plus body acc' d).
Proof.
  intros Hn Hl Hb envs envs' acc acc' Henvs. revert acc acc'. induction Henvs as [|e e' r r' He _ IH]; intros acc acc' Hacc; simpl.
  - apply rel2_ret. exact Hacc.
  - eapply rel2_bind; [eapply rel2_eval; [exact He | exact Hn]|]. intros v v' Hv.
    eapply rel2_bind; [apply rel2_field_name_of; exact Hv|]. intros on on' ->.
    eapply rel2_bind; [apply rel2_add_field; [exact Hacc|]|].
    { intros s. econstructor; [exact He | split; assumption]. }
    intros; apply IH; assumption.
Qed.

End DeadSim.

#[global] Hint Constructors vrel trel Forall2 : rel.
#[global] Hint Resolve Forall2_app : rel.
#[global] Hint Extern 1 (@eq _ _ _) => reflexivity : rel.
#[global] Hint Resolve rel2_err rel2_kind rel2_unsupported rel2_argtype rel2_panic rel2_check_num rel2_emit rel2_ask_bfs
  rel2_ask_ts_tail rel2_enter rel2_eval rel2_forceT rel2_apply rel2_applyf rel2_field_at rel2_equals
  rel2_compare rel2_manifest rel2_render_m rel2_to_string rel2_un_op rel2_num_bin rel2_add_vals rel2_bin_op
  rel2_run_asserts rel2_missing_field rel2_get_field rel2_do_field rel2_super_field rel2_field_name_of : rel2.

(* [r2_step] again: a tactic defined in a section ends with it *)
Ltac r2_step :=
  match goal with
  | |- rel2 _ _ _ _ (ret _) (ret _) => apply rel2_ret; try solve [eauto with rel]
  | |- rel2 _ _ _ _ (bind _ _) (bind _ _) =>
      first [ eapply rel2_bind; [ solve [eauto with rel2 rel] | intros ? ? ?; subst ]
            | eapply rel2_bind with (Q := eq); [ | intros ? ? ?; subst ] ]
  | H : vrel _ _ _ ?v ?v' |- rel2 _ _ _ _ (match ?v with _ => _ end) (match ?v' with _ => _ end) => destruct H
  | H : Forall2 _ ?l ?l' |- rel2 _ _ _ _ (match ?l with _ => _ end) (match ?l' with _ => _ end) => destruct H
  | |- rel2 _ _ _ _ (match ?v with _ => _ end) (match ?v with _ => _ end) => first [ is_var v; destruct v | destruct v eqn:? ]
  | |- rel2 _ _ _ _ (if ?b then _ else _) (if ?b then _ else _) => destruct b eqn:?
  | |- rel2 _ _ _ _ _ _ => solve [eauto with rel2 rel]
  end.
Ltac r2_tac := repeat r2_step.
