(* Proofs/Radix_proofs.v — facts about Model/Radix.v *)
From RJ Require Import Base.Outcome Base.F64 Model.Radix Proofs.Radix_float_proofs.
From Coq Require Import Lia Floats.SpecFloat.
Local Open Scope N_scope.

(* the function as it stood in the snapshot: two refutations *)

Definition rep (c : N) (k : nat) : str := repeat c k.

(* "1" x 31 ++ U+00E9 : the byte slice at 32 falls inside the two-byte character *)
Definition w_panic : str := rep 49 31 ++ [233].

Lemma radix_orig_panics :
  parse_num_radix_orig 16 w_panic = Panic "mod.rs:parse_num_radix:byte index is not a char boundary".
Proof. vm_compute. reflexivity. Qed.

(* 10000000000002 8 0^17 1 : 33 hexadecimal digits; the integer lies just above the
   midpoint between 0x1.0000000000002p+128 and 0x1.0000000000003p+128 *)
Definition w_tie : str :=
  [49] ++ rep 48 12 ++ [50] ++ [56] ++ rep 48 17 ++ [49].

Definition hex_value (s : str) : N :=
  fold_left (fun acc c => match to_digit 16 c with Some d => acc * 16 + d | None => acc end) s 0.

Lemma radix_orig_misrounds :
  parse_num_radix_orig 16 w_tie = Ok (f_of_bits 0x47f0000000000002) /\
  f_of_N (hex_value w_tie) = f_of_bits 0x47f0000000000003.
Proof. vm_compute. split; reflexivity. Qed.

(* the function as it stands now *)

Definition valid (radix c : N) : Prop := to_digit radix c <> None.

(* the integer denoted by a string of valid digits (most significant first) *)
Fixpoint value_acc (radix : N) (s : str) (acc : N) : N :=
  match s with
  | [] => acc
  | c :: r => match to_digit radix c with
              | Some d => value_acc radix r (acc * radix + d)
              | None => acc
              end
  end.
Definition value (radix : N) (s : str) : N := value_acc radix s 0.

Lemma to_digit_lt radix c d : to_digit radix c = Some d -> d < radix.
Proof.
  unfold to_digit.
  destruct (if (48 <=? c) && (c <=? 57) then Some (c - 48)
            else if (97 <=? c) && (c <=? 122) then Some (c - 97 + 10)
            else if (65 <=? c) && (c <=? 90) then Some (c - 65 + 10) else None) as [v|]; [|discriminate].
  destruct (v <? radix) eqn:E; [|discriminate]. intros H. injection H as <-. now apply N.ltb_lt.
Qed.

Lemma radix_pow_pos radix n : 0 < radix -> 0 < radix ^ n.
Proof. intros H. apply N.neq_0_lt_0, N.pow_nonzero. lia. Qed.

Lemma valid_cons radix c r : Forall (valid radix) (c :: r) ->
  exists d, to_digit radix c = Some d /\ d < radix /\ Forall (valid radix) r.
Proof.
  intros H. inversion H as [|? ? Hc Hr]; subst. unfold valid in Hc.
  destruct (to_digit radix c) as [d|] eqn:E; [|contradiction].
  exists d. split; [reflexivity|]. split; [exact (to_digit_lt _ _ _ E)|exact Hr].
Qed.

Lemma value_acc_lin radix : 0 < radix -> forall s acc, Forall (valid radix) s ->
  value_acc radix s acc = acc * radix ^ N.of_nat (length s) + value radix s /\
  value radix s < radix ^ N.of_nat (length s).
Proof.
  intros Hr. induction s as [|c r IH]; intros acc Hv.
  - cbn. split; lia.
  - destruct (valid_cons _ _ _ Hv) as (d & Ed & Hd & Hr'). unfold value. cbn [value_acc length]. rewrite Ed.
    destruct (IH (acc * radix + d) Hr') as [E1 B1]. destruct (IH (0 * radix + d) Hr') as [E2 _].
    rewrite E1, E2. rewrite Nat2N.inj_succ, N.pow_succ_r'. split; [lia|].
    pose proof (radix_pow_pos radix (N.of_nat (length r)) Hr). nia.
Qed.

(* while the bound holds the first loop accumulates exactly *)
Lemma acc_u128_ok radix : 0 < radix -> forall s acc,
  Forall (valid radix) s -> (acc + 1) * radix ^ N.of_nat (length s) <= u128_lim ->
  acc_u128 radix s acc = Ok (value_acc radix s acc).
Proof.
  intros Hr. induction s as [|c r IH]; intros acc Hv Hb; [reflexivity|].
  destruct (valid_cons _ _ _ Hv) as (d & Ed & Hd & Hr'). cbn [acc_u128 value_acc]. rewrite Ed.
  cbn [length] in Hb. rewrite Nat2N.inj_succ, N.pow_succ_r' in Hb.
  assert (Hstep : (acc * radix + d + 1) * radix ^ N.of_nat (length r) <= (acc + 1) * (radix * radix ^ N.of_nat (length r))).
  { rewrite N.mul_assoc. apply N.mul_le_mono_r. lia. }
  pose proof (radix_pow_pos radix (N.of_nat (length r)) Hr) as Hpos.
  replace (u128_lim <=? acc * radix + d) with false by (symmetry; apply N.leb_gt; nia).
  apply IH; [exact Hr'|lia].
Qed.

(* a string is all digits, or splits at its first character that is not one *)
Lemma first_invalid radix u : Forall (valid radix) u \/
  exists pre x post, u = pre ++ x :: post /\ Forall (valid radix) pre /\ to_digit radix x = None.
Proof.
  induction u as [|x u IH]; [left; constructor|].
  destruct (to_digit radix x) eqn:E; [|right; exists [], x, u; repeat split; [constructor|exact E]].
  assert (Hx : valid radix x) by (unfold valid; congruence).
  destruct IH as [IH|(pre & y & post & -> & Hp & Hy)]; [left; constructor; assumption|].
  right. exists (x :: pre), y, post. repeat split; [constructor|]; assumption.
Qed.

Lemma first_invalid_unique radix : forall pre1 x1 post1 pre2 x2 post2,
  pre1 ++ x1 :: post1 = pre2 ++ x2 :: post2 ->
  Forall (valid radix) pre1 -> to_digit radix x1 = None ->
  Forall (valid radix) pre2 -> to_digit radix x2 = None -> x1 = x2.
Proof.
  induction pre1 as [|a pre1 IH]; intros x1 post1 [|b pre2] x2 post2 E H1 Hx1 H2 Hx2;
    injection E as -> E.
  - reflexivity.
  - inversion H2 as [|? ? Hb _]; subst. contradiction.
  - inversion H1 as [|? ? Ha _]; subst. contradiction.
  - inversion H1; inversion H2; subst. eapply IH; eauto.
Qed.

Lemma acc_u128_app radix s1 s2 : forall acc,
  acc_u128 radix (s1 ++ s2) acc = obind (acc_u128 radix s1 acc) (acc_u128 radix s2).
Proof.
  induction s1 as [|c r IH]; intros acc; [reflexivity|]. cbn [app acc_u128].
  destruct (to_digit radix c); [|reflexivity]. destruct (u128_lim <=? _); [reflexivity|apply IH].
Qed.

Lemma scan_rest_app radix s1 s2 : forall extra sticky,
  scan_rest radix (s1 ++ s2) extra sticky =
  obind (scan_rest radix s1 extra sticky) (fun es => scan_rest radix s2 (fst es) (snd es)).
Proof.
  induction s1 as [|c r IH]; intros extra sticky; [reflexivity|]. cbn [app scan_rest].
  destruct (to_digit radix c); [apply IH|reflexivity].
Qed.

(* the digits after the first chunk: counted, and the sticky flag says whether they denote 0 *)
Lemma scan_rest_spec radix : 0 < radix -> forall s extra sticky, Forall (valid radix) s ->
  scan_rest radix s extra sticky = Ok ((extra + length s)%nat, (sticky || negb (value radix s =? 0))%bool).
Proof.
  intros Hr. induction s as [|c r IH]; intros extra sticky Hv.
  - cbn. rewrite Nat.add_0_r, orb_false_r. reflexivity.
  - destruct (valid_cons _ _ _ Hv) as (d & Ed & _ & Hr'). cbn [scan_rest]. rewrite Ed.
    rewrite IH by assumption. cbn [length]. f_equal. f_equal; [lia|].
    unfold value at 2. cbn [value_acc]. rewrite Ed.
    destruct (value_acc_lin radix Hr r (0 * radix + d) Hr') as [E B]. rewrite E.
    pose proof (radix_pow_pos radix (N.of_nat (length r)) Hr) as P.
    rewrite <- orb_assoc. f_equal.
    destruct (d =? 0) eqn:E0.
    + apply N.eqb_eq in E0. subst d. cbn [negb orb].
      replace ((0 * radix + 0) * radix ^ N.of_nat (length r) + value radix r) with (value radix r) by lia. reflexivity.
    + apply N.eqb_neq in E0. cbn [negb orb]. symmetry. apply negb_true_iff. apply N.eqb_neq.
      assert (1 <= d) by lia. nia.
Qed.

Lemma scan_rest_invalid radix pre c post extra sticky : 0 < radix ->
  Forall (valid radix) pre -> to_digit radix c = None ->
  scan_rest radix (pre ++ c :: post) extra sticky = Err (RInvalidDigit c).
Proof.
  intros Hr Hv Hc. rewrite scan_rest_app, (scan_rest_spec radix Hr pre extra sticky Hv).
  cbn [obind scan_rest fst snd]. now rewrite Hc.
Qed.

Lemma split_chars_app s n : fst (split_chars s n) ++ snd (split_chars s n) = s.
Proof.
  revert s. induction n as [|n IH]; intros s; [destruct s; reflexivity|].
  destruct s as [|c r]; [reflexivity|]. cbn [split_chars fst snd app]. now rewrite IH.
Qed.

Lemma split_chars_length s n : (length (fst (split_chars s n)) <= n)%nat.
Proof.
  revert s. induction n as [|n IH]; intros s; [destruct s; cbn; lia|].
  destruct s as [|c r]; [cbn; lia|]. cbn [split_chars fst length]. specialize (IH r). lia.
Qed.

Lemma split_chars_short s n : (length s <= n)%nat -> split_chars s n = (s, []).
Proof.
  revert s. induction n as [|n IH]; intros s H.
  - destruct s; [reflexivity|cbn in H; lia].
  - destruct s as [|c r]; [reflexivity|]. cbn [split_chars]. rewrite IH by (cbn in H; lia). reflexivity.
Qed.

Definition radix_ok (radix : N) : Prop := radix = 8 \/ radix = 16.

(* max_digits_128 digits fit in a u128 *)
Lemma chunk_fits radix (u : str) : radix_ok radix -> (length u <= N.to_nat (max_digits_128 radix))%nat ->
  (0 + 1) * radix ^ N.of_nat (length u) <= u128_lim.
Proof.
  intros Hr Hl. rewrite N.add_0_l, N.mul_1_l.
  transitivity (radix ^ max_digits_128 radix); [|destruct Hr as [->| ->]; vm_compute; discriminate].
  apply N.pow_le_mono_r; [destruct Hr as [->| ->]; discriminate|lia].
Qed.

Lemma first_chunk_ok radix s : radix_ok radix -> Forall (valid radix) s ->
  (length s <= N.to_nat (max_digits_128 radix))%nat ->
  acc_u128 radix s 0 = Ok (value radix s) /\ value radix s < radix ^ N.of_nat (length s).
Proof.
  intros Hr Hv Hl.
  assert (Hpos : 0 < radix) by (destruct Hr as [->| ->]; reflexivity).
  split; [exact (acc_u128_ok radix Hpos s 0 Hv (chunk_fits radix s Hr Hl))|].
  apply (value_acc_lin radix Hpos s 0 Hv).
Qed.

(* the two outcomes: every character is a digit and the result is a double or Overflow,
   or the first character that is not a digit is reported *)
Lemma parse_num_radix_cases radix s : radix_ok radix -> s <> [] ->
  (Forall (valid radix) (trim_zeros s) /\
   exists r, parse_num_radix radix s = if f_is_finite r then Ok r else Err ROverflow) \/
  (exists pre c post, trim_zeros s = pre ++ c :: post /\ Forall (valid radix) pre /\
     to_digit radix c = None /\ parse_num_radix radix s = Err (RInvalidDigit c)).
Proof.
  intros Hr Hs. unfold parse_num_radix. destruct s as [|c0 s0]; [contradiction|].
  assert (Hpos : 0 < radix) by (destruct Hr as [->| ->]; reflexivity).
  set (t := trim_zeros (c0 :: s0)). set (k := N.to_nat (max_digits_128 radix)).
  pose proof (split_chars_app t k) as Happ. pose proof (split_chars_length t k) as Hlen.
  set (hd := fst (split_chars t k)) in *. set (tl := snd (split_chars t k)) in *.
  destruct (first_invalid radix hd) as [Hhd|(pre & x & post & Ehd & Hpre & Hx)].
  - destruct (first_chunk_ok radix hd Hr Hhd Hlen) as [E _]. rewrite E. cbn [obind].
    destruct (first_invalid radix tl) as [Htl|(pre & x & post & Etl & Hpre & Hx)].
    + left. split; [rewrite <- Happ; apply Forall_app; split; assumption|].
      rewrite (scan_rest_spec radix Hpos tl 0 false Htl). eexists. reflexivity.
    + right. exists (hd ++ pre), x, post. rewrite <- Happ, Etl, app_assoc.
      split; [reflexivity|]. split; [apply Forall_app; split; assumption|]. split; [exact Hx|].
      rewrite scan_rest_invalid by assumption. reflexivity.
  - right. exists pre, x, (post ++ tl). rewrite <- Happ, Ehd, <- app_assoc.
    split; [reflexivity|]. split; [exact Hpre|]. split; [exact Hx|].
    rewrite acc_u128_app, (acc_u128_ok radix Hpos pre 0 Hpre).
    + cbn [obind acc_u128]. rewrite Hx. reflexivity.
    + apply chunk_fits; [exact Hr|]. rewrite Ehd, app_length in Hlen. fold k. lia.
Qed.

(* no input makes the function panic *)
Theorem radix_no_panic : forall radix s, radix_ok radix -> is_panic (parse_num_radix radix s) = false.
Proof.
  intros radix s Hr. destruct s as [|c0 s0]; [reflexivity|].
  destruct (parse_num_radix_cases radix (c0 :: s0) Hr ltac:(discriminate))
    as [(_ & r & ->)|(_ & c & _ & _ & _ & _ & ->)]; [destruct (f_is_finite r)|]; reflexivity.
Qed.

(* an invalid digit is reported exactly when there is one, and it is the first one *)
Theorem radix_invalid_digit_iff : forall radix s c, radix_ok radix -> s <> [] ->
  (parse_num_radix radix s = Err (RInvalidDigit c) <->
   exists pre post, trim_zeros s = pre ++ c :: post /\ Forall (valid radix) pre /\ to_digit radix c = None).
Proof.
  intros radix s c Hr Hs.
  destruct (parse_num_radix_cases radix s Hr Hs) as [(Hv & r & ->)|(pre & x & post & Et & Hpre & Hx & ->)].
  - split; [destruct (f_is_finite r); discriminate|].
    intros (pre & post & Et & _ & Hc). exfalso. rewrite Et in Hv.
    apply Forall_app in Hv. destruct Hv as [_ Hv]. inversion Hv as [|? ? Hcv _]. contradiction.
  - split.
    + intros H. injection H as <-. exists pre, post. auto.
    + intros (pre2 & post2 & Et2 & Hp2 & Hc). rewrite Et in Et2.
      rewrite (first_invalid_unique radix _ _ _ _ _ _ Et2 Hpre Hx Hp2 Hc). reflexivity.
Qed.

Lemma f_of_N_finite_small n : n < 2 ^ 128 -> f_is_finite (f_of_N n) = true.
Proof.
  intros H. unfold f_of_N. apply f_of_Z_finite_small. rewrite Z.abs_eq by lia.
  change (2 ^ 128)%Z with (Z.of_N (2 ^ 128)). lia.
Qed.

(* the exact path: at most 32 hexadecimal / 42 octal significant digits *)
Theorem radix_value_exact : forall radix s, radix_ok radix -> s <> [] ->
  Forall (valid radix) (trim_zeros s) ->
  (length (trim_zeros s) <= N.to_nat (max_digits_128 radix))%nat ->
  parse_num_radix radix s = Ok (f_of_N (value radix (trim_zeros s))) /\
  value radix (trim_zeros s) < 2 ^ 128.
Proof.
  intros radix s Hr Hs Hv Hl. unfold parse_num_radix. destruct s as [|c0 s0]; [contradiction|].
  set (t := trim_zeros (c0 :: s0)) in *.
  rewrite (split_chars_short t _ Hl). cbn [fst snd].
  destruct (first_chunk_ok radix t Hr Hv Hl) as [E B]. rewrite E. cbn [obind scan_rest fst snd scale].
  assert (B128 : value radix t < 2 ^ 128).
  { pose proof (chunk_fits radix t Hr Hl) as F. unfold u128_lim in F. lia. }
  split; [|exact B128].
  rewrite (f_of_N_finite_small _ B128). reflexivity.
Qed.

