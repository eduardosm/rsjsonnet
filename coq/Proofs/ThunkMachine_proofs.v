(* Proofs/ThunkMachine_proofs.v — the thunk machine of Model/ThunkMachine.v against a
   memo-free, limit-free reading of its store, and the interner of Model/Interner.v *)
From RJ Require Import Base.Outcome Model.ThunkMachine Model.Interner.
From Coq Require Import Lia.
Local Open Scope N_scope.

Lemma nthN_nth_error {A} (l : list A) i : nthN l i = nth_error l (N.to_nat i).
Proof.
  unfold nthN. destruct (N.leb_spec (N.of_nat (length l)) i); [|reflexivity].
  symmetry. apply nth_error_None. lia.
Qed.

Lemma set_nth_length {A} (l : list A) i x : length (set_nth l i x) = length l.
Proof. revert i; induction l as [|h t IH]; intros [|i]; simpl; auto. Qed.

Lemma nth_error_set_nth {A} (l : list A) i j x :
  nth_error (set_nth l i x) j =
  if (j =? i)%nat then option_map (fun _ => x) (nth_error l i) else nth_error l j.
Proof.
  revert i j; induction l as [|h t IH]; intros [|i] [|j]; simpl; try reflexivity; [|apply IH].
  destruct (j =? i)%nat; reflexivity.
Qed.

Lemma setN_length {A} (l : list A) i x : length (setN l i x) = length l.
Proof. unfold setN. destruct (_ <=? _); auto using set_nth_length. Qed.

Lemma nthN_setN {A} (l : list A) i j x :
  nthN (setN l i x) j = if j =? i then option_map (fun _ => x) (nthN l i) else nthN l j.
Proof.
  unfold setN. destruct (N.of_nat (length l) <=? i) eqn:E.
  - destruct (N.eqb_spec j i) as [->|_]; [|reflexivity]. unfold nthN. rewrite E. reflexivity.
  - rewrite !nthN_nth_error, nth_error_set_nth. destruct (N.eqb_spec j i) as [->|Hne].
    + rewrite Nat.eqb_refl. reflexivity.
    + rewrite (proj2 (Nat.eqb_neq _ _)); [reflexivity|]. intros C. apply Hne, N2Nat.inj, C.
Qed.

(* what the machine reads of a store; the meaning and the invariant below speak of stores
   through these alone *)
Definition cstate (s : store) (id : N) : option tstate := option_map st (nthN (cells s) id).
Definition cowner (s : store) (id : N) : option N := option_map owner (nthN (cells s) id).
Definition gcond (s : store) (g : N) : option (option N) := option_map cond (nthN (guards s) g).
Definition gchk (s : store) (g : N) : option bool := option_map checked (nthN (guards s) g).

Lemma cowner_of s id c : nthN (cells s) id = Some c -> cowner s id = Some (owner c).
Proof. intros H. unfold cowner. rewrite H. reflexivity. Qed.
Lemma cowner_none s id : nthN (cells s) id = None <-> cowner s id = None.
Proof. unfold cowner. destruct (nthN (cells s) id); simpl; split; congruence. Qed.
Lemma gcond_none s g : nthN (guards s) g = None <-> gcond s g = None.
Proof. unfold gcond. destruct (nthN (guards s) g); simpl; split; congruence. Qed.

Lemma guards_set_state s id t : guards (set_state s id t) = guards s.
Proof. unfold set_state. destruct (nthN (cells s) id); reflexivity. Qed.

Lemma cells_set_checked s g b : cells (set_checked s g b) = cells s.
Proof. unfold set_checked. destruct (nthN (guards s) g); reflexivity. Qed.

Lemma nthN_cells_set_state s id t j : nthN (cells (set_state s id t)) j =
  if j =? id then option_map (fun c => {| owner := owner c; st := t |}) (nthN (cells s) id)
  else nthN (cells s) j.
Proof.
  unfold set_state. destruct (nthN (cells s) id) as [c|] eqn:E; simpl.
  - rewrite nthN_setN, E. reflexivity.
  - destruct (N.eqb_spec j id) as [->|_]; [exact E | reflexivity].
Qed.

Lemma nthN_guards_set_checked s g b j : nthN (guards (set_checked s g b)) j =
  if j =? g then option_map (fun gd => {| layers := layers gd; checked := b |}) (nthN (guards s) g)
  else nthN (guards s) j.
Proof.
  unfold set_checked. destruct (nthN (guards s) g) as [gd|] eqn:E; simpl.
  - rewrite nthN_setN, E. reflexivity.
  - destruct (N.eqb_spec j g) as [->|_]; [exact E | reflexivity].
Qed.

Lemma cstate_set_same s id t : cstate s id <> None -> cstate (set_state s id t) id = Some t.
Proof.
  unfold cstate. rewrite nthN_cells_set_state, N.eqb_refl.
  destruct (nthN (cells s) id); simpl; congruence.
Qed.

Lemma cstate_set_other s id id' t : id' <> id -> cstate (set_state s id t) id' = cstate s id'.
Proof. intros H. unfold cstate. rewrite nthN_cells_set_state, (proj2 (N.eqb_neq _ _) H). reflexivity. Qed.

Lemma cowner_set_state s id t id' : cowner (set_state s id t) id' = cowner s id'.
Proof.
  unfold cowner. rewrite nthN_cells_set_state.
  destruct (N.eqb_spec id' id) as [->|_]; [destruct (nthN (cells s) id)|]; reflexivity.
Qed.

Lemma gcond_set_checked s g b g' : gcond (set_checked s g b) g' = gcond s g'.
Proof.
  unfold gcond. rewrite nthN_guards_set_checked.
  destruct (N.eqb_spec g' g) as [->|_]; [destruct (nthN (guards s) g)|]; reflexivity.
Qed.

Lemma gchk_set_checked s g b g' : gchk (set_checked s g b) g' =
  if g' =? g then option_map (fun _ => b) (gchk s g) else gchk s g'.
Proof.
  unfold gchk. rewrite nthN_guards_set_checked.
  destruct (g' =? g); [destruct (nthN (guards s) g)|]; reflexivity.
Qed.

(* what check_guard answers for object [g]: no such object, go on, or the assertion that fails *)
Definition verdict (s : store) (g : N) : option (option N) :=
  match gcond s g with
  | None => None
  | Some c => Some (match gchk s g with Some true => None | _ => c end)
  end.

Lemma verdict_set_state s id t g : verdict (set_state s id t) g = verdict s g.
Proof. unfold verdict, gcond, gchk. now rewrite guards_set_state. Qed.

Lemma verdict_set_checked s g b g' : verdict (set_checked s g b) g' =
  if g' =? g then option_map (fun c => if b then None else c) (gcond s g) else verdict s g'.
Proof.
  unfold verdict. rewrite gcond_set_checked, gchk_set_checked.
  destruct (N.eqb_spec g' g) as [->|_]; [|reflexivity].
  unfold gcond, gchk. destruct (nthN (guards s) g); [|reflexivity]. simpl. now destruct b.
Qed.

(* check_object_asserts answers the verdict, touches no cell, and leaves every verdict as it
   was unless an assertion has failed and the flag is not put back *)
Lemma check_guard_verdict restore s g s1 o : check_guard restore s g = (s1, o) ->
  cells s1 = cells s /\
  o = match verdict s g with
      | None => Some (Panic "ThunkMachine:force:no such object")
      | Some None => None
      | Some (Some m) => Some (Err (EAssert m))
      end /\
  (restore = true \/ o = None -> forall g', verdict s1 g' = verdict s g').
Proof.
  unfold check_guard. destruct (nthN (guards s) g) as [gd|] eqn:E.
  2:{ intros [= <- <-]. unfold verdict, gcond. rewrite E. auto. }
  assert (G : gcond s g = Some (cond gd)) by (unfold gcond; now rewrite E).
  assert (V : verdict s g = Some (if checked gd then None else cond gd)).
  { unfold verdict, gchk. rewrite G, E. simpl. now destruct (checked gd). }
  rewrite V. revert G V. destruct (checked gd); [intros _ _ [= <- <-]; auto|].
  destruct (cond gd) as [m|]; intros G V [= <- <-].
  - split; [destruct restore; now rewrite !cells_set_checked|]. split; [reflexivity|].
    intros [->|[=]] g'. rewrite !verdict_set_checked, gcond_set_checked, G.
    destruct (N.eqb_spec g' g) as [->|_]; [now rewrite V|reflexivity].
  - split; [apply cells_set_checked|]. split; [reflexivity|].
    intros _ g'. rewrite verdict_set_checked, G.
    destruct (N.eqb_spec g' g) as [->|_]; [now rewrite V|reflexivity].
Qed.

Lemma do_thunk_cstate restore ev s id : do_thunk restore ev s id =
  match cstate s id with
  | None => (s, Panic "ThunkMachine:do_thunk:no such cell")
  | Some (Done v) => (s, Ok v)
  | Some InProgress => (s, Err EInfRec)
  | Some (Pending b) =>
      let '(s2, r) := ev (set_state s id InProgress) b in
      match r with
      | Ok v => (set_state s2 id (Done v), Ok v)
      | _ => ((if restore then set_state s2 id (Pending b) else s2), r)
      end
  end.
Proof. unfold do_thunk, cstate. destruct (nthN (cells s) id); reflexivity. Qed.

Lemma done_is_stable_req : forall restore s id c v limit,
  nthN (cells s) id = Some c -> st c = Done v ->
  run_req restore s (Eval limit id) = (s, RVal v) /\
  run_req restore s (Manifest limit id) = (s, RStr (digits v)).
Proof.
  intros restore s id c v limit Hn Hs. unfold run_req, do_thunk. rewrite Hn, Hs. split; reflexivity.
Qed.

(* The meaning of a store [s0]: evaluation without memoisation and without a frame limit. *)

Inductive task := TE (e : expr) | TC (id : N).

Definition not_ok (r : result) : Prop := match r with Ok _ => False | _ => True end.

Section Meaning.
  Variable s0 : store.

  (* the cells a successful evaluation goes through *)
  Inductive Needs : task -> N -> Prop :=
  | N_addl a b j : Needs (TE a) j -> Needs (TE (EAdd a b)) j
  | N_addr a b j : Needs (TE b) j -> Needs (TE (EAdd a b)) j
  | N_force id j : Needs (TC id) j -> Needs (TE (EForce id)) j
  | N_self id : Needs (TC id) id
  | N_pend id b j : cstate s0 id = Some (Pending b) -> Needs (TE b) j -> Needs (TC id) j.

  (* evaluation with the path [P] of cells under evaluation: every outcome but StackOverflow *)
  Inductive Den : list N -> task -> result -> Prop :=
  | D_const P n : Den P (TE (EConst n)) (Ok n)
  | D_fail P m : Den P (TE (EFail m)) (Err (EUser m))
  | D_add_l P a b r : Den P (TE a) r -> not_ok r -> Den P (TE (EAdd a b)) r
  | D_add P a b x rb : Den P (TE a) (Ok x) -> Den P (TE b) rb ->
      Den P (TE (EAdd a b)) (match rb with Ok y => Ok (x + y) | _ => rb end)
  | D_force_nocell P id : cowner s0 id = None ->
      Den P (TE (EForce id)) (Panic "ThunkMachine:force:no such cell")
  | D_force_noguard P id g : cowner s0 id = Some g -> verdict s0 g = None ->
      Den P (TE (EForce id)) (Panic "ThunkMachine:force:no such object")
  | D_force_assert P id g m : cowner s0 id = Some g -> verdict s0 g = Some (Some m) ->
      Den P (TE (EForce id)) (Err (EAssert m))
  | D_force P id g r : cowner s0 id = Some g -> verdict s0 g = Some None -> Den P (TC id) r ->
      Den P (TE (EForce id)) r
  | D_nocell P id : cstate s0 id = None -> Den P (TC id) (Panic "ThunkMachine:do_thunk:no such cell")
  | D_done P id v : cstate s0 id = Some (Done v) -> Den P (TC id) (Ok v)
  | D_inprog P id : cstate s0 id = Some InProgress -> Den P (TC id) (Err EInfRec)
  | D_cycle P id b : cstate s0 id = Some (Pending b) -> In id P -> Den P (TC id) (Err EInfRec)
  | D_pend P id b r : cstate s0 id = Some (Pending b) -> ~ In id P -> Den (id :: P) (TE b) r ->
      Den P (TC id) r.

  (* read backwards: the task and the lookups give the last rule; under an addition the
     left result does *)
  Lemma Den_inv P t r : Den P t r ->
    match t with
    | TE (EConst n) => r = Ok n
    | TE (EFail m) => r = Err (EUser m)
    | TE (EAdd a b) => exists ra, Den P (TE a) ra /\
        match ra with
        | Ok x => exists rb, Den P (TE b) rb /\ r = match rb with Ok y => Ok (x + y) | _ => rb end
        | _ => r = ra
        end
    | TE (EForce id) =>
        match cowner s0 id with
        | None => r = Panic "ThunkMachine:force:no such cell"
        | Some g =>
            match verdict s0 g with
            | None => r = Panic "ThunkMachine:force:no such object"
            | Some (Some m) => r = Err (EAssert m)
            | Some None => Den P (TC id) r
            end
        end
    | TC id =>
        match cstate s0 id with
        | None => r = Panic "ThunkMachine:do_thunk:no such cell"
        | Some (Done v) => r = Ok v
        | Some InProgress => r = Err EInfRec
        | Some (Pending b) => (In id P /\ r = Err EInfRec) \/ (~ In id P /\ Den (id :: P) (TE b) r)
        end
    end.
  Proof.
    destruct 1 as [P n|P m|P a b r Ha Hn|P a b x rb Ha Hb|P id Ho|P id g Ho Hg|P id g m Ho Hg
                  |P id g r Ho Hg Hd|P id Hs|P id v Hs|P id Hs|P id b Hs Hin|P id b r Hs Hn Hd]; simpl.
    5-8: rewrite Ho, ?Hg.
    9-13: rewrite Hs.
    1-2, 5-13: auto.
    - exists r. split; [exact Ha|]. destruct r; [contradiction | reflexivity..].
    - exists (Ok x). split; [exact Ha|]. exists rb. split; [exact Hb | reflexivity].
  Qed.

  Lemma Den_det : forall P t r, Den P t r -> forall r', Den P t r' -> r' = r.
  Proof.
    induction 1 as [P n|P m|P a b r _ IHa Hn|P a b x rb _ IHa _ IHb|P id Ho|P id g Ho Hg|P id g m Ho Hg
                   |P id g r Ho Hg _ IH|P id Hs|P id v Hs|P id Hs|P id b Hs Hin|P id b r Hs Hn _ IH];
      intros r' H'; apply Den_inv in H'; simpl in H'.
    5-8: rewrite Ho, ?Hg in H'.
    9-13: rewrite Hs in H'.
    1-2, 5-7, 9-11: exact H'.
    - destruct H' as [ra [Ha E]]. apply IHa in Ha. subst ra. destruct r; [contradiction | exact E..].
    - destruct H' as [ra [Ha E]]. apply IHa in Ha. subst ra.
      destruct E as [rb' [Hb ->]]. apply IHb in Hb. subst rb'. reflexivity.
    - exact (IH _ H').
    - destruct H' as [[_ E]|[Hn _]]; [exact E | contradiction].
    - destruct H' as [[Hin _]|[_ Hd]]; [contradiction | exact (IH _ Hd)].
  Qed.

  (* a successful evaluation goes through no cell of its path, except cells that hold a value
     in [s0]: a Pending one would have ended it with InfiniteRecursion *)
  Lemma Den_ok_path : forall P t v, Den P t (Ok v) -> forall j, Needs t j -> In j P ->
    exists w, cstate s0 j = Some (Done w).
  Proof.
    intros P t v H. remember (Ok v) as r eqn:E. revert v E.
    induction H as [| |P a b r _ _ Hn|P a b x rb _ IHa _ IHb| | | |P id g r _ _ _ IH| |P id v Hs| |
                   |P id b r Hs Hn _ IH];
      intros v0 E j HN Hin; try discriminate E.
    - inversion HN.
    - subst r. destruct Hn.
    - destruct rb; try discriminate E. inversion HN; subst; [eapply IHa|eapply IHb]; eauto.
    - inversion HN; subst. eapply IH; eauto.
    - inversion HN; subst; [eauto|congruence].
    - inversion HN as [| | | |? b' ? Hs' HN']; subst; [contradiction|].
      apply (IH _ eq_refl j); [congruence|now right].
  Qed.

  Lemma body_not_needs_self : forall P id b v, cstate s0 id = Some (Pending b) ->
    Den (id :: P) (TE b) (Ok v) -> ~ Needs (TE b) id.
  Proof.
    intros P id b v Hs Hd HN.
    destruct (Den_ok_path _ _ _ Hd id HN (or_introl eq_refl)) as [w Hw]. congruence.
  Qed.

  Lemma Den_repath : forall P t v, Den P t (Ok v) ->
    forall P', (forall j, Needs t j -> ~ In j P') -> Den P' t (Ok v).
  Proof.
    intros P t v H. remember (Ok v) as r eqn:E. revert v E.
    induction H as [P n| |P a b r _ _ Hn|P a b x rb _ IHa _ IHb| | | |P id g r Ho Hg _ IH| |P id v Hs| |
                   |P id b r Hs Hn Hd IH];
      intros v0 E P' HP; try discriminate E.
    - constructor.
    - subst r. destruct Hn.
    - destruct rb as [y| | |]; try discriminate E.
      apply (D_add P' a b x (Ok y)); [eapply IHa | eapply IHb]; try reflexivity;
        intros j Hj; apply HP; [apply N_addl | apply N_addr]; exact Hj.
    - apply (D_force P' id g _ Ho Hg). apply (IH _ E). intros j Hj. apply HP, N_force, Hj.
    - apply D_done, Hs.
    - apply (D_pend P' id b _ Hs); [apply HP, N_self|]. apply (IH _ E). intros j Hj [Hin|Hin].
      + subst. exact (body_not_needs_self _ _ _ _ Hs Hd Hj).
      + exact (HP j (N_pend _ _ _ Hs Hj) Hin).
  Qed.
End Meaning.

Section Sim.
  Variable s0 : store.
  Variable restore : bool.

  Definition is_done (s : store) (j : N) : Prop := exists w, cstate s j = Some (Done w).

  Definition DoneMono (s s' : store) : Prop :=
    forall j w, cstate s j = Some (Done w) -> cstate s' j = Some (Done w).

  Lemma DoneMono_refl s : DoneMono s s.
  Proof. intros j w H; exact H. Qed.
  Lemma DoneMono_trans a b c : DoneMono a b -> DoneMono b c -> DoneMono a c.
  Proof. intros H1 H2 j w H. apply H2, H1, H. Qed.
  Lemma is_done_mono s s' j : DoneMono s s' -> is_done s j -> is_done s' j.
  Proof. intros H [w Hw]. exists w. apply H, Hw. Qed.

  Lemma DoneMono_set_state s id t : (forall w, cstate s id <> Some (Done w)) -> DoneMono s (set_state s id t).
  Proof. intros H j w Hj. rewrite cstate_set_other; [exact Hj|]. intros ->. exact (H w Hj). Qed.

  (* a cell on the path [P] is under evaluation; any other is as in [s0], or holds the value
     its body has in [s0] and so do the cells that evaluation went through *)
  Definition cell_ok (P : list N) (s : store) (id : N) : Prop :=
    (In id P /\ cstate s id = Some InProgress /\ exists b, cstate s0 id = Some (Pending b))
    \/ (~ In id P /\
        (cstate s id = cstate s0 id
         \/ exists b v Q, cstate s0 id = Some (Pending b) /\ cstate s id = Some (Done v) /\
              Den s0 Q (TC id) (Ok v) /\ forall j, Needs s0 (TC id) j -> is_done s j)).

  (* a store reached from [s0] by the machine, while the cells of [P] are under evaluation *)
  Record Inv (P : list N) (s : store) : Prop := {
    inv_owner : forall id, cowner s id = cowner s0 id;
    inv_verdict : forall g, verdict s g = verdict s0 g;
    inv_cell : forall id, cell_ok P s id
  }.

  Lemma Inv_base : Inv [] s0.
  Proof. constructor; auto. intros id. right. split; [intros []|now left]. Qed.

  Lemma inv_path P s id : Inv P s -> In id P -> cstate s id = Some InProgress.
  Proof.
    intros HI Hin. destruct (inv_cell _ _ HI id) as [[_ [H _]]|[Hn _]]; [exact H|contradiction].
  Qed.

  Lemma inv_head P s id : Inv (id :: P) s -> cstate s id = Some InProgress.
  Proof. intros HI. apply (inv_path _ _ _ HI). now left. Qed.

  Lemma DoneMono_head P s id t : Inv (id :: P) s -> DoneMono s (set_state s id t).
  Proof. intros HI. apply DoneMono_set_state. rewrite (inv_head _ _ _ HI). discriminate. Qed.

  (* the machine writes one cell that is not Done, and that cell enters or leaves the path *)
  Lemma Inv_set_state P P' s id t : Inv P s ->
    (forall w, cstate s id <> Some (Done w)) ->
    P' = id :: P \/ P = id :: P' ->
    cell_ok P' (set_state s id t) id ->
    Inv P' (set_state s id t).
  Proof.
    intros HI Hnd HPP Hcell.
    assert (HP : forall id', id' <> id -> (In id' P' <-> In id' P))
      by (intros id' Hneq; destruct HPP as [->| ->]; simpl; intuition congruence).
    constructor.
    - intros id'. rewrite cowner_set_state. apply (inv_owner _ _ HI).
    - intros g. rewrite verdict_set_state. apply (inv_verdict _ _ HI).
    - intros id'. destruct (N.eq_dec id' id) as [->|Hneq]; [exact Hcell|].
      unfold cell_ok. rewrite cstate_set_other, (HP id' Hneq) by exact Hneq.
      destruct (inv_cell _ _ HI id') as [H|[Hn [H|[b' [v [h [H1 [H2 [H3 H4]]]]]]]]]; auto.
      right. split; [exact Hn|]. right. exists b', v, h. repeat split; auto.
      intros j HN. apply (is_done_mono s); [now apply DoneMono_set_state|auto].
  Qed.

  Lemma Inv_start P s id b : Inv P s ->
    cstate s id = Some (Pending b) -> cstate s0 id = Some (Pending b) ->
    Inv (id :: P) (set_state s id InProgress).
  Proof.
    intros HI Hs H0. apply (Inv_set_state P); [exact HI | congruence | now left |].
    left. rewrite cstate_set_same by congruence. split; [now left|eauto].
  Qed.

  Lemma needs_done_finish P s id b v : Inv (id :: P) s -> cstate s0 id = Some (Pending b) ->
    (forall j, Needs s0 (TE b) j -> is_done s j) ->
    forall j, Needs s0 (TC id) j -> is_done (set_state s id (Done v)) j.
  Proof.
    intros HI H0 Hcl j HN. inversion HN as [| | | |? b' ? Hb' HN']; subst.
    - exists v. apply cstate_set_same. rewrite (inv_head _ _ _ HI). discriminate.
    - apply (is_done_mono s); [exact (DoneMono_head _ _ _ _ HI) | apply Hcl; congruence].
  Qed.

  Lemma Inv_finish P s id b v : Inv (id :: P) s -> ~ In id P ->
    cstate s0 id = Some (Pending b) -> Den s0 (id :: P) (TE b) (Ok v) ->
    (forall j, Needs s0 (TE b) j -> is_done s j) ->
    Inv P (set_state s id (Done v)).
  Proof.
    intros HI HnP H0 Hv Hcl. pose proof (inv_head _ _ _ HI) as Hip.
    apply (Inv_set_state (id :: P)); [exact HI | congruence | now right |].
    right. split; [exact HnP|]. right. exists b, v, P. rewrite cstate_set_same by congruence. repeat split.
    - exact H0.
    - exact (D_pend s0 P id b _ H0 HnP Hv).
    - exact (needs_done_finish _ _ _ _ v HI H0 Hcl).
  Qed.

  Lemma Inv_restore P s id b : Inv (id :: P) s -> ~ In id P ->
    cstate s0 id = Some (Pending b) -> Inv P (set_state s id (Pending b)).
  Proof.
    intros HI HnP H0. pose proof (inv_head _ _ _ HI) as Hip.
    apply (Inv_set_state (id :: P)); [exact HI | congruence | now right |].
    right. split; [exact HnP|]. left. rewrite cstate_set_same; congruence.
  Qed.

  Lemma Inv_same_cells P s s' : Inv P s -> cells s' = cells s ->
    (forall g, verdict s' g = verdict s g) -> Inv P s'.
  Proof.
    intros HI Hc Hg.
    assert (Hcs : forall id, cstate s' id = cstate s id) by (intros; unfold cstate; rewrite Hc; reflexivity).
    constructor.
    - intros id. unfold cowner. rewrite Hc. apply (inv_owner _ _ HI).
    - intros g. rewrite Hg. apply (inv_verdict _ _ HI).
    - intros id. unfold cell_ok. rewrite Hcs.
      destruct (inv_cell _ _ HI id) as [H|[Hn [H|[b' [v' [h' [H1 [H2 [H3 H4]]]]]]]]]; auto.
      right. split; [exact Hn|]. right. exists b', v', h'. repeat split; auto.
      intros j HN. destruct (H4 j HN) as [w Hw]. exists w. rewrite Hcs. exact Hw.
  Qed.

  Lemma check_guard_spec P s g s1 o : Inv P s -> check_guard restore s g = (s1, o) ->
    DoneMono s s1 /\
    match o with
    | None => Inv P s1 /\ verdict s0 g = Some None
    | Some e => (restore = true -> Inv P s1) /\ not_ok e /\
        forall id, cowner s0 id = Some g -> Den s0 P (TE (EForce id)) e
    end.
  Proof.
    intros HI H. apply check_guard_verdict in H as [Hc [Ho Hv]]. rewrite (inv_verdict _ _ HI) in Ho.
    assert (HI1 : restore = true \/ o = None -> Inv P s1)
      by (intros C; exact (Inv_same_cells P s s1 HI Hc (Hv C))).
    split; [intros j w; unfold cstate; now rewrite Hc|].
    destruct (verdict s0 g) as [[m|]|] eqn:V; subst o.
    - split; [auto|]. split; [exact I|]. intros id Hid. exact (D_force_assert s0 P id g m Hid V).
    - split; [auto|reflexivity].
    - split; [auto|]. split; [exact I|]. intros id Hid. exact (D_force_noguard s0 P id g Hid V).
  Qed.

  Definition spec_out (P : list N) (t : task) (s s' : store) (r : result) : Prop :=
    DoneMono s s' /\
    ((restore = true \/ exists v, r = Ok v) -> Inv P s') /\
    (r = Err EOverflow \/ Den s0 P t r) /\
    (forall v, r = Ok v -> forall j, Needs s0 t j -> is_done s' j).

  Definition ev_spec (ev : store -> expr -> store * result) : Prop :=
    forall P e s s' r, Inv P s -> ev s e = (s', r) -> spec_out P (TE e) s s' r.
  Definition frc_spec (frc : store -> N -> store * result) : Prop :=
    forall P id s s' r, Inv P s -> frc s id = (s', r) -> spec_out P (TE (EForce id)) s s' r.

  Lemma spec_out_not_ok P t s s' r : DoneMono s s' -> not_ok r -> (restore = true -> Inv P s') ->
    (r = Err EOverflow \/ Den s0 P t r) -> spec_out P t s s' r.
  Proof.
    intros Hm Hn Hi Hd. split; [exact Hm|]. split; [|split; [exact Hd|]].
    - intros [Hr|[v ->]]; [exact (Hi Hr) | destruct Hn].
    - intros v ->. destruct Hn.
  Qed.

  Lemma spec_out_same P t s r : Inv P s -> not_ok r -> (r = Err EOverflow \/ Den s0 P t r) ->
    spec_out P t s s r.
  Proof. intros HI Hn HD. apply spec_out_not_ok; [apply DoneMono_refl | exact Hn | intros _; exact HI | exact HD]. Qed.

  Lemma spec_out_pre P t s1 s s' r : DoneMono s1 s -> spec_out P t s s' r -> spec_out P t s1 s' r.
  Proof. intros H [Hm R]. split; [eapply DoneMono_trans; eassumption|exact R]. Qed.

  Lemma spec_out_fail P t t' s s' r : spec_out P t s s' r -> not_ok r ->
    (Den s0 P t r -> Den s0 P t' r) -> spec_out P t' s s' r.
  Proof.
    intros [Hm [Hi [Hd _]]] Hn HD. apply spec_out_not_ok; [exact Hm | exact Hn | auto |].
    destruct Hd as [Hd|Hd]; [now left|right; now apply HD].
  Qed.

  Lemma eval_with_spec frc gas : frc_spec frc -> ev_spec (eval_with frc gas).
  Proof.
    intros Hf P e. revert P. induction e as [n|m|id|a IHa b IHb]; intros P s s' r HI H; simpl in H.
    - inversion H; subst. split; [apply DoneMono_refl|]. split; [intros _; exact HI|].
      split; [right; constructor|]. intros v _ j HN. inversion HN.
    - destruct gas; inversion H; subst; apply spec_out_same; simpl; auto. right; constructor.
    - eapply Hf; eassumption.
    - destruct (eval_with frc gas s a) as [s1 ra] eqn:Ea.
      pose proof (IHa P s s1 ra HI Ea) as Sa.
      destruct ra as [x| | |].
      2-4: inversion H; subst; apply (spec_out_fail P (TE a)); [exact Sa|exact I|intros D; now apply D_add_l].
      destruct Sa as [Hm1 [Hi1 [[Hd1|Hd1] Hn1]]]; [discriminate Hd1|].
      assert (HI1 : Inv P s1) by (apply Hi1; right; eexists; reflexivity).
      destruct (eval_with frc gas s1 b) as [s2 rb] eqn:Eb.
      pose proof (IHb P s1 s2 rb HI1 Eb) as Sb.
      destruct rb as [y| | |].
      2-4: inversion H; subst; apply (spec_out_fail P (TE b));
           [exact (spec_out_pre _ _ _ _ _ _ Hm1 Sb) | exact I | intros D; exact (D_add s0 P a b x _ Hd1 D)].
      destruct Sb as [Hm2 [Hi2 [[Hd2|Hd2] Hn2]]]; [discriminate Hd2|].
      inversion H; subst. split; [exact (DoneMono_trans _ _ _ Hm1 Hm2)|].
      split; [intros _; apply Hi2; right; eexists; reflexivity|].
      split; [right; exact (D_add s0 P a b x _ Hd1 Hd2)|].
      intros v _ j HN. inversion HN; subst.
      + apply (is_done_mono s1); [exact Hm2 | now apply (Hn1 x)].
      + now apply (Hn2 y).
  Qed.

  Lemma do_thunk_spec ev : ev_spec ev -> forall P id s s' r, Inv P s ->
    do_thunk restore ev s id = (s', r) -> spec_out P (TC id) s s' r.
  Proof.
    intros Hev P id s s' r HI H. rewrite do_thunk_cstate in H.
    destruct (inv_cell _ _ HI id) as [[Hin [Hs [b H0]]]|[HnP [H0|[b [v [Q [H0 [Hs [HD Hcl]]]]]]]]].
    - rewrite Hs in H. inversion H; subst.
      apply spec_out_same; [exact HI | exact I | right; exact (D_cycle s0 P id b H0 Hin)].
    - destruct (cstate s id) as [[b| |v]|] eqn:Hs; symmetry in H0.
      + (* Pending: the body runs with [id] on the path *)
        destruct (ev (set_state s id InProgress) b) as [s2 rb] eqn:Eev.
        destruct (Hev (id :: P) b _ s2 rb (Inv_start _ _ _ _ HI Hs H0) Eev) as [Hm [Hi [Hd Hn]]].
        apply (DoneMono_trans s) in Hm; [|apply DoneMono_set_state; congruence].
        assert (Fail : not_ok rb ->
                  spec_out P (TC id) s (if restore then set_state s2 id (Pending b) else s2) rb).
        { intros Hnok. apply spec_out_not_ok; [|exact Hnok| |].
          - destruct restore; [|exact Hm].
            exact (DoneMono_trans _ _ _ Hm (DoneMono_head _ _ _ _ (Hi (or_introl eq_refl)))).
          - intros Hr. rewrite Hr. apply Inv_restore; [apply Hi; now left|exact HnP|exact H0].
          - destruct Hd as [Hd|Hd]; [now left|right; now apply (D_pend s0 P id b)]. }
        destruct rb as [v| | |].
        2-4: inversion H; subst; apply Fail; exact I.
        assert (HI2 : Inv (id :: P) s2) by (apply Hi; right; eexists; reflexivity).
        destruct Hd as [Hd|Hd]; [discriminate Hd|]. specialize (Hn v eq_refl).
        inversion H; subst. split; [exact (DoneMono_trans _ _ _ Hm (DoneMono_head _ _ _ _ HI2))|].
        split; [intros _; now apply (Inv_finish P s2 id b v)|].
        split; [right; now apply (D_pend s0 P id b)|].
        intros _ _. exact (needs_done_finish _ _ _ _ v HI2 H0 Hn).
      + inversion H; subst. apply spec_out_same; [exact HI | exact I | right; apply D_inprog, H0].
      + inversion H; subst. split; [apply DoneMono_refl|]. split; [intros _; exact HI|].
        split; [right; apply D_done, H0|].
        intros _ _ j HN. inversion HN; subst; [exists v; exact Hs | congruence].
      + inversion H; subst. apply spec_out_same; [exact HI | exact I | right; apply D_nocell, H0].
    - (* it holds its value: that evaluation went through Done cells only, none of them on [P] *)
      rewrite Hs in H. inversion H; subst. split; [apply DoneMono_refl|]. split; [intros _; exact HI|].
      split; [|intros _ _; exact Hcl].
      right. apply (Den_repath s0 Q _ _ HD). intros j HN Hin.
      destruct (Hcl j HN) as [w Hw]. rewrite (inv_path _ _ _ HI Hin) in Hw. discriminate Hw.
  Qed.

  Lemma force_spec : forall gas, frc_spec (force restore gas).
  Proof.
    induction gas as [|g IH]; intros P id s s' r HI H; simpl in H.
    - inversion H; subst. apply spec_out_same; simpl; auto.
    - pose proof (inv_owner _ _ HI id) as Ho.
      destruct (nthN (cells s) id) as [c|] eqn:Ec.
      2:{ inversion H; subst. apply spec_out_same; [exact HI | exact I | right; apply D_force_nocell].
          rewrite <- Ho. apply cowner_none, Ec. }
      rewrite (cowner_of _ _ _ Ec) in Ho. symmetry in Ho.
      destruct (check_guard restore s (owner c)) as [s1 o] eqn:Eg.
      destruct (check_guard_spec _ _ _ _ _ HI Eg) as [Hm1 Hg].
      destruct o as [e|].
      + destruct Hg as [Hi1 [Hn HD]]. inversion H; subst.
        apply spec_out_not_ok; [exact Hm1 | exact Hn | exact Hi1 | right; exact (HD id Ho)].
      + destruct Hg as [HI1 Hok].
        pose proof (spec_out_pre _ _ _ _ _ _ Hm1
                      (do_thunk_spec _ (eval_with_spec _ g IH) P id s1 s' r HI1 H)) as [Hm [Hi [Hd Hn]]].
        split; [exact Hm|]. split; [exact Hi|]. split.
        * destruct Hd as [Hd|Hd]; [now left|right]. exact (D_force s0 P id _ r Ho Hok Hd).
        * intros v Hv j HN. inversion HN; subst. now apply (Hn v).
  Qed.
End Sim.

Definition agree (a b : resp) : Prop := a = b \/ is_overflow a = true \/ is_overflow b = true.

Section Requests.
  Variable s0 : store.
  Variable restore : bool.

  Definition den_resp (r : req) (o : resp) : Prop :=
    match r with
    | Eval _ id => exists res, Den s0 [] (TC id) res /\ o = resp_of false res
    | Manifest _ id => exists res, Den s0 [] (TC id) res /\ o = resp_of true res
    | Gc => o = RGc
    end.

  Lemma den_resp_det r o o' : den_resp r o -> den_resp r o' -> o = o'.
  Proof.
    destruct r; simpl; [| |congruence].
    1-2: intros [x [Hx ->]] [y [Hy ->]]; now rewrite (Den_det _ _ _ _ Hx _ Hy).
  Qed.

  Lemma resp_of_overflow t : is_overflow (resp_of t (Err EOverflow)) = true.
  Proof. reflexivity. Qed.

  Lemma resp_of_fail t res : is_fail (resp_of t res) = false -> exists v, res = Ok v.
  Proof. destruct res; simpl; try discriminate. intros _. eexists; reflexivity. Qed.

  (* a request is the root thunk forced without a frame, then rendered *)
  Lemma root_spec s limit id s' res t : Inv s0 [] s ->
    do_thunk restore (eval restore limit) s id = (s', res) ->
    ((restore = true \/ is_fail (resp_of t res) = false) -> Inv s0 [] s') /\
    (is_overflow (resp_of t res) = true \/ exists res', Den s0 [] (TC id) res' /\ resp_of t res = resp_of t res').
  Proof.
    intros HI E.
    destruct (do_thunk_spec s0 restore _ (eval_with_spec _ _ _ limit (force_spec _ _ limit)) [] id s s' res HI E)
      as [_ [Hi [Hd _]]].
    split.
    - intros [Hr|Hf]; apply Hi; [now left|right; now apply (resp_of_fail t)].
    - destruct Hd as [->|Hd]; [now left|right; now exists res].
  Qed.

  Lemma run_req_spec s r s' o : Inv s0 [] s -> run_req restore s r = (s', o) ->
    ((restore = true \/ is_fail o = false) -> Inv s0 [] s') /\
    (is_overflow o = true \/ den_resp r o).
  Proof.
    intros HI H. destruct r as [limit id|limit id|]; simpl in H.
    3: inversion H; subst; split; [intros _; exact HI | right; reflexivity].
    1-2: destruct (do_thunk restore (eval restore limit) s id) as [s1 res] eqn:E; inversion H; subst;
         now apply (root_spec s limit id).
  Qed.

  Lemma run_fresh_spec r : is_overflow (run_fresh restore s0 r) = true \/ den_resp r (run_fresh restore s0 r).
  Proof.
    unfold run_fresh. destruct (run_req restore s0 r) as [s' o] eqn:E. simpl.
    exact (proj2 (run_req_spec _ _ _ _ (Inv_base s0) E)).
  Qed.

  Lemma shared_vs_fresh : forall rs s, Inv s0 [] s ->
    (restore = true \/ Forall (fun o => is_fail o = false) (run_shared restore s rs)) ->
    Forall2 agree (run_shared restore s rs) (map (run_fresh restore s0) rs).
  Proof.
    induction rs as [|r rest IH]; intros s HI Hok; simpl; [constructor|].
    simpl in Hok. destruct (run_req restore s r) as [s' o] eqn:E.
    destruct (run_req_spec _ _ _ _ HI E) as [Hi Hd].
    constructor.
    - destruct Hd as [Hd|Hd]; [right; left; exact Hd|].
      destruct (run_fresh_spec r) as [Hf|Hf]; [right; right; exact Hf|].
      left. eapply den_resp_det; eassumption.
    - destruct Hok as [Hr|Hall]; [apply IH; auto|].
      inversion Hall; subst. apply IH; auto.
  Qed.
End Requests.

Lemma Forall2_impl_In {A B} (R R' : A -> B -> Prop) la lb : Forall2 R la lb ->
  (forall a b, In a la -> In b lb -> R a b -> R' a b) -> Forall2 R' la lb.
Proof.
  induction 1 as [|a b la lb Hab _ IH]; intros HR; constructor.
  - apply HR; [left; reflexivity | left; reflexivity | exact Hab].
  - apply IH. intros x y Hx Hy. apply HR; right; assumption.
Qed.

Lemma Forall2_eq {A} (la lb : list A) : Forall2 eq la lb -> la = lb.
Proof. induction 1; congruence. Qed.

(* the machine that restores on failure: every request answers as on a fresh store,
   stack overflows (on either side) apart *)
Theorem history_independent_if_restored : forall s rs,
  Forall2 agree (run_shared true s rs) (map (run_fresh true s) rs).
Proof. intros s rs. apply shared_vs_fresh; [apply Inv_base | left; reflexivity]. Qed.

(* both machines: as long as no request fails on the long-lived store, memoisation is
   invisible — each answer is the fresh answer (unless the fresh evaluation, which cannot
   reuse memoised results, overflows the stack) *)
Theorem memo_transparent : forall restore s rs,
  Forall (fun o => is_fail o = false) (run_shared restore s rs) ->
  Forall2 (fun a b => a = b \/ is_overflow b = true) (run_shared restore s rs) (map (run_fresh restore s) rs).
Proof.
  intros restore s rs Hok.
  apply (Forall2_impl_In agree _ _ _ (shared_vs_fresh s restore rs s (Inv_base s) (or_intror Hok))).
  intros a b Ha _ [Hab|[Hab|Hab]]; [left; exact Hab | | right; exact Hab].
  apply (proj1 (Forall_forall _ _) Hok) in Ha. destruct a as [| | |[]| |]; discriminate.
Qed.

Theorem history_independent_if_restored_eq : forall s rs,
  Forall (fun o => is_overflow o = false) (run_shared true s rs) ->
  Forall (fun o => is_overflow o = false) (map (run_fresh true s) rs) ->
  run_shared true s rs = map (run_fresh true s) rs.
Proof.
  intros s rs Ha Hb. apply Forall2_eq.
  apply (Forall2_impl_In agree _ _ _ (history_independent_if_restored s rs)).
  intros a b Ia Ib [E|[O|O]]; [exact E | |].
  - apply (proj1 (Forall_forall _ _) Ha) in Ia. congruence.
  - apply (proj1 (Forall_forall _ _) Hb) in Ib. congruence.
Qed.

(* Where the two theorems stop.  Without restoring, a request sees the failure of the one
   before it; under a frame limit a memoised result needs fewer frames than a fresh evaluation,
   whichever machine runs. *)

(* `local u = error "boom"; {a: u, b: 1}`: cell 1 = error "m7", root cell 0 forces it *)
Definition boom_store : store :=
  {| cells := [ {| owner := 0; st := Pending (EForce 1) |}; {| owner := 0; st := Pending (EFail 7) |} ];
     guards := [ {| layers := [[]]; checked := false |} ] |}.
Definition boom_reqs : list req := [Eval 500 0; Eval 500 0].

Lemma boom_unrestored :
  run_shared false boom_store boom_reqs = [RErr (EUser 7); RErr EInfRec] /\
  map (run_fresh false boom_store) boom_reqs = [RErr (EUser 7); RErr (EUser 7)].
Proof. vm_compute. split; reflexivity. Qed.

(* `{ assert true, assert false : "g4", c1:: 5 } + { }` behind root 0 *)
Definition assert_store : store :=
  {| cells := [ {| owner := 0; st := Pending (EForce 1) |}; {| owner := 1; st := Done 5 |} ];
     guards := [ {| layers := [[]]; checked := false |}; {| layers := [[None; Some 4]; []]; checked := false |} ] |}.
Definition assert_reqs : list req := [Eval 500 0; Manifest 500 0].

Lemma assert_unrestored :
  run_shared false assert_store assert_reqs = [RErr (EAssert 4); RErr EInfRec] /\
  map (run_fresh false assert_store) assert_reqs = [RErr (EAssert 4); RErr (EAssert 4)].
Proof. vm_compute. split; reflexivity. Qed.

(* the same object reached through a second root thunk: the assertion is skipped *)
Definition assert_store2 : store :=
  {| cells := [ {| owner := 0; st := Pending (EForce 2) |}; {| owner := 0; st := Pending (EForce 2) |};
                {| owner := 1; st := Done 5 |} ];
     guards := [ {| layers := [[]]; checked := false |}; {| layers := [[None; Some 4]; []]; checked := false |} ] |}.
Definition assert_reqs2 : list req := [Eval 500 0; Eval 500 1].

Lemma assert_unrestored2 :
  run_shared false assert_store2 assert_reqs2 = [RErr (EAssert 4); RVal 5] /\
  map (run_fresh false assert_store2) assert_reqs2 = [RErr (EAssert 4); RErr (EAssert 4)].
Proof. vm_compute. split; reflexivity. Qed.

(* memoisation under a frame limit: chain 1 -> 2 -> 3, roots 0 (forces 1) and 4 (forces 2) *)
Definition chain_store : store :=
  {| cells := [ {| owner := 0; st := Pending (EForce 1) |};
                {| owner := 0; st := Pending (EForce 2) |};
                {| owner := 0; st := Pending (EForce 3) |};
                {| owner := 0; st := Pending (EAdd (EConst 1) (EConst 2)) |};
                {| owner := 0; st := Pending (EForce 2) |} ];
     guards := [ {| layers := [[]]; checked := false |} ] |}.
Definition chain_reqs : list req := [Eval 2 4; Eval 2 0].

Lemma chain_memo_limit : forall restore,
  run_shared restore chain_store chain_reqs = [RVal 3; RVal 3] /\
  map (run_fresh restore chain_store) chain_reqs = [RVal 3; RErr EOverflow].
Proof. intros []; vm_compute; split; reflexivity. Qed.

Lemma boom_restored :
  run_shared true boom_store boom_reqs = [RErr (EUser 7); RErr (EUser 7)] /\
  run_shared true assert_store2 assert_reqs2 = [RErr (EAssert 4); RErr (EAssert 4)].
Proof. vm_compute. split; reflexivity. Qed.

(* The interner: the identity of a string is its position, and positions never change. *)

Lemma str_eqb_spec a b : reflect (a = b) (str_eqb a b).
Proof.
  revert b; induction a as [|x a IH]; intros [|y b]; simpl; try (constructor; congruence).
  destruct (N.eqb_spec x y) as [->|Hne]; simpl; [|constructor; congruence].
  destruct (IH b) as [->|Hne]; constructor; congruence.
Qed.

Lemma find_from_some : forall l i s k, find_from i l s = Some k ->
  i <= k /\ nth_error l (N.to_nat (k - i)) = Some s.
Proof.
  induction l as [|x t IH]; intros i s k H; simpl in H; [discriminate|].
  destruct (str_eqb_spec x s) as [->|_].
  - injection H as <-. rewrite N.sub_diag. split; [lia|reflexivity].
  - apply IH in H as [Hle Hn]. split; [lia|].
    replace (N.to_nat (k - i)) with (S (N.to_nat (k - (i + 1)))) by lia. exact Hn.
Qed.

Lemma find_from_none : forall l i s, find_from i l s = None -> ~ In s l.
Proof.
  induction l as [|x t IH]; intros i s H; simpl in *; [tauto|].
  destruct (str_eqb_spec x s) as [|Hne]; [discriminate|].
  intros [C|C]; [exact (Hne C) | exact (IH _ _ H C)].
Qed.

Lemma find_from_app : forall l l' i s, find_from i (l ++ l') s =
  match find_from i l s with Some k => Some k | None => find_from (i + N.of_nat (length l)) l' s end.
Proof.
  induction l as [|x t IH]; intros l' i s; simpl.
  - f_equal; lia.
  - destruct (str_eqb x s); [reflexivity|]. rewrite IH. destruct (find_from (i + 1) t s); f_equal; lia.
Qed.

Lemma find_from_app_none : forall l l' i s, find_from i l s = None ->
  find_from i (l ++ l') s = find_from (i + N.of_nat (length l)) l' s.
Proof. intros l l' i s H. rewrite find_from_app, H. reflexivity. Qed.

Lemma get_interned_some it s k : get_interned it s = Some k -> nth_error it (N.to_nat k) = Some s.
Proof. intros E. apply find_from_some in E as [_ E]. now rewrite N.sub_0_r in E. Qed.

Lemma get_interned_iff it s k : NoDup it ->
  get_interned it s = Some k <-> nth_error it (N.to_nat k) = Some s.
Proof.
  intros Hnd. split; [apply get_interned_some|]. intros Hk.
  destruct (get_interned it s) as [k'|] eqn:E.
  - apply get_interned_some in E. f_equal. apply N2Nat.inj.
    apply (proj1 (NoDup_nth_error it) Hnd); [apply nth_error_Some|]; congruence.
  - apply find_from_none in E. destruct E. eapply nth_error_In, Hk.
Qed.

Definition extends (it it' : interner) : Prop := exists more, it' = it ++ more.

Lemma extends_refl it : extends it it.
Proof. exists []. symmetry; apply app_nil_r. Qed.

Lemma extends_trans a b c : extends a b -> extends b c -> extends a c.
Proof. intros [m1 H1] [m2 H2]. exists (m1 ++ m2). subst. symmetry; apply app_assoc. Qed.

Lemma intern_extends it s : extends it (fst (intern it s)).
Proof. unfold intern. destruct (get_interned it s); simpl; [apply extends_refl | exists [s]; reflexivity]. Qed.

Lemma intern_all_extends : forall ss it, extends it (intern_all it ss).
Proof.
  induction ss as [|s t IH]; intros it; simpl; [apply extends_refl|].
  eapply extends_trans; [apply intern_extends | apply IH].
Qed.

Lemma get_interned_stable it it' s k : extends it it' -> get_interned it s = Some k -> get_interned it' s = Some k.
Proof. intros [m ->] H. unfold get_interned in *. rewrite find_from_app, H. reflexivity. Qed.

Definition nodup_it (it : interner) : Prop := NoDup it.

Lemma intern_nodup it s : NoDup it -> NoDup (fst (intern it s)).
Proof.
  intros H. unfold intern. destruct (get_interned it s) eqn:E; simpl; [exact H|].
  apply (NoDup_Add (Add_app s it [])). rewrite app_nil_r. split; [exact H | exact (find_from_none _ _ _ E)].
Qed.

Lemma intern_all_nodup : forall ss it, NoDup it -> NoDup (intern_all it ss).
Proof. induction ss as [|s t IH]; intros it H; simpl; [exact H | apply IH, intern_nodup, H]. Qed.

(* every field name of the object is an identity handed out by the interner *)
Definition names_interned (it : interner) (o : obj) : Prop :=
  forall n v, In (n, v) o -> (N.to_nat n < length it)%nat.

Lemma names_interned_cons it n v o : names_interned it ((n, v) :: o) ->
  (N.to_nat n < length it)%nat /\ names_interned it o.
Proof. intros H. split; [apply (H n v); now left | intros n' v' Hin; apply (H n' v'); now right]. Qed.

Lemma lookup_is_ref : forall it o s, NoDup it -> names_interned it o ->
  lookup it o s = lookup_ref it o s.
Proof.
  intros it o s Hnd. unfold lookup. induction o as [|[n v] t IH]; intros Hn; simpl.
  - destruct (get_interned it s); reflexivity.
  - apply names_interned_cons in Hn as [Hlt Hn]. rewrite <- (IH Hn).
    destruct (nth_error it (N.to_nat n)) as [x|] eqn:En; [|apply nth_error_None in En; lia].
    destruct (str_eqb_spec x s) as [->|Hne].
    + rewrite (proj2 (get_interned_iff it s n Hnd) En), N.eqb_refl. reflexivity.
    + destruct (get_interned it s) as [k|] eqn:E; [|reflexivity].
      destruct (N.eqb_spec n k) as [->|_]; [|reflexivity].
      apply get_interned_some in E. congruence.
Qed.

Lemma find_field_fresh it o k : names_interned it o -> N.of_nat (length it) <= k -> find_field o k = None.
Proof.
  intros Hn Hk. induction o as [|[n v] t IH]; simpl; [reflexivity|].
  apply names_interned_cons in Hn as [Hlt Hn].
  destruct (N.eqb_spec n k) as [->|_]; [lia | exact (IH Hn)].
Qed.

Lemma lookup_stable it it' o s : extends it it' -> names_interned it o -> lookup it' o s = lookup it o s.
Proof.
  intros [more ->] Hn. unfold lookup, get_interned. rewrite find_from_app.
  destruct (find_from 0 it s) as [k|]; [reflexivity|].
  destruct (find_from _ more s) as [k|] eqn:E; [|reflexivity].
  apply find_from_some in E. apply (find_field_fresh it); [exact Hn | lia].
Qed.

(* on every interner reached from the empty one, a lookup by a computed string gives what
   comparing the field names' contents gives — in particular "unknown field" for a string
   nobody interned is correct — and the answer does not change however the interner grows
   afterwards *)
Theorem intern_lookup_sound : forall ss later o s,
  let it := intern_all [] ss in
  names_interned it o ->
  lookup it o s = lookup_ref it o s /\
  lookup (intern_all it later) o s = lookup it o s.
Proof.
  intros ss later o s it Hn. split.
  - apply lookup_is_ref; [apply intern_all_nodup; constructor | exact Hn].
  - apply lookup_stable; [apply intern_all_extends | exact Hn].
Qed.

Lemma never_interned_unknown : forall it o s, ~ In s it -> lookup it o s = None.
Proof.
  intros it o s H. unfold lookup.
  destruct (get_interned it s) as [k|] eqn:E; [|reflexivity].
  destruct H. eapply nth_error_In, get_interned_some, E.
Qed.

(* super[e]: the answer must not depend on what happens to be interned *)

Lemma super_lookup_is_lookup it o s :
  super_lookup it (Some o) s = match lookup it o s with Some v => SFound v | None => SUnknownField end.
Proof. unfold super_lookup, lookup. destruct (get_interned it s); reflexivity. Qed.

Theorem super_lookup_sound : forall ss later sup s,
  let it := intern_all [] ss in
  (forall o, sup = Some o -> names_interned it o) ->
  super_lookup it sup s = super_lookup_ref it sup s /\
  super_lookup (intern_all it later) sup s = super_lookup it sup s.
Proof.
  intros ss later sup s it Hn. destruct sup as [o|].
  - destruct (intern_lookup_sound ss later o s (Hn o eq_refl)) as [H1 H2]. fold it in H1, H2.
    rewrite !super_lookup_is_lookup. unfold super_lookup_ref. rewrite H2, H1. split; reflexivity.
  - unfold super_lookup, super_lookup_ref.
    destruct (get_interned it s); destruct (get_interned (intern_all it later) s); split; reflexivity.
Qed.

(* before db09b8e: the same request, no super object, answers differently once somebody
   has interned the string *)
Lemma super_lookup_old_history_dependent :
  super_lookup_old (intern_all [] []) None [122; 113] = SUnknownField /\
  super_lookup_old (intern_all (intern_all [] []) [[122; 113]]) None [122; 113] = SNoSuper.
Proof. vm_compute. split; reflexivity. Qed.
