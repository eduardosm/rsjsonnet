(* Proofs/Analyze_proofs.v — the analyzer of Model/Analyze.v against its specification:
   induction over the nested syntax; the analyzer decides [StaticOK] (so it accepts exactly the
   statically correct programs and never panics); what that says of object and comprehension
   scopes; the IR it produces is [Closed]. *)
From Coq Require Import Lia.
From RJ Require Import Base.Outcome Model.Token Model.Ast Model.Ir Model.Analyze.
Local Open Scope outcome_scope.

Section All.
  Variable P : expr -> Prop.
  Definition opt_all (o : option expr) : Prop := match o with Some x => P x | None => True end.
  Definition param_all (p : param) : Prop := match p with MkParam _ d => opt_all d end.
  Definition optparams_all (ps : option (list param * span)) : Prop :=
    match ps with Some q => Forall param_all (fst q) | None => True end.
  Definition bind_all (b : bind) : Prop :=
    match b with MkBind _ ps v => optparams_all ps /\ P v end.
  Definition assert_all (a : assert_) : Prop := match a with MkAssert _ c m => P c /\ opt_all m end.
  Definition spec_all (c : comp_spec) : Prop := match c with CFor _ e => P e | CIf e => P e end.
  Definition fname_all (n : field_name) : Prop := match n with FnExpr e _ => P e | _ => True end.
  Definition field_all (f : field) : Prop :=
    match f with
    | FValue n _ _ v => fname_all n /\ P v
    | FFunc n ps _ _ v => fname_all n /\ Forall param_all ps /\ P v
    end.
  Definition member_all (m : member) : Prop :=
    match m with MLocal b => bind_all b | MAssert a => assert_all a | MField f => field_all f end.
  Definition arg_all (a : arg) : Prop := match a with APositional e => P e | ANamed _ e => P e end.
  Definition obj_all (o : obj_inside) : Prop :=
    match o with
    | OMembers ms => Forall member_all ms
    | OComp l1 n _ b l2 cs =>
        Forall bind_all l1 /\ P n /\ P b /\ Forall bind_all l2 /\ Forall spec_all cs
    end.
  Definition children_all (e : expr) : Prop :=
    match e with
    | ENull _ | EBool _ _ | ESelf _ | EDollar _ | EString _ _ | ETextBlock _ _ | ENumber _ _
    | ESuperField _ _ _ | EIdent _ _ => True
    | EParen _ x | EField _ x _ | EUnary _ _ x | EImport _ x | EImportStr _ x
    | EImportBin _ x | EError _ x | EInSuper _ x _ | ESuperIndex _ _ x => P x
    | EObject _ o => obj_all o
    | EArray _ items => Forall P items
    | EArrayComp _ x cs => P x /\ Forall spec_all cs
    | EIndex _ a b | EBinary _ a _ b => P a /\ P b
    | ESlice _ x a b c => P x /\ opt_all a /\ opt_all b /\ opt_all c
    | ECall _ f args _ => P f /\ Forall arg_all args
    | ELocal _ bs x => Forall bind_all bs /\ P x
    | EIf _ c t f => P c /\ P t /\ opt_all f
    | EObjExt _ x o _ => P x /\ obj_all o
    | EFunc _ ps x => Forall param_all ps /\ P x
    | EAssert _ a x => assert_all a /\ P x
    end.

  Section Rec.
    Variable rec : forall e, P e.
    Definition list_rec' {A} (Q : A -> Prop) (f : forall a, Q a) : forall l, Forall Q l :=
      fix go l := match l with [] => Forall_nil Q | x :: t => Forall_cons x (f x) (go t) end.
    Definition opt_rec (o : option expr) : opt_all o :=
      match o with Some x => rec x | None => I end.
    Definition param_rec (p : param) : param_all p := match p with MkParam _ d => opt_rec d end.
    Definition optparams_rec (ps : option (list param * span)) : optparams_all ps :=
      match ps with Some q => list_rec' param_all param_rec (fst q) | None => I end.
    Definition bind_rec (b : bind) : bind_all b :=
      match b with MkBind _ ps v => conj (optparams_rec ps) (rec v) end.
    Definition assert_rec (a : assert_) : assert_all a :=
      match a with MkAssert _ c m => conj (rec c) (opt_rec m) end.
    Definition spec_rec (c : comp_spec) : spec_all c :=
      match c with CFor _ e => rec e | CIf e => rec e end.
    Definition fname_rec (n : field_name) : fname_all n :=
      match n with FnExpr e _ => rec e | FnIdent _ => I | FnString _ _ => I end.
    Definition field_rec (f : field) : field_all f :=
      match f with
      | FValue n _ _ v => conj (fname_rec n) (rec v)
      | FFunc n ps _ _ v => conj (fname_rec n) (conj (list_rec' param_all param_rec ps) (rec v))
      end.
    Definition member_rec (m : member) : member_all m :=
      match m with MLocal b => bind_rec b | MAssert a => assert_rec a | MField f => field_rec f end.
    Definition arg_rec (a : arg) : arg_all a :=
      match a with APositional e => rec e | ANamed _ e => rec e end.
    Definition obj_rec (o : obj_inside) : obj_all o :=
      match o with
      | OMembers ms => list_rec' member_all member_rec ms
      | OComp l1 n _ b l2 cs =>
          conj (list_rec' bind_all bind_rec l1)
               (conj (rec n) (conj (rec b) (conj (list_rec' bind_all bind_rec l2)
                                                 (list_rec' spec_all spec_rec cs))))
      end.
    Definition children_rec (e : expr) : children_all e :=
      match e as e0 return children_all e0 with
      | ENull _ | EBool _ _ | ESelf _ | EDollar _ | EString _ _ | ETextBlock _ _ | ENumber _ _
      | ESuperField _ _ _ | EIdent _ _ => I
      | EParen _ x | EField _ x _ | EUnary _ _ x | EImport _ x | EImportStr _ x
      | EImportBin _ x | EError _ x | EInSuper _ x _ | ESuperIndex _ _ x => rec x
      | EObject _ o => obj_rec o
      | EArray _ items => list_rec' P rec items
      | EArrayComp _ x cs => conj (rec x) (list_rec' spec_all spec_rec cs)
      | EIndex _ a b | EBinary _ a _ b => conj (rec a) (rec b)
      | ESlice _ x a b c => conj (rec x) (conj (opt_rec a) (conj (opt_rec b) (opt_rec c)))
      | ECall _ f args _ => conj (rec f) (list_rec' arg_all arg_rec args)
      | ELocal _ bs x => conj (list_rec' bind_all bind_rec bs) (rec x)
      | EIf _ c t f => conj (rec c) (conj (rec t) (opt_rec f))
      | EObjExt _ x o _ => conj (rec x) (obj_rec o)
      | EFunc _ ps x => conj (list_rec' param_all param_rec ps) (rec x)
      | EAssert _ a x => conj (assert_rec a) (rec x)
      end.
  End Rec.

  Hypothesis step : forall e, children_all e -> P e.

  Fixpoint expr_ind' (e : expr) {struct e} : P e := step e (children_rec expr_ind' e).
End All.

Definition NumsOK (e : expr) : Prop := nums_ok e = true.

Ltac split_forallb :=
  repeat match goal with
         | H : forallb _ (_ ++ _) = true |- _ => rewrite forallb_app in H; apply andb_true_iff in H; destruct H
         | H : forallb _ (_ :: _) = true |- _ => simpl in H; apply andb_true_iff in H; destruct H
         end.

Section Nums.
  Variable Q : expr -> Prop.
  Let QN := fun e => NumsOK e -> Q e.

  Lemma nums_list {A} (R S : A -> Prop) (g : A -> list expr) :
    (forall x, R x -> forallb node_num_ok (g x) = true -> S x) ->
    forall l, Forall R l -> forallb node_num_ok (flat g l) = true -> Forall S l.
  Proof. intros H l HR. induction HR; simpl; intros Hn; split_forallb; constructor; auto. Qed.

  Lemma nums_opt o : opt_all QN o -> forallb node_num_ok (opt_list nodes o) = true -> opt_all Q o.
  Proof. destruct o; simpl; [intros H Hn; exact (H Hn) | auto]. Qed.
  Lemma nums_param p : param_all QN p -> forallb node_num_ok (param_nodes nodes p) = true -> param_all Q p.
  Proof. destruct p; apply nums_opt. Qed.
  Lemma nums_bind b : bind_all QN b -> forallb node_num_ok (bind_nodes nodes b) = true -> bind_all Q b.
  Proof.
    destruct b as [n [[l sp]|] v]; simpl; intros [H1 H2] Hn; split_forallb; split; auto.
    eapply (nums_list _ _ _ nums_param); eassumption.
  Qed.
  Lemma nums_assert a : assert_all QN a -> forallb node_num_ok (assert_nodes nodes a) = true -> assert_all Q a.
  Proof. destruct a; simpl; intros [H1 H2] Hn; split_forallb; split; auto using nums_opt. Qed.
  Lemma nums_spec c : spec_all QN c -> forallb node_num_ok (spec_nodes nodes c) = true -> spec_all Q c.
  Proof. destruct c; simpl; auto. Qed.
  Lemma nums_fname n : fname_all QN n -> forallb node_num_ok (fname_nodes nodes n) = true -> fname_all Q n.
  Proof. destruct n; simpl; auto. Qed.
  Lemma nums_field f : field_all QN f -> forallb node_num_ok (field_nodes nodes f) = true -> field_all Q f.
  Proof.
    destruct f; simpl; intros H Hn; split_forallb; intuition auto using nums_fname.
    eapply (nums_list _ _ _ nums_param); eassumption.
  Qed.
  Lemma nums_member m : member_all QN m -> forallb node_num_ok (member_nodes nodes m) = true -> member_all Q m.
  Proof. destruct m; simpl; [apply nums_bind | apply nums_assert | apply nums_field]. Qed.
  Lemma nums_arg a : arg_all QN a -> forallb node_num_ok (arg_nodes nodes a) = true -> arg_all Q a.
  Proof. destruct a; simpl; auto. Qed.
  Lemma nums_obj o : obj_all QN o -> forallb node_num_ok (obj_nodes nodes o) = true -> obj_all Q o.
  Proof.
    destruct o; simpl; [apply nums_list, nums_member|].
    intros H Hn; split_forallb; intuition eauto using nums_list, nums_bind, nums_spec.
  Qed.

  Lemma nums_children e : children_all QN e -> NumsOK e -> node_num_ok e = true /\ children_all Q e.
  Proof.
    intros H Hn. unfold NumsOK, nums_ok in Hn. destruct e; simpl in H, Hn |- *;
      try (apply andb_true_iff in Hn; destruct Hn as [H0 Hn]); split; auto; split_forallb;
      intuition eauto using nums_opt, nums_obj, nums_assert, nums_list, nums_bind, nums_spec, nums_param, nums_arg.
    eapply (nums_list QN Q nodes (fun x Hx Hx' => Hx Hx')); eassumption.
  Qed.

  (* induction restricted to trees whose number literals convert ([nums_ok]): the number
     check on a node includes the check on each part, so the hypothesis relativised to
     checked parts gives the plain one *)
  Theorem expr_ind_nums :
    (forall e, node_num_ok e = true -> children_all Q e -> Q e) -> forall e, NumsOK e -> Q e.
  Proof.
    intros step e. induction e using expr_ind'. intros Hn.
    destruct (nums_children e H Hn) as [H0 Hc]. apply step; auto.
  Qed.
End Nums.

Definition IsOk {A} (x : res A) : Prop := exists a, x = Ok a.

Lemma IsOk_Ok {A} (a : A) : IsOk (Ok a : res A).
Proof. eexists; reflexivity. Qed.
Lemma IsOk_Err {A} e : ~ IsOk (Err e : res A).
Proof. intros [a H]; discriminate. Qed.
Lemma IsOk_Panic {A} s : ~ IsOk (Panic s : res A).
Proof. intros [a H]; discriminate. Qed.
Lemma IsOk_is_ok {A} (x : res A) : IsOk x <-> is_ok x = true.
Proof. destruct x; simpl; split; intros H; try discriminate; try (destruct H; discriminate); auto using IsOk_Ok. Qed.

(* [Decides x P]: the answer [x] is a verdict on [P] — Ok when [P] holds, a diagnostic when
   it does not, and never a panic.  That the analyzer decides [StaticOK] gives at once that
   it accepts exactly the correct programs and that its panic sites are unreachable. *)
Definition Decides {A} (x : res A) (P : Prop) : Prop :=
  match x with Ok _ => P | Err _ => ~ P | Panic _ | OutOfFuel => False end.

Lemma Decides_iff {A} (x : res A) P P' : Decides x P -> (P <-> P') -> Decides x P'.
Proof. destruct x; simpl; tauto. Qed.

Lemma Decides_bind {A B} (x : res A) (f : A -> res B) P R :
  Decides x P -> (forall a, x = Ok a -> Decides (f a) R) -> Decides (obind x f) (P /\ R).
Proof.
  destruct x as [a| | |]; simpl; try tauto.
  intros HP Hf. apply Decides_iff with R; [auto | tauto].
Qed.

Lemma Decides_map {A B} (x : res A) (g : A -> B) P :
  Decides x P -> Decides (obind x (fun a => Ok (g a))) P.
Proof. destruct x; simpl; auto. Qed.

Lemma Decides_IsOk {A} (x : res A) P : Decides x P -> (IsOk x <-> P).
Proof.
  destruct x; simpl; intros H; try contradiction; split; auto using IsOk_Ok; try tauto.
  intros H'. destruct (IsOk_Err _ H').
Qed.

Lemma Decides_no_panic {A} (x : res A) P :
  Decides x P -> (exists a, x = Ok a) \/ (exists e, x = Err e).
Proof. destruct x; simpl; intros H; try contradiction; eauto. Qed.

(* the premises of the one rule for a syntactic form, taken together, are equivalent to the judgement *)
Ltac by_rule :=
  split;
  [ intros; repeat match goal with H : _ /\ _ |- _ => destruct H end; econstructor; eassumption
  | let H := fresh in intros H; inversion H; subst; auto ].

(* a form whose parts are analysed one after the other, each deciding one premise of the form's rule *)
Ltac dec_steps := repeat first [apply Decides_map | apply Decides_bind; [| intros ? _]].

(* [binv]: a bind that answered Ok; [okeq]: the final [Ok _ = Ok _] *)
Tactic Notation "binv" hyp(H) "as" ident(a) ident(E) :=
  apply obind_ok_inv in H; destruct H as (a & E & H).
Ltac okeq H := injection H as H; subst.

Definition same_set (L vs : list str) : Prop := forall x, In x L <-> In x vs.

Lemma same_set_refl L : same_set L L.
Proof. intros x; tauto. Qed.
Lemma same_set_cons n L vs : same_set L vs -> same_set (n :: L) (n :: vs).
Proof. intros H x; simpl; rewrite (H x); tauto. Qed.
Lemma same_set_rev_app names L vs : same_set L vs -> same_set (rev names ++ L) (names ++ vs).
Proof. intros H x. rewrite !in_app_iff, <- in_rev, (H x). tauto. Qed.

Lemma existsb_str_In n l : existsb (str_eqb n) l = true <-> In n l.
Proof.
  rewrite existsb_exists. split.
  - intros (y & Hy & He). apply str_eqb_eq in He. subst; auto.
  - intros H. exists n; split; auto. apply str_eqb_eq; reflexivity.
Qed.

Lemma env_contains_In io L n : env_contains (mk_env io L) n = true <-> In n L.
Proof. apply existsb_str_In. Qed.

Definition keys {A} (l : list (str * A)) : list str := map fst l.

Lemma assoc_None {A} n (l : list (str * A)) : assoc n l = None <-> ~ In n (keys l).
Proof.
  induction l as [|[k v] t IH]; simpl; [tauto|].
  destruct (str_eqb n k) eqn:E.
  - apply str_eqb_eq in E; subst. split; [discriminate | intros H; exfalso; apply H; auto].
  - rewrite IH. split; intros H; [intros [H1|H1]; auto; subst; rewrite (proj2 (str_eqb_eq n n) eq_refl) in E; discriminate | tauto].
Qed.

Lemma assoc_Some_In {A} n (l : list (str * A)) v : assoc n l = Some v -> In (n, v) l.
Proof.
  induction l as [|[k w] t IH]; simpl; [discriminate|].
  destruct (str_eqb n k) eqn:E.
  - apply str_eqb_eq in E; subst. intros H; injection H as ->; auto.
  - auto.
Qed.

Lemma declare_names_dec mk ids : forall seen e,
  Decides (declare_names mk ids seen e)
          (NoDup (map id_value ids) /\ (forall n, In n (map id_value ids) -> ~ In n (keys seen))).
Proof.
  induction ids as [|i rest IH]; intros seen e; simpl.
  - split; [constructor | tauto].
  - destruct (assoc (id_value i) seen) as [orig|] eqn:E; simpl.
    + intros [_ H]. apply (H (id_value i)); auto.
      apply assoc_Some_In in E. apply in_map_iff. exists (id_value i, orig); auto.
    + apply assoc_None in E. eapply Decides_iff; [apply IH|]. simpl. split.
      * intros [H1 H2]. split.
        -- constructor; auto. intros Hin. apply (H2 _ Hin). auto.
        -- intros n [<-|Hn]; auto. intros Hk. apply (H2 _ Hn). auto.
      * intros [H1 H2]. inversion H1; subst. split; auto.
        intros n Hn [<-|Hk]; [auto | apply (H2 n); auto].
Qed.

Lemma declare_names_env mk ids : forall seen e e',
  declare_names mk ids seen e = Ok e' ->
  e' = mk_env (is_obj e) (rev (map id_value ids) ++ vars e).
Proof.
  induction ids as [|i rest IH]; intros seen e e'; simpl.
  - intros H; injection H as <-. destruct e; reflexivity.
  - destruct (assoc (id_value i) seen); [discriminate|].
    intros H. apply IH in H. subst e'. simpl. rewrite <- app_assoc. reflexivity.
Qed.

Lemma declare_dec {B} mk ids io L (k : env -> res B) R :
  Decides (k (mk_env io (rev (map id_value ids) ++ L))) R ->
  Decides (do inner <- declare_names mk ids [] (mk_env io L); k inner) (NoDup (map id_value ids) /\ R).
Proof.
  intros Hk. apply Decides_bind.
  - eapply Decides_iff; [apply declare_names_dec|]. simpl. split; [tauto | intros H; split; [exact H | intros n _ []]].
  - intros a Ha. rewrite (declare_names_env _ _ _ _ _ Ha). exact Hk.
Qed.

Lemma mapM_dec {A B} (f : A -> res B) (I P : A -> Prop) l :
  Forall I l -> (forall x, I x -> Decides (f x) (P x)) -> Decides (mapM f l) (Forall P l).
Proof.
  intros HI Hf. induction HI as [|x t Hx _ IH]; simpl; [constructor|].
  eapply Decides_iff; [apply Decides_bind; [exact (Hf x Hx) | intros ? _; apply Decides_map, IH] | by_rule].
Qed.

(* each form of expression has one rule: the judgement on it is equivalent to that rule's premises *)
Lemma StaticOK_iff vs io e : StaticOK vs io e <->
  match e with
  | ENull _ | EBool _ _ | EString _ _ | ETextBlock _ _ | ENumber _ _ => True
  | ESelf _ | EDollar _ | ESuperField _ _ _ => io = true
  | EParen _ x | EField _ x _ | EUnary _ _ x | EError _ x => StaticOK vs io x
  | ESuperIndex _ _ x | EInSuper _ x _ => io = true /\ StaticOK vs io x
  | EObject _ o => ObjOK vs io o
  | EArray _ items => Forall (StaticOK vs io) items
  | EArrayComp _ x cs => exists vs', SpecsOK vs io cs vs' /\ StaticOK vs' io x
  | EIndex _ a b | EBinary _ a _ b => StaticOK vs io a /\ StaticOK vs io b
  | ESlice _ x a b c =>
      StaticOK vs io x /\ (forall y, a = Some y -> StaticOK vs io y) /\
      (forall y, b = Some y -> StaticOK vs io y) /\ (forall y, c = Some y -> StaticOK vs io y)
  | ECall _ f args _ => StaticOK vs io f /\ positional_first args /\ Forall (ArgOK vs io) args
  | EIdent _ n => In (id_value n) vs
  | ELocal _ bs x =>
      NoDup (map bind_name bs) /\ Forall (BindOK (map bind_name bs ++ vs) io) bs /\
      StaticOK (map bind_name bs ++ vs) io x
  | EIf _ c t f => StaticOK vs io c /\ StaticOK vs io t /\ (forall y, f = Some y -> StaticOK vs io y)
  | EObjExt _ x o _ => StaticOK vs io x /\ ObjOK vs io o
  | EFunc _ ps x => FunctionOK vs io ps x
  | EAssert _ a x => AssertOK vs io a /\ StaticOK vs io x
  | EImport _ p | EImportStr _ p | EImportBin _ p => exists psp s, p = EString psp s
  end.
Proof.
  split; [destruct 1; simpl; eauto|].
  destruct e; simpl; intros H;
    repeat match goal with H : _ /\ _ |- _ => destruct H | H : exists _, _ |- _ => destruct H end;
    subst; econstructor; eauto.
Qed.

Definition D (e : expr) : Prop :=
  forall L vs io ts, same_set L vs ->
    Decides (analyze_expr e (mk_env io L) ts) (StaticOK vs io e).

Lemma optM_dec o L vs io ts : opt_all D o -> same_set L vs ->
  Decides (optM (fun x => analyze_expr x (mk_env io L) ts) o) (forall x, o = Some x -> StaticOK vs io x).
Proof.
  destruct o as [y|]; simpl; intros Hd Hs.
  - eapply Decides_iff; [apply Decides_map, Hd, Hs|]. split; [intros H x [= <-]; exact H | auto].
  - intros x [=].
Qed.

Lemma param_dec p L vs io : param_all D p -> same_set L vs ->
  Decides (analyze_param_with analyze_expr (mk_env io L) p) (ParamOK vs io p).
Proof.
  destruct p as [n d]; simpl; intros Hd Hs.
  eapply Decides_iff; [apply Decides_map, optM_dec; eauto|]. split.
  - intros H. destruct d; constructor; auto.
  - intros H x ->. inversion H; auto.
Qed.

Lemma map_param_ident ps : map id_value (map param_ident ps) = map param_name ps.
Proof. rewrite map_map. reflexivity. Qed.
Lemma map_bind_ident bs : map id_value (map bind_ident bs) = map bind_name bs.
Proof. rewrite map_map. reflexivity. Qed.

Lemma function_dec ps body L vs io : Forall (param_all D) ps -> D body -> same_set L vs ->
  Decides (analyze_function_with analyze_expr ps body (mk_env io L)) (FunctionOK vs io ps body).
Proof.
  intros Hps Hb Hs. unfold analyze_function_with.
  assert (Hs' := same_set_rev_app (map param_name ps) _ _ Hs).
  eapply Decides_iff.
  - apply declare_dec. rewrite map_param_ident.
    apply Decides_bind; [eapply mapM_dec; [exact Hps|] | intros ? _; apply Decides_map, Hb, Hs'].
    intros p Hp. apply param_dec; [exact Hp | exact Hs'].
  - rewrite map_param_ident. by_rule.
Qed.

Lemma bind_dec b L vs io : bind_all D b -> same_set L vs ->
  Decides (analyze_bind_with analyze_expr (mk_env io L) b) (BindOK vs io b).
Proof.
  destruct b as [n [[ps sp]|] v]; simpl; intros [Hps Hv] Hs.
  - eapply Decides_iff; [apply Decides_map, function_dec; eauto | by_rule].
  - eapply Decides_iff; [apply Decides_map, Hv, Hs | by_rule].
Qed.

Lemma binds_dec bs L vs io : Forall (bind_all D) bs -> same_set L vs ->
  Decides (mapM (analyze_bind_with analyze_expr (mk_env io L)) bs) (Forall (BindOK vs io) bs).
Proof.
  intros Hd Hs. eapply mapM_dec; [exact Hd|]. intros b Hb. apply bind_dec; eassumption.
Qed.

Lemma assert_dec a L vs io : assert_all D a -> same_set L vs ->
  Decides (analyze_assert_with analyze_expr a (mk_env io L)) (AssertOK vs io a).
Proof.
  destruct a as [sp c m]; simpl; intros [Hc Hm] Hs.
  eapply Decides_iff; [dec_steps; eauto using optM_dec | by_rule].
Qed.

(* the scope the clauses of a comprehension leave behind *)
Fixpoint specs_out (vs : list str) (cs : list comp_spec) : list str :=
  match cs with
  | [] => vs
  | CFor v _ :: rest => specs_out (id_value v :: vs) rest
  | CIf _ :: rest => specs_out vs rest
  end.

Lemma SpecsOK_out vs io cs vs' : SpecsOK vs io cs vs' -> vs' = specs_out vs cs.
Proof.
  revert vs. induction cs as [|c rest IH]; intros vs H; inversion H; subst; simpl; auto.
Qed.

Lemma specs_out_same cs : forall L vs, same_set L vs -> same_set (specs_out L cs) (specs_out vs cs).
Proof.
  induction cs as [|[v e|e] rest IH]; intros L vs Hs; simpl; auto. apply IH, same_set_cons; auto.
Qed.

Lemma comp_spec_env cs : forall io L r,
  analyze_comp_spec_with analyze_expr cs (mk_env io L) = Ok r -> snd r = mk_env io (specs_out L cs).
Proof.
  induction cs as [|[v e|e] rest IH]; intros io L r H; simpl in H.
  - okeq H. reflexivity.
  - binv H as i E. binv H as r0 E0. okeq H. exact (IH _ _ _ E0).
  - binv H as i E. binv H as r0 E0. okeq H. exact (IH _ _ _ E0).
Qed.

Lemma specs_dec cs io : Forall (spec_all D) cs -> forall L vs, same_set L vs ->
  Decides (analyze_comp_spec_with analyze_expr cs (mk_env io L)) (SpecsOK vs io cs (specs_out vs cs)).
Proof.
  induction 1 as [|[v e|e] rest Hc _ IH]; intros L vs Hs; simpl.
  - constructor.
  - eapply Decides_iff.
    + apply Decides_bind; [apply Hc, Hs | intros ? _; apply Decides_map, (IH (id_value v :: L)), same_set_cons, Hs].
    + by_rule.
  - eapply Decides_iff.
    + apply Decides_bind; [apply Hc, Hs | intros ? _; apply Decides_map, IH, Hs].
    + by_rule.
Qed.

Lemma positional_first_pos e rest : positional_first (APositional e :: rest) <-> positional_first rest.
Proof.
  split.
  - intros (ps & ns & Heq & Hp & Hn). destruct ps as [|p ps]; simpl in Heq.
    + subst ns. inversion Hn; subst. simpl in *. tauto.
    + injection Heq as Hp1 Hr; subst. inversion Hp; subst. exists ps, ns; auto.
  - intros (ps & ns & -> & Hp & Hn). exists (APositional e :: ps), ns. repeat split; auto.
    constructor; simpl; auto.
Qed.

Lemma positional_first_named n e rest : positional_first (ANamed n e :: rest) <-> Forall is_named rest.
Proof.
  split.
  - intros (ps & ns & Heq & Hp & Hn). destruct ps as [|p ps]; simpl in Heq.
    + subst ns. inversion Hn; subst; auto.
    + injection Heq as Hp1 Hr; subst. inversion Hp; subst. simpl in *. tauto.
  - intros H. exists [], (ANamed n e :: rest). repeat split; auto. constructor; simpl; auto.
Qed.

Lemma ArgOK_iff vs io a :
  ArgOK vs io a <-> StaticOK vs io (match a with APositional e | ANamed _ e => e end).
Proof. destruct a; symmetry; by_rule. Qed.

(* once a named argument has been seen ([named] non-empty) only named ones may follow *)
Lemma args_dec args L vs io : Forall (arg_all D) args -> same_set L vs -> forall pos named,
  Decides (analyze_args_with analyze_expr (mk_env io L) args pos named)
          (Forall (ArgOK vs io) args /\
           match named with [] => positional_first args | _ :: _ => Forall is_named args end).
Proof.
  intros Hd Hs. induction Hd as [|a rest Ha _ IH]; intros pos named; simpl.
  - split; [constructor|]. destruct named; [exists [], []; repeat split; constructor | constructor].
  - destruct a as [e|n e]; simpl in Ha.
    + destruct named as [|nm named]; simpl.
      * eapply Decides_iff; [apply Decides_bind; [apply Ha, Hs | intros x _; apply IH]|].
        rewrite positional_first_pos, Forall_cons_iff, ArgOK_iff. simpl. tauto.
      * intros [_ H]. inversion H; subst. assumption.
    + eapply Decides_iff.
      * apply Decides_bind; [apply Ha, Hs | intros x _].
        eapply Decides_iff; [apply IH | destruct named; simpl; reflexivity].
      * destruct named; [rewrite positional_first_named|]; rewrite !Forall_cons_iff, ArgOK_iff; simpl; tauto.
Qed.

(* every recorded index points into the fields collected so far, so [fields[index]] is never out of range *)
Definition fix_inv (fields : list ir_field) (fix_fields : list (str * nat)) : Prop :=
  forall n i, In (n, i) fix_fields -> (i < length fields)%nat.

Lemma fix_inv_nil : fix_inv [] [].
Proof. intros n i []. Qed.

Lemma fix_inv_grow fields fixf name f :
  fix_inv fields fixf -> fix_inv (fields ++ [f]) ((name, length fields) :: fixf).
Proof.
  intros H n i [Heq|Hin]; rewrite app_length; simpl.
  - injection Heq as <- <-. lia.
  - apply H in Hin. lia.
Qed.

Lemma fix_inv_keep fields fixf f : fix_inv fields fixf -> fix_inv (fields ++ [f]) fixf.
Proof. intros H n i Hin. rewrite app_length. apply H in Hin. lia. Qed.

Lemma fix_field_name_dec fields fixf name sp : fix_inv fields fixf ->
  Decides (fix_field_name fields fixf name sp) (~ In name (keys fixf)).
Proof.
  intros Hinv. unfold fix_field_name. destruct (assoc name fixf) as [idx|] eqn:E.
  - pose proof (assoc_Some_In _ _ _ E) as Hin. destruct (nth_error fields idx) eqn:En; simpl.
    + intros H. apply H, in_map_iff. exists (name, idx); auto.
    + apply nth_error_None in En. apply Hinv in Hin. lia.
  - apply assoc_None, E.
Qed.

Lemma fix_field_name_res fields fixf name sp r :
  fix_field_name fields fixf name sp = Ok r -> r = (IFix name, sp, (name, length fields) :: fixf).
Proof.
  unfold fix_field_name. destruct (assoc name fixf) as [idx|]; [destruct (nth_error fields idx); discriminate|].
  intros [= <-]. reflexivity.
Qed.

Definition fname_static (n : field_name) : option str :=
  match n with FnIdent i => Some (id_value i) | FnString s _ => Some s | FnExpr _ _ => None end.

Lemma static_field_names_cons m rest :
  static_field_names (m :: rest) =
  match m with
  | MField f => match fname_static (field_fname f) with
                | Some s => s :: static_field_names rest
                | None => static_field_names rest
                end
  | _ => static_field_names rest
  end.
Proof. destruct m as [b|a|[[i|s sp|e sp] ? ? ?|[i|s sp|e sp] ? ? ? ?]]; reflexivity. Qed.

Lemma field_value_dec f L vs : field_all D f -> same_set L vs ->
  Decides (analyze_field_value_with analyze_expr (mk_env true L) f)
          match f with
          | FValue _ _ _ v => StaticOK vs true v
          | FFunc _ ps _ _ v => FunctionOK vs true ps v
          end.
Proof.
  destruct f; simpl; intros Hq Hs; [apply (proj2 Hq), Hs | apply function_dec; tauto].
Qed.

Lemma field_name_dec n L vs io fields fixf : fname_all D n -> same_set L vs -> fix_inv fields fixf ->
  Decides (analyze_field_name_with analyze_expr (mk_env io L) fields fixf n)
          (FieldNameOK vs io n /\ (forall s, fname_static n = Some s -> ~ In s (keys fixf))).
Proof.
  intros Hq Hs Hinv. destruct n as [i|s sp|e sp]; simpl.
  1,2: eapply Decides_iff; [apply fix_field_name_dec, Hinv|];
    split; [intros H; split; [constructor | intros ? [= <-]; exact H] | intros [_ H]; apply H; reflexivity].
  eapply Decides_iff; [apply Decides_map, Hq, Hs|].
  split; [intros H; split; [constructor; exact H | intros s [=]] | intros [H _]; inversion H; auto].
Qed.

Lemma field_name_res n en fields fixf r :
  analyze_field_name_with analyze_expr en fields fixf n = Ok r ->
  snd r = match fname_static n with Some s => (s, length fields) :: fixf | None => fixf end.
Proof.
  destruct n as [i|s sp|e sp]; simpl; intros E.
  1,2: apply fix_field_name_res in E; subst r; reflexivity.
  apply obind_ok_inv in E. destruct E as (x & _ & [= <-]). reflexivity.
Qed.

Lemma member_field_ok vs io inner f :
  MemberOK vs io inner (MField f) <->
  FieldNameOK vs io (field_fname f) /\
  match f with
  | FValue _ _ _ v => StaticOK inner true v
  | FFunc _ ps _ _ v => FunctionOK inner true ps v
  end.
Proof. destruct f; simpl; symmetry; by_rule. Qed.

Lemma members_dec ms L vs io Li inner : Forall (member_all D) ms -> same_set L vs -> same_set Li inner ->
  forall locals asserts fields fixf, fix_inv fields fixf ->
  Decides (analyze_members_with analyze_expr (mk_env io L) (mk_env true Li) ms locals asserts fields fixf)
          (Forall (MemberOK vs io inner) ms /\ NoDup (static_field_names ms) /\
           (forall s, In s (static_field_names ms) -> ~ In s (keys fixf))).
Proof.
  intros Hq Hs Hsi. induction Hq as [|m rest Hm _ IH]; intros locals asserts fields fixf Hinv.
  - simpl. repeat split; [constructor | constructor | tauto].
  - rewrite static_field_names_cons.
    destruct m as [b|a|f]; simpl in Hm; simpl analyze_members_with.
    + eapply Decides_iff; [apply Decides_bind; [apply bind_dec; eassumption | intros l _; apply IH, Hinv]|].
      assert (BindOK inner true b <-> MemberOK vs io inner (MLocal b)) as Hb by by_rule.
      rewrite Forall_cons_iff, <- Hb. tauto.
    + eapply Decides_iff; [apply Decides_bind; [apply assert_dec; eassumption | intros l _; apply IH, Hinv]|].
      assert (AssertOK inner true a <-> MemberOK vs io inner (MAssert a)) as Ha by by_rule.
      rewrite Forall_cons_iff, <- Ha. tauto.
    + assert (Hfn : fname_all D (field_fname f)) by (destruct f; simpl in *; tauto).
      eapply Decides_iff.
      * apply Decides_bind; [apply field_value_dec; eassumption | intros value _].
        apply Decides_bind; [apply field_name_dec; eassumption | intros nm Enm].
        rewrite (field_name_res _ _ _ _ _ Enm). apply IH.
        destruct (fname_static (field_fname f)); [apply fix_inv_grow | apply fix_inv_keep]; exact Hinv.
      * rewrite Forall_cons_iff, member_field_ok. destruct (fname_static (field_fname f)) as [s|]; simpl.
        -- (* a statically named field: its name is new, and stays reserved for the rest *)
           rewrite NoDup_cons_iff. split.
           ++ intros (Hv & (Hn & Hnew) & Hr & Hnd & Hrest). repeat split; auto.
              ** intros Hin. apply (Hrest _ Hin). left; reflexivity.
              ** intros x [<-|Hx]; [apply Hnew; reflexivity|]. intros Hk. apply (Hrest _ Hx). right; exact Hk.
           ++ intros (((Hn & Hv) & Hr) & (Hnin & Hnd) & Hrest). repeat split; auto.
              ** intros s' [= <-]. apply Hrest. left; reflexivity.
              ** intros x Hx [<-|Hk]; [exact (Hnin Hx) | apply (Hrest x); [right; exact Hx | exact Hk]].
        -- split.
           ++ intros (Hv & (Hn & _) & Hr & Hnd & Hrest). repeat split; auto.
           ++ intros (((Hn & Hv) & Hr) & Hnd & Hrest). repeat split; auto. intros s' [=].
Qed.

Lemma objinside_dec o L vs io : obj_all D o -> same_set L vs ->
  Decides (analyze_objinside_with analyze_expr o (mk_env io L)) (ObjOK vs io o).
Proof.
  destruct o as [ms | l1 name plus body l2 cs]; simpl; unfold env_set_obj; simpl; intros Hq Hs.
  - assert (Hs' := same_set_rev_app (map bind_name (member_locals ms)) _ _ Hs).
    eapply Decides_iff.
    + apply declare_dec. rewrite map_bind_ident.
      apply Decides_bind; [eapply members_dec; eauto using fix_inv_nil | intros [[? ?] ?] _; exact I].
    + rewrite map_bind_ident. split.
      * intros (Hnd & (Hm & Hf & _) & _). constructor; assumption.
      * intros H; inversion H; subst. repeat split; auto.
  - destruct Hq as (Hl1 & Hn & Hb & Hl2 & Hcs).
    pose proof (specs_out_same cs _ _ Hs) as Hso.
    assert (Hs' := same_set_rev_app (map bind_name (l1 ++ l2)) _ _ Hso).
    eapply Decides_iff.
    + apply Decides_bind; [apply specs_dec; eassumption | intros [parts e'] E].
      apply comp_spec_env in E. simpl in E. subst e'. simpl.
      apply declare_dec. rewrite map_bind_ident. dec_steps; eauto using binds_dec.
    + rewrite map_bind_ident. split.
      * intros (Hsp & Hnd & H1 & H2 & Hn' & Hb'). econstructor; eauto. apply Forall_app; auto.
      * intros H; inversion H; subst.
        match goal with Hx : SpecsOK _ _ _ ?v |- _ => pose proof (SpecsOK_out _ _ _ _ Hx); subst v end.
        match goal with Hx : Forall _ (l1 ++ l2) |- _ => apply Forall_app in Hx end. tauto.
Qed.

Lemma import_dec mk sp path : Decides (analyze_import mk sp path) (exists psp s, path = EString psp s).
Proof. destruct path; simpl; try (intros (? & ? & [=])). eauto. Qed.

(* the parts of the form decide the premises of its rule: a sub-expression by the induction
   hypothesis, an auxiliary form by the lemma named *)
Tactic Notation "dec_parts" := eapply Decides_iff; [dec_steps; solve [eauto 3] | tauto].
Tactic Notation "dec_parts" "using" constr(lem) :=
  eapply Decides_iff; [dec_steps; solve [eauto 3 using lem] | tauto].

Theorem analyze_decides : forall e, NumsOK e -> D e.
Proof.
  apply expr_ind_nums. intros e Hnum Hc L vs io ts Hs.
  eapply Decides_iff; [| symmetry; apply StaticOK_iff].
  destruct e; simpl in Hc, Hnum |- *;
    repeat match goal with H : _ /\ _ |- _ => destruct H end;
    (* literals; imports; forms all of whose parts are expressions *)
    try solve [exact I | apply import_dec | dec_parts].
  - (* ESelf *) destruct io; simpl; [reflexivity | discriminate].
  - (* EDollar *) destruct io; simpl; [reflexivity | discriminate].
  - (* ENumber *) rewrite Hnum. exact I.
  - (* EObject *) apply objinside_dec; assumption.
  - (* EArray *) apply Decides_map. eapply mapM_dec; [exact Hc|]. intros x Hx. apply Hx, Hs.
  - (* EArrayComp *) eapply Decides_iff.
    + apply Decides_bind; [apply specs_dec; eassumption | intros r E].
      rewrite (comp_spec_env _ _ _ _ E). apply Decides_map. eauto using specs_out_same.
    + split; [intros [H1 H2]; eauto | intros (vs' & H1 & H2)].
      pose proof (SpecsOK_out _ _ _ _ H1); subst vs'; auto.
  - (* ESlice *) dec_parts using optM_dec.
  - (* ESuperField *) destruct io; simpl; [reflexivity | discriminate].
  - (* ESuperIndex *) destruct io; simpl; [dec_parts | intros [[=] _]].
  - (* ECall *) dec_parts using args_dec.
  - (* EIdent *) destruct (env_contains (mk_env io L) (id_value name)) eqn:E; simpl.
    + apply Hs, env_contains_In with (io := io), E.
    + intros H. apply Hs, env_contains_In with (io := io) in H. congruence.
  - (* ELocal *) assert (Hs' := same_set_rev_app (map bind_name binds) _ _ Hs).
    eapply Decides_iff.
    + apply declare_dec. rewrite map_bind_ident. dec_steps; eauto using binds_dec.
    + rewrite map_bind_ident. tauto.
  - (* EIf *) dec_parts using optM_dec.
  - (* EObjExt *) dec_parts using objinside_dec.
  - (* EFunc *) apply function_dec; assumption.
  - (* EAssert *) dec_parts using assert_dec.
  - (* EInSuper *) destruct io; simpl; [dec_parts | intros [[=] _]].
Qed.

Lemma parts_decide e : NumsOK e -> children_all D e.
Proof. intros Hn. exact (proj2 (nums_children D e (children_rec _ analyze_decides e) Hn)). Qed.

Lemma accepted_iff e vs io ts : D e ->
  (is_ok (analyze_expr e (mk_env io vs) ts) = true <-> StaticOK vs io e).
Proof. intros He. rewrite <- IsOk_is_ok. apply Decides_IsOk, He, same_set_refl. Qed.

(* headline: the analyzer accepts exactly the statically correct programs *)
Theorem analyze_exact : forall e vs io,
  nums_ok e = true ->
  ((exists ir, analyze_expr e (mk_env io vs) false = Ok ir) <-> StaticOK vs io e).
Proof. intros e vs io Hn. exact (Decides_IsOk _ _ (analyze_decides e Hn vs vs io false (same_set_refl vs))). Qed.

Theorem analyze_no_panic : forall e en ts,
  nums_ok e = true ->
  (exists ir, analyze_expr e en ts = Ok ir) \/ (exists x, analyze_expr e en ts = Err x).
Proof.
  intros e [io L] ts Hn. exact (Decides_no_panic _ _ (analyze_decides e Hn L L io ts (same_set_refl L))).
Qed.

Lemma SpecsOK_app vs io pre rest out :
  SpecsOK vs io (pre ++ rest) out -> SpecsOK (specs_out vs pre) io rest out.
Proof.
  revert vs. induction pre as [|c pre IH]; intros vs H; simpl in *; auto.
  inversion H; subst; simpl; auto.
Qed.

Lemma specs_out_vars cs : forall vs,
  specs_out vs cs = rev (flat (fun c => match c with CFor v _ => [id_value v] | CIf _ => [] end) cs) ++ vs.
Proof.
  induction cs as [|[v e|e] rest IH]; intros vs; simpl; auto.
  rewrite IH. rewrite <- app_assoc. reflexivity.
Qed.

Lemma object_members_ok sp ms vs io ts m :
  nums_ok (EObject sp (OMembers ms)) = true ->
  is_ok (analyze_expr (EObject sp (OMembers ms)) (mk_env io vs) ts) = true -> In m ms ->
  member_all D m /\ MemberOK vs io (map bind_name (member_locals ms) ++ vs) m.
Proof.
  intros Hn Hok Hin. apply (accepted_iff _ _ _ _ (analyze_decides _ Hn)) in Hok.
  pose proof (parts_decide _ Hn) as Hc. simpl in Hc. rewrite Forall_forall in Hc.
  apply StaticOK_iff in Hok. simpl in Hok.
  assert (Hms : Forall (MemberOK vs io (map bind_name (member_locals ms) ++ vs)) ms) by (inversion Hok; assumption).
  rewrite Forall_forall in Hms. auto.
Qed.

(* a computed field name is analysed in the scope of the object expression itself:
   neither the object's locals nor its self are visible in it *)
Theorem field_name_sees_outer_scope : forall sp ms vs io ts f e nsp,
  nums_ok (EObject sp (OMembers ms)) = true ->
  is_ok (analyze_expr (EObject sp (OMembers ms)) (mk_env io vs) ts) = true ->
  In (MField f) ms -> field_fname f = FnExpr e nsp ->
  is_ok (analyze_expr e (mk_env io vs) false) = true.
Proof.
  intros sp ms vs io ts f e nsp Hn Hok Hin Hf.
  destruct (object_members_ok _ _ _ _ _ _ Hn Hok Hin) as [Hm Hmo].
  apply member_field_ok in Hmo. destruct Hmo as [Hfn _]. rewrite Hf in Hfn. inversion Hfn; subst.
  assert (He : D e) by (destruct f; simpl in Hf, Hm; subst; simpl in Hm; tauto).
  apply (accepted_iff _ _ _ _ He). assumption.
Qed.

(* the source of a [for] clause sees the variables of the clauses to its left
   only; the body sees all of them *)
Theorem comp_vars_left_to_right : forall sp body pre v src post vs io ts,
  nums_ok (EArrayComp sp body (pre ++ CFor v src :: post)) = true ->
  is_ok (analyze_expr (EArrayComp sp body (pre ++ CFor v src :: post)) (mk_env io vs) ts) = true ->
  is_ok (analyze_expr src (mk_env io (specs_out vs pre)) false) = true /\
  is_ok (analyze_expr body (mk_env io (specs_out vs (pre ++ CFor v src :: post))) false) = true.
Proof.
  intros sp body pre v src post vs io ts Hn Hok. apply (accepted_iff _ _ _ _ (analyze_decides _ Hn)) in Hok.
  destruct (parts_decide _ Hn) as [Hb Hcs].
  apply StaticOK_iff in Hok. destruct Hok as (out & Hsp & Hbody).
  pose proof (SpecsOK_out _ _ _ _ Hsp); subst out.
  split.
  - apply SpecsOK_app in Hsp. inversion Hsp; subst.
    apply Forall_app in Hcs. destruct Hcs as [_ Hcs]. inversion Hcs as [|? ? Hsrc _]; subst.
    apply (accepted_iff _ _ _ _ Hsrc). assumption.
  - apply (accepted_iff _ _ _ _ Hb). assumption.
Qed.

(* the locals of an object see each other (earlier and later ones) and self *)
Theorem object_locals_mutual : forall sp ms vs io ts b,
  nums_ok (EObject sp (OMembers ms)) = true ->
  is_ok (analyze_expr (EObject sp (OMembers ms)) (mk_env io vs) ts) = true ->
  In (MLocal b) ms ->
  is_ok (analyze_bind_with analyze_expr (mk_env true (map bind_name (member_locals ms) ++ vs)) b) = true.
Proof.
  intros sp ms vs io ts b Hn Hok Hin.
  destruct (object_members_ok _ _ _ _ _ _ Hn Hok Hin) as [Hm Hmo]. inversion Hmo; subst.
  apply IsOk_is_ok, (Decides_IsOk _ _ (bind_dec b _ _ true Hm (same_set_refl _))). assumption.
Qed.

Definition K (e : expr) : Prop :=
  forall L L2 io ts i, analyze_expr e (mk_env io L) ts = Ok i -> same_set L L2 -> Closed L2 io i.

Lemma mapM_fst {A B C} (f : A -> res (C * B)) (g : A -> C) :
  (forall x y, f x = Ok y -> fst y = g x) -> forall l ys, mapM f l = Ok ys -> map fst ys = map g l.
Proof.
  intros Hg. induction l as [|x t IH]; simpl; intros ys H.
  - okeq H. reflexivity.
  - binv H as y Ey. binv H as ys' Eys. okeq H. simpl. f_equal; auto.
Qed.

Lemma mapM_Forall {A B} (f : A -> res B) (I : A -> Prop) (R : B -> Prop) l :
  Forall I l -> (forall x y, I x -> f x = Ok y -> R y) -> forall ys, mapM f l = Ok ys -> Forall R ys.
Proof.
  intros HI Hf. induction HI as [|x t Hx _ IH]; simpl; intros ys H.
  - okeq H. constructor.
  - binv H as y Ey. binv H as ys' Eys. okeq H. constructor; eauto.
Qed.

Lemma optM_closed o L L2 io ts o' :
  optM (fun x => analyze_expr x (mk_env io L) ts) o = Ok o' -> opt_all K o -> same_set L L2 ->
  forall v, o' = Some v -> Closed L2 io v.
Proof.
  destruct o as [x|]; simpl; intros H Hk Hs v Hv.
  - binv H as y Ey. okeq H. injection Hv as <-. eapply Hk; eauto.
  - okeq H. discriminate.
Qed.

Lemma param_res_name ae en p r : analyze_param_with ae en p = Ok r -> fst r = param_name p.
Proof. destruct p; simpl; intros H. binv H as d' E. okeq H. reflexivity. Qed.

Lemma param_closed p L L2 io r : param_all K p ->
  analyze_param_with analyze_expr (mk_env io L) p = Ok r -> same_set L L2 ->
  forall d, snd r = Some d -> Closed L2 io d.
Proof.
  destruct p as [n d]; simpl; intros Hk H Hs. binv H as d' Ed. okeq H. simpl. eapply optM_closed; eauto.
Qed.

(* the IR names a frame after the results; these are the declared names, in order *)
Lemma function_closed ps body L L2 io i : Forall (param_all K) ps -> K body ->
  analyze_function_with analyze_expr ps body (mk_env io L) = Ok i -> same_set L L2 -> Closed L2 io i.
Proof.
  intros Hps Hb H Hs. unfold analyze_function_with in H. binv H as inner E.
  pose proof (declare_names_env _ _ _ _ _ E) as ->. simpl in *. rewrite map_param_ident in *.
  binv H as r0 E0. binv H as bd Eb. okeq H.
  assert (Hs' : same_set (rev (map param_name ps) ++ L) (map fst r0 ++ L2)).
  { rewrite (mapM_fst _ _ (param_res_name _ _) _ _ E0). apply same_set_rev_app, Hs. }
  constructor.
  - eapply mapM_Forall; [exact Hps | | exact E0]. intros p r Hp Hr. eapply param_closed; eauto.
  - eapply Hb; eauto.
Qed.

Lemma bind_res_name ae en b r : analyze_bind_with ae en b = Ok r -> fst r = bind_name b.
Proof. destruct b; simpl; intros H. binv H as v' E. okeq H. reflexivity. Qed.

Lemma binds_names ae en bs rs :
  mapM (analyze_bind_with ae en) bs = Ok rs -> map fst rs = map bind_name bs.
Proof. apply mapM_fst, bind_res_name. Qed.

Lemma bind_closed b L L2 io r : bind_all K b ->
  analyze_bind_with analyze_expr (mk_env io L) b = Ok r -> same_set L L2 -> Closed L2 io (snd r).
Proof.
  destruct b as [n ps v]; simpl; intros [Hps Hv] H Hs. binv H as v' Ev. okeq H. simpl.
  destruct ps as [[l sp]|]; simpl in *; [eapply function_closed; eauto | eapply Hv; eauto].
Qed.

Lemma binds_closed bs L L2 io rs :
  mapM (analyze_bind_with analyze_expr (mk_env io L)) bs = Ok rs -> Forall (bind_all K) bs ->
  same_set L L2 -> Forall (fun r => Closed L2 io (snd r)) rs.
Proof.
  intros H Hk Hs. eapply mapM_Forall; [exact Hk | | exact H]. intros b r Hb Hr. eapply bind_closed; eauto.
Qed.

Lemma assert_closed a L L2 io r : assert_all K a ->
  analyze_assert_with analyze_expr a (mk_env io L) = Ok r -> same_set L L2 -> ClosedAssert L2 io r.
Proof.
  destruct a as [sp c m]; simpl; intros [Hc Hm] H Hs. binv H as c' Ec. binv H as m' Em. okeq H. constructor.
  - eapply Hc; eauto.
  - eapply optM_closed; eauto.
Qed.

Lemma specs_closed cs io : Forall (spec_all K) cs -> forall L L2 r,
  analyze_comp_spec_with analyze_expr cs (mk_env io L) = Ok r -> same_set L L2 ->
  exists L2', ClosedSpecs L2 io (fst r) L2' /\ same_set (specs_out L cs) L2'.
Proof.
  induction 1 as [|c rest Hc Hrest IH]; intros L L2 r H Hs; simpl in H.
  - okeq H. exists L2. split; [constructor | auto].
  - destruct c as [v e|e]; simpl in Hc; binv H as i0 Ei; binv H as r0 E0; okeq H; simpl.
    + unfold env_insert in E0; simpl in E0.
      destruct (IH _ (id_value v :: L2) _ E0 (same_set_cons _ _ _ Hs)) as (L2' & H1 & H2).
      exists L2'. split; auto. constructor; auto. eapply Hc; eauto.
    + destruct (IH _ L2 _ E0 Hs) as (L2' & H1 & H2).
      exists L2'. split; auto. constructor; auto. eapply Hc; eauto.
Qed.

Lemma args_closed args L L2 io : Forall (arg_all K) args -> same_set L L2 -> forall pos named r,
  analyze_args_with analyze_expr (mk_env io L) args pos named = Ok r ->
  Forall (Closed L2 io) pos -> Forall (fun a => Closed L2 io (snd a)) named ->
  Forall (Closed L2 io) (fst r) /\ Forall (fun a => Closed L2 io (snd a)) (snd r).
Proof.
  intros Hk Hs. induction Hk as [|a rest Ha Hrest IH]; intros pos named r H Hp Hn; simpl in H.
  - okeq H. auto.
  - destruct a as [e|n e]; simpl in Ha.
    + destruct named; [|discriminate]. binv H as x Ex. eapply IH; eauto.
      apply Forall_app. split; auto. constructor; auto. eapply Ha; eauto.
    + binv H as x Ex. eapply IH; eauto. apply Forall_app. split; auto. constructor; auto. simpl. eapply Ha; eauto.
Qed.

Lemma field_name_closed n L L2 io fields fixf r : fname_all K n ->
  analyze_field_name_with analyze_expr (mk_env io L) fields fixf n = Ok r -> same_set L L2 ->
  match fst (fst r) with IFix _ => True | IDyn e => Closed L2 io e end.
Proof.
  destruct n as [i|s sp|e sp]; simpl; intros Hk H Hs.
  1,2: apply fix_field_name_res in H; subst r; exact I.
  binv H as x Ex. okeq H. simpl. eapply Hk; eauto.
Qed.

Lemma members_names ae outer inner ms : forall locals asserts fields fixf r,
  analyze_members_with ae outer inner ms locals asserts fields fixf = Ok r ->
  map fst (fst (fst r)) = map fst locals ++ map bind_name (member_locals ms).
Proof.
  induction ms as [|[b|a|f] rest IH]; intros locals asserts fields fixf r H; simpl in H.
  - okeq H. simpl. rewrite app_nil_r. reflexivity.
  - binv H as l E. apply IH in H. rewrite H, map_app. simpl.
    rewrite (bind_res_name _ _ _ _ E), <- app_assoc. reflexivity.
  - binv H as a' E. eapply IH; eauto.
  - binv H as v Ev. binv H as nm En. eapply IH; eauto.
Qed.

Lemma members_closed ms L L2 io Li Li2 : Forall (member_all K) ms -> same_set L L2 -> same_set Li Li2 ->
  forall locals asserts fields fixf r,
  analyze_members_with analyze_expr (mk_env io L) (mk_env true Li) ms locals asserts fields fixf = Ok r ->
  Forall (fun l => Closed Li2 true (snd l)) locals -> Forall (ClosedAssert Li2 true) asserts ->
  Forall (ClosedField L2 io Li2) fields ->
  Forall (fun l => Closed Li2 true (snd l)) (fst (fst r)) /\ Forall (ClosedAssert Li2 true) (snd (fst r)) /\
  Forall (ClosedField L2 io Li2) (snd r).
Proof.
  intros Hk Hs Hsi. induction Hk as [|m rest Hm Hrest IH]; intros locals asserts fields fixf r H Hl Ha Hf; simpl in H.
  - okeq H. auto.
  - destruct m as [b|a|f]; simpl in Hm.
    + binv H as l E. eapply bind_closed in E; eauto. eapply IH in H; eauto. apply Forall_app. split; auto.
    + binv H as a' E. eapply assert_closed in E; eauto. eapply IH in H; eauto. apply Forall_app. split; auto.
    + binv H as r0 Ev. binv H as r1 E0.
      assert (Hfn : fname_all K (field_fname f)) by (destruct f; simpl in *; tauto).
      pose proof (field_name_closed _ _ _ _ _ _ _ Hfn E0 Hs) as Hn.
      assert (Hv : Closed Li2 true r0).
      { destruct f; simpl in *; [eapply (proj2 Hm); eauto |].
        destruct Hm as (Hf1 & Hf2 & Hf3). exact (function_closed _ _ _ _ _ _ Hf2 Hf3 Ev Hsi). }
      eapply IH in H; eauto. apply Forall_app. split; auto. constructor; auto.
      destruct (fst (fst r1)); constructor; auto.
Qed.

Lemma objinside_closed o L L2 io i : obj_all K o ->
  analyze_objinside_with analyze_expr o (mk_env io L) = Ok i -> same_set L L2 -> Closed L2 io i.
Proof.
  destruct o as [ms | l1 name plus body l2 cs]; simpl; intros Hk H Hs.
  - binv H as inner E. pose proof (declare_names_env _ _ _ _ _ E) as ->. simpl in *. rewrite map_bind_ident in *.
    binv H as r0 E0. destruct r0 as [[ls as_] fs]. okeq H.
    pose proof (members_names _ _ _ _ _ _ _ _ _ E0) as Hnames. simpl in Hnames.
    eapply (members_closed ms L L2 io _ (map fst ls ++ L2) Hk Hs) in E0; eauto.
    + simpl in E0. destruct E0 as (H1 & H2 & H3). constructor; auto.
    + rewrite Hnames. apply same_set_rev_app; auto.
  - destruct Hk as (Hl1 & Hn & Hb & Hl2 & Hcs).
    binv H as r E. destruct r as [parts e']. pose proof (comp_spec_env _ _ _ _ E) as He. simpl in He. subst e'.
    destruct (specs_closed _ _ Hcs _ _ _ E Hs) as (L2' & Hsp & Hso). simpl in Hsp.
    binv H as inner E0. pose proof (declare_names_env _ _ _ _ _ E0) as ->. simpl in *. rewrite map_bind_ident in *.
    binv H as r0 E1. binv H as r1 E2. binv H as fn Efn. binv H as fv Efv. okeq H.
    assert (Hs' : same_set (rev (map bind_name (l1 ++ l2)) ++ specs_out L cs) (map fst (r0 ++ r1) ++ L2')).
    { rewrite !map_app, (binds_names _ _ _ _ E1), (binds_names _ _ _ _ E2), <- map_app.
      apply same_set_rev_app, Hso. }
    apply CL_ObjectComp with (L' := L2').
    + exact Hsp.
    + apply Forall_app. split; eapply binds_closed; eauto.
    + eapply Hn; eauto.
    + eapply Hb; eauto.
Qed.

Lemma import_closed mk sp path L io i :
  (forall s, Closed L io (mk s sp)) -> analyze_import mk sp path = Ok i -> Closed L io i.
Proof. intros Hm. destruct path; simpl; intros H; try discriminate. okeq H. apply Hm. Qed.

Ltac kauto :=
  try match goal with
      | Hx : K ?e, Hy : analyze_expr ?e _ _ = Ok ?r |- Closed _ _ ?r => eapply Hx; eauto
      | |- forall v, _ = Some v -> Closed _ _ v => eapply optM_closed; eauto
      | Hy : analyze_objinside_with _ _ _ = Ok ?r |- Closed _ _ ?r => eapply objinside_closed; eauto
      | Hy : analyze_assert_with _ _ _ = Ok ?r |- ClosedAssert _ _ ?r => eapply assert_closed; eauto
      end.

(* a form analysed part after part: invert every bind; the result is closed by the rule for
   its IR form, each part by the hypothesis or the lemma for that part *)
Ltac closed_by_parts H :=
  repeat (let a := fresh "r" in let E := fresh "E" in binv H as a E); okeq H; constructor; kauto.

Theorem analyze_K : forall e, K e.
Proof.
  induction e using expr_ind'. rename H into Hc. intros L L2 io ts i H Hs.
  destruct e; simpl in Hc; simpl in H;
    repeat match goal with Hx : _ /\ _ |- _ => destruct Hx end;
    try (destruct io; simpl in H; [| discriminate]);
    try solve [closed_by_parts H | eapply import_closed; eauto; intros; constructor].
  - (* ENumber *) destruct (number_parses n); [okeq H; constructor | discriminate].
  - (* EParen *) eapply Hc; eauto.
  - (* EObject *) eapply objinside_closed; eauto.
  - (* EArray *) binv H as its E. okeq H. constructor. eapply mapM_Forall; [exact Hc | | exact E].
    intros x y Hx Hy. exact (Hx _ _ _ _ _ Hy Hs).
  - (* EArrayComp *) binv H as cs E. binv H as b Eb. okeq H.
    destruct cs as [parts e']. pose proof (comp_spec_env _ _ _ _ E) as He. simpl in He. subst e'.
    match goal with Hx : Forall _ specs |- _ =>
      destruct (specs_closed _ _ Hx _ _ _ E Hs) as (L2' & Hsp & Hso) end. simpl in *.
    apply CL_ArrayComp with (L' := L2'); auto. kauto.
  - (* ECall *) binv H as c E. binv H as r Er. okeq H.
    eapply args_closed in Er; eauto. destruct Er as [Hp Hn]. constructor; auto. kauto.
  - (* EIdent *) destruct (env_contains (mk_env io L) (id_value name)) eqn:E; [| discriminate]. okeq H.
    constructor. apply Hs. apply env_contains_In in E. auto.
  - (* ELocal *) binv H as inner E. pose proof (declare_names_env _ _ _ _ _ E) as ->. simpl in *.
    rewrite map_bind_ident in *. binv H as bs Eb. binv H as x Ex. okeq H.
    assert (Hs' : same_set (rev (map bind_name binds) ++ L) (map fst bs ++ L2))
      by (rewrite (binds_names _ _ _ _ Eb); apply same_set_rev_app; auto).
    constructor; [eapply binds_closed; eauto | kauto].
  - (* EFunc *) eapply function_closed; eauto.
Qed.

(* headline: whatever the analyzer accepts is closed in its static scope *)
Theorem analyze_closed : forall e vs io ts i,
  analyze_expr e (mk_env io vs) ts = Ok i -> Closed vs io i.
Proof. intros e vs io ts i H. exact (analyze_K e vs vs io ts i H (same_set_refl vs)). Qed.

