(* Proofs/RefScope_main.v — C02/C09: run-time scope soundness of the reference interpreter, part 3:
   builtins, calls, the expression evaluator, the knot, and the theorem on core programs. *)
From RJ Require Import Base.Outcome Base.F64 Model.Token Model.Ast Model.RefCore Model.RefValue Model.RefEval.
From RJ Require Import Proofs.RefSem_params Proofs.RefScope_defs Proofs.RefScope_proofs.
From Coq Require Import Lia.
Local Open Scope N_scope.

Lemma safe_all_m d : forall items, Forall wf_thunk items -> safe wf_value (all_m items d).
Proof. induction 1 as [|it r Hit Hr IH]; simpl; safe_tac. Qed.
Lemma safe_any_m d : forall items, Forall wf_thunk items -> safe wf_value (any_m items d).
Proof. induction 1 as [|it r Hit Hr IH]; simpl; safe_tac. Qed.
Lemma safe_sum_m d : forall items acc, Forall wf_thunk items -> safe wf_value (sum_m items acc d).
Proof. intros items acc H. revert acc. induction H as [|it r Hit Hr IH]; intros acc; simpl; safe_tac. Qed.
Lemma safe_flatten_m d : forall items acc, Forall wf_thunk items -> Forall wf_thunk acc -> safe wf_value (flatten_m items acc d).
Proof. intros items acc H. revert acc. induction H as [|it r Hit Hr IH]; intros acc Ha; simpl; safe_tac. Qed.
Lemma safe_contains_m x d : wf_value x -> forall items, Forall wf_thunk items -> safe wf_value (contains_m x items d).
Proof. intros Hx items H. induction H as [|it r Hit Hr IH]; simpl; safe_tac. Qed.
Lemma safe_count_m x d : wf_value x -> forall items n, Forall wf_thunk items -> safe wf_value (count_m x items n d).
Proof. intros Hx items n H. revert n. induction H as [|it r Hit Hr IH]; intros n; simpl; safe_tac. Qed.
Lemma char_thunks_wf s : Forall wf_thunk (char_thunks s).
Proof. unfold char_thunks. apply Forall_map_intro. intros. repeat constructor. Qed.
#[export] Hint Resolve safe_all_m safe_any_m safe_sum_m safe_flatten_m safe_contains_m safe_count_m char_thunks_wf : safe.
#[export] Hint Resolve char_thunks_wf : wf.

(* one lemma per length of the argument list; a builtin called with another number of arguments than
   it takes answers Panic, which is not a static error *)
Lemma safe_builtin1 bi a d : wf_thunk a -> safe wf_value (call_builtin bi [a] d).
Proof. intros Ha. destruct bi; unfold call_builtin; safe_tac. Qed.

Lemma safe_builtin2 bi a b d : wf_thunk a -> wf_thunk b -> safe wf_value (call_builtin bi [a; b] d).
Proof.
  intros Ha Hb. destruct bi; unfold call_builtin; try apply safe_panic;
    (eapply safe_bind; [apply safe_forceT; eassumption|]; intros x Hx);
    try (eapply safe_bind; [apply safe_forceT; eassumption|]; intros y Hy).
  all: safe_tac.
  (* left: the arrays built by mapping over a list; every item is a call of an argument, a fresh
     number or string, or an item of an argument *)
  all: constructor.
  - (* makeArray *) apply Forall_map_intro. intros i _. repeat constructor. exact Hy.
  - (* map *) apply Forall_map_intro. intros c _. repeat constructor. exact Hx.
  - apply Forall_map_intro. intros it Hit. repeat constructor; [exact Hx | exact (Forall_in _ _ _ (wf_arr_inv _ Hy) Hit)].
  - (* range *) apply Forall_map_intro. intros i _. repeat constructor.
  - (* repeat *) apply Forall_concat, Forall_map_intro. intros _ _. apply wf_arr_inv, Hx.
  - (* mapWithIndex *) apply Forall_map_intro. intros p Hp. apply combine_in_r in Hp.
    repeat constructor; [exact Hx | exact (Forall_in _ _ _ (char_thunks_wf s) Hp)].
  - apply Forall_map_intro. intros p Hp. apply combine_in_r in Hp.
    repeat constructor; [exact Hx | exact (Forall_in _ _ _ (wf_arr_inv _ Hy) Hp)].
Qed.

Lemma safe_builtin3 bi a b c d : wf_thunk a -> wf_thunk b -> wf_thunk c -> safe wf_value (call_builtin bi [a; b; c] d).
Proof. intros Ha Hb Hc. destruct bi; unfold call_builtin; safe_tac. Qed.

Lemma safe_builtin4 bi a b c e d :
  wf_thunk a -> wf_thunk b -> wf_thunk c -> wf_thunk e -> safe wf_value (call_builtin bi [a; b; c; e] d).
Proof. intros Ha Hb Hc He. destruct bi; unfold call_builtin; safe_tac. Qed.

Lemma safe_call_builtin bi args d : Forall wf_thunk args -> safe wf_value (call_builtin bi args d).
Proof.
  intros H. destruct H as [|a ? Ha [|b ? Hb [|c ? Hc [|e ? He [|]]]]].
  - apply safe_panic.
  - apply safe_builtin1; assumption.
  - apply safe_builtin2; assumption.
  - apply safe_builtin3; assumption.
  - apply safe_builtin4; assumption.
  - apply safe_panic.
Qed.
#[export] Hint Resolve safe_call_builtin : safe.

Lemma safe_bind_args ps pos named :
  safe (fun r => bind_args ps pos named = Ok r) (lift (bind_args ps pos named)).
Proof.
  intros c r _. unfold okres, lift. cbn [snd]. pose proof (bind_args_fails ps pos named) as H.
  destruct (bind_args ps pos named) as [a | e | s |]; [reflexivity | | exact I | exact I].
  destruct H as [s ->]. exact I.
Qed.

(* the frame [FVars b ds] binds every parameter *)
Lemma bind_args_binds_all ps pos named b ds :
  bind_args ps pos named = Ok (b, ds) -> incl (map fst ps) (map fst b ++ map fst ds).
Proof.
  intros H x Hx. pose proof (proj1 (defaults_see_all_params ps pos named b ds [] H) x Hx) as Hsee. simpl in Hsee.
  apply in_or_app. destruct (assoc x b) eqn:E1; [left; eapply assoc_some_in; eassumption|].
  destruct (assoc x ds) eqn:E2; [right; eapply assoc_some_in; eassumption | congruence].
Qed.

Lemma arg_thunks_wf ps fr : wf_env fr -> Forall wf_thunk (arg_thunks ps fr).
Proof. intros Hf. apply arg_thunks_all. intros x t. apply lookup_var_wf. exact Hf. Qed.

Lemma safe_force_args ts d : Forall wf_thunk ts -> safe any (force_args ts d).
Proof. intros H. unfold force_args. apply safe_iterM. intros t Ht. pose proof (Forall_in _ _ _ H Ht). safe_tac. Qed.
#[export] Hint Resolve safe_force_args : safe.

(* the frame a function body runs in — the bound arguments and the defaults still to evaluate, on
   top of the closure's environment — is well scoped, and the body is closed in it *)
Lemma call_frame_wf ps body fenv pos named b ds :
  wf_env fenv -> closed (dom fenv) (hasobj fenv) (CFunc ps body) ->
  bind_args ps pos named = Ok (b, ds) -> Forall wf_thunk pos -> wf_vars named ->
  wf_env (FVars b ds :: fenv) /\ closed (dom (FVars b ds :: fenv)) (hasobj fenv) body.
Proof.
  intros He Hc Hb Hp Hn.
  destruct (bind_args_all wf_thunk _ _ _ _ _ Hb Hp Hn) as (Hwb & Hds). pose proof (bind_args_binds_all _ _ _ _ _ Hb) as Hincl.
  destruct (closed_func_inv _ _ _ _ Hc (dom (FVars b ds :: fenv))) as [Hps Hbd].
  - simpl. apply incl_appr, incl_appr, incl_refl.
  - simpl. rewrite app_assoc. apply incl_appl, Hincl.
  - split; [|exact Hbd]. constructor; [exact Hwb | | exact He]. rewrite Forall_forall. intros [x de] Hin.
    pose proof (Forall_in _ _ _ Hps (Hds _ _ Hin)) as Hde. inversion Hde; subst. assumption.
Qed.

Lemma safe_do_apply fv pos named force d :
  wf_value fv -> Forall wf_thunk pos -> wf_vars named -> safe wf_value (do_apply fv pos named force d).
Proof.
  intros Hf Hp Hn. unfold do_apply. destruct fv; try solve [safe_tac].
  - inversion Hf as [| | | | | | ? ? ? He Hc |]; subst.
    eapply safe_bind; [apply safe_bind_args|]. intros [b ds] Hb.
    destruct (call_frame_wf _ _ _ _ _ _ _ He Hc Hb Hp Hn) as [Hfr Hbd].
    eapply safe_bind with (Q := any).
    { destruct force; [apply safe_force_args; apply arg_thunks_wf; exact Hfr | apply safe_ret_any]. }
    intros _ _. eapply safe_bind; [apply safe_enter|]. intros d' _. apply safe_eval; [exact Hfr | exact Hbd].
  - eapply safe_bind; [apply safe_bind_args|]. intros [bb ds] Hb.
    destruct (bind_args_all wf_thunk _ _ _ _ _ Hb Hp Hn) as (Hwb & _).
    eapply safe_bind; [apply safe_enter|]. intros d' _. apply safe_call_builtin. apply arg_thunks_wf.
    constructor; [exact Hwb | constructor | constructor].
Qed.
#[export] Hint Resolve safe_do_apply : safe.

Lemma safe_eq_items d : forall a b, Forall wf_thunk a -> Forall wf_thunk b -> safe any (eq_items a b d).
Proof.
  intros a b Ha. revert b. induction Ha as [|x ra Hx Hra IH]; intros b Hb; simpl; [apply safe_ret_any|].
  destruct Hb as [|y rb Hy Hrb]; safe_tac.
Qed.

Lemma safe_eq_fields la lb d : wf_layers la -> wf_layers lb -> forall names, safe any (eq_fields la lb names d).
Proof. intros Ha Hb. induction names as [|n r IH]; simpl; safe_tac. Qed.

Lemma safe_cmp_items d : forall a b, Forall wf_thunk a -> Forall wf_thunk b -> safe any (cmp_items a b d).
Proof.
  intros a b Ha. revert b. induction Ha as [|x ra Hx Hra IH]; intros b Hb; simpl; destruct Hb as [|y rb Hy Hrb]; safe_tac.
Qed.
#[export] Hint Resolve safe_eq_items safe_eq_fields safe_cmp_items : safe.

Lemma safe_do_equals a b d : wf_value a -> wf_value b -> safe any (do_equals a b d).
Proof.
  intros Ha Hb. unfold do_equals. destruct a, b; try apply safe_ret_any; try apply safe_kind.
  - destruct (lenN items =? lenN items0); [apply safe_eq_items; apply wf_arr_inv; assumption | apply safe_ret_any].
  - apply wf_obj_inv in Ha, Hb.
    destruct (list_str_eqb (visible_names layers) (visible_names layers0)); [|apply safe_ret_any].
    destruct (visible_names layers); [apply safe_ret_any|].
    eapply safe_bind; [apply safe_run_asserts; assumption|]. intros _ _.
    eapply safe_bind; [apply safe_run_asserts; assumption|]. intros _ _.
    apply safe_eq_fields; assumption.
Qed.

Lemma safe_do_compare a b d : wf_value a -> wf_value b -> safe any (do_compare a b d).
Proof.
  intros Ha Hb. unfold do_compare. destruct a, b; try apply safe_kind; try apply safe_ret_any.
  - destruct (f_compare f f0); [apply safe_ret_any | apply safe_panic].
  - apply safe_cmp_items; apply wf_arr_inv; assumption.
Qed.

Lemma safe_do_manifest s v d : wf_value v -> safe any (do_manifest s v d).
Proof.
  intros Hv. unfold do_manifest. destruct v; try apply safe_ret_any; try solve [destruct s; auto with safe].
  - eapply safe_bind with (Q := Forall any); [|intros; apply safe_ret_any].
    apply safe_mapM. intros t Ht. pose proof (Forall_in _ _ _ (wf_arr_inv _ Hv) Ht).
    eapply safe_bind; [apply safe_enter|]. intros d' _.
    eapply safe_bind; [apply safe_forceT; assumption|]. intros x Hx. apply safe_manifest. assumption.
  - apply wf_obj_inv in Hv.
    eapply safe_bind; [apply safe_run_asserts; assumption|]. intros _ _.
    eapply safe_bind with (Q := Forall any); [|intros; apply safe_ret_any].
    apply safe_mapM. intros n Hn.
    eapply safe_bind; [apply safe_enter|]. intros d' _.
    eapply safe_bind; [apply safe_field_at; assumption|]. intros x Hx.
    eapply safe_bind; [apply safe_manifest; assumption|]. intros j _. apply safe_ret_any.
Qed.

Lemma safe_cond_bool v : safe any (cond_bool v).
Proof. unfold cond_bool. destruct v; auto with safe. Qed.
#[export] Hint Resolve safe_do_equals safe_do_compare safe_do_manifest safe_cond_bool : safe.

Lemma wf_env_local binds en :
  wf_env en -> Forall (fun p => closed (map fst binds ++ dom en) (hasobj en) (snd p)) binds ->
  wf_env (FVars [] binds :: en).
Proof. intros He Hb. constructor; [constructor | exact Hb | exact He]. Qed.

Lemma wf_layer_object locals asserts fs en std :
  wf_env en ->
  Forall (fun p => closed (map fst locals ++ dom en) true (snd p)) locals ->
  Forall (fun a => closed (map fst locals ++ dom en) true (fst a) /\ closed_opt (map fst locals ++ dom en) true (snd a)) asserts ->
  Forall (field_ok locals en) fs ->
  wf_layer (MkLayer locals asserts fs en std).
Proof.
  intros He Hl Ha Hf. constructor; [|exact Hf].
  eapply Forall_impl; [|exact Ha]. intros a [Hc Hm]. split.
  - constructor; assumption.
  - intros m Em. rewrite Em in Hm. inversion Hm; subst. constructor; assumption.
Qed.

Lemma safe_do_eval en x d : wf_env en -> closed (dom en) (hasobj en) x -> safe wf_value (do_eval en x d).
Proof.
  (* by cases on the closedness proof, made while [do_eval] is still folded; where the rule asks for
     an object in scope, Eio : hasobj en = true *)
  intros He Hc. remember (dom en) as vs eqn:Evs. remember (hasobj en) as io eqn:Eio.
  destruct Hc; subst; try symmetry in Eio; unfold do_eval; try solve [safe_tac].
  - (* CSelf *)
    destruct (hasobj_lookup en Eio) as (ls & i & c & E). rewrite E. apply safe_ret. constructor.
    eapply lookup_obj_wf; eassumption.
  - (* CVar *)
    destruct (lookup_var x en) as [t|] eqn:E.
    + pose proof (lookup_var_wf _ _ _ He E). safe_tac.
    + exfalso. eapply lookup_var_in; eassumption.
  - (* CObject *)
    eapply safe_bind; [apply safe_build_fields; try eassumption; constructor|]. intros fs Hfs.
    apply safe_ret. constructor. constructor; [|constructor]. apply wf_layer_object; assumption.
  - (* CObjComp *)
    eapply safe_bind; [apply safe_comp_envs; eassumption|]. intros envs Henvs.
    eapply safe_bind; [eapply (safe_build_comp_fields locals en en); try eassumption; constructor|]. intros fs Hfs.
    apply safe_ret. constructor. constructor; [|constructor]. constructor; [constructor | exact Hfs].
  - (* CArray *)
    apply safe_ret. constructor. apply Forall_map_intro. intros e Hin. constructor; [exact He|].
    match goal with H : Forall (closed _ _) items |- _ => rewrite Forall_forall in H; apply H; exact Hin end.
  - (* CArrComp *)
    eapply safe_bind; [apply safe_comp_envs; eassumption|]. intros envs Henvs.
    apply safe_ret. constructor. apply Forall_map_intro. intros e Hin.
    destruct (Forall_in _ _ _ Henvs Hin) as (Hwe & Hd & Ho). constructor; [exact Hwe|]. rewrite Hd, Ho. assumption.
  - (* CSuperIndex *)
    eapply safe_bind; [apply safe_eval; [exact He | rewrite Eio; assumption]|]. intros v Hv. destruct v; safe_tac.
  - (* CInSuper *)
    eapply safe_bind; [apply safe_eval; [exact He | rewrite Eio; assumption]|]. intros v Hv. destruct v; try solve [safe_tac].
    apply safe_with_super; auto. intros. apply safe_ret. constructor.
  - (* CCall *)
    eapply safe_bind; [apply safe_eval; assumption|]. intros fv Hfv. destruct (is_fun fv); [|safe_tac].
    eapply safe_bind; [apply safe_ask_ts_tail|]. intros ot _. apply safe_apply; [exact Hfv | |].
    + apply Forall_map_intro. intros e Hin. constructor; [exact He|].
      match goal with H : Forall (closed _ _) pos |- _ => rewrite Forall_forall in H; apply H; exact Hin end.
    + unfold wf_vars. apply Forall_map_intro. intros p Hin. simpl. constructor; [exact He|].
      match goal with H : Forall _ named |- _ => rewrite Forall_forall in H; apply (H p Hin) end.
  - (* CLocal *)
    apply safe_eval; [apply wf_env_local; assumption | assumption].
  - (* CFunc *)
    apply safe_ret. constructor; [exact He | constructor; assumption].
  - (* CAssert *)
    eapply safe_bind; [apply safe_run_assert; simpl; assumption|]. intros _ _. apply safe_eval; assumption.
Qed.
#[export] Hint Resolve safe_do_eval : safe.

Lemma safe_do_force t d : wf_thunk t -> safe wf_value (do_force t d).
Proof. intros H. unfold do_force. destruct t; inversion H; subst; safe_tac. Qed.

Lemma safe_step_fn t d : wf_task t -> safe wf_answer (step t d).
Proof.
  intros H. unfold step.
  destruct t; simpl in H; (eapply safe_bind; [|intros r Hr; apply safe_ret; first [exact Hr | exact I]]).
  - apply safe_do_eval; apply H.
  - apply safe_do_force, H.
  - apply safe_do_apply; apply H.
  - apply safe_do_field, H.
  - apply safe_do_equals; apply H.
  - apply safe_do_compare; apply H.
  - apply safe_do_manifest, H.
Qed.

Lemma run_task_ok : forall fuel c, rec_ok (run_task fuel c).
Proof.
  induction fuel as [|n IH]; intros c t d Ht.
  - exact I.
  - simpl. apply safe_step_fn; [exact Ht | apply IH].
Qed.

Lemma closed_func_simple ps body :
  (forall vs', incl (map fst ps) vs' -> Forall (fun p => closed_opt vs' true (snd p)) ps /\ closed vs' true body) ->
  closed [] true (CFunc ps body).
Proof. intros H. constructor. intros vs' _ Hp. apply H. exact Hp. Qed.

(* the nine library functions written in Jsonnet: each mentions only its parameters and, in the four
   comprehensions, the variable the comprehension binds *)
Ltac var_in Hp := simpl; first [ apply Hp; simpl; tauto | left; reflexivity | right; apply Hp; simpl; tauto ].

Lemma std_layer_wf : wf_layer std_layer.
Proof.
  unfold std_layer. constructor; [constructor|]. apply Forall_app_intro.
  - apply Forall_map_intro. intros r _. simpl. constructor; [constructor | constructor | constructor].
  - unfold std_defs, val_comp, kv_comp, bcall, v_, p_. cbn -[s_of].
    repeat (constructor; [simpl; constructor; [constructor | constructor |]; simpl; apply closed_func_simple; intros vs' Hp | ]).
    all: try solve [constructor].
    all: split; [repeat constructor|].
    all: repeat first [ apply CL_Var; var_in Hp | econstructor ].
Qed.

Lemma init_env_wf : wf_env init_env.
Proof.
  unfold init_env. constructor; [|constructor|constructor]. constructor; [|constructor]. simpl.
  constructor. constructor. constructor; [apply std_layer_wf | constructor].
Qed.

Lemma safe_run_top x : closed [s_std] false x -> safe any (run_top x).
Proof.
  intros Hc. unfold run_top.
  eapply safe_bind; [apply safe_eval; [apply init_env_wf | exact Hc]|]. intros v Hv.
  eapply safe_bind; [apply safe_manifest; exact Hv|]. intros j _.
  destruct (has_func j); [apply safe_kind | apply safe_ret_any].
Qed.

Definition static_error {A} (r : res A) : Prop := exists s, snd r = Err (EStatic s).

(* a closed core program never fails because a variable, self, super or $ is unbound *)
Theorem core_no_static_error : forall x, closed [s_std] false x -> forall fuel c, ~ static_error (run_core fuel c x).
Proof.
  intros x Hc fuel c [s Hs]. unfold run_core in Hs.
  pose proof (safe_run_top x Hc c (run_task fuel c) (run_task_ok fuel c)) as H. unfold okres in H.
  rewrite Hs in H. exact H.
Qed.
