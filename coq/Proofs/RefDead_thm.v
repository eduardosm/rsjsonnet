(* Proofs/RefDead_thm.v — C02/C04: a dead local binding is irrelevant (value, error AND trace),
   modulo the simulation of the builtins (premise [builtin_sim_at]). *)
From RJ Require Import Base.Outcome Base.F64 Model.Token Model.Ast Model.RefCore Model.RefValue Model.RefEval.
From RJ Require Import Model.Analyze.
From RJ Require Import Proofs.RefScope_defs Proofs.RefScope_main Proofs.RefScope_static.
From RJ Require Import Proofs.RefDead_defs Proofs.RefDead_proofs Proofs.RefDead_main.
Local Open Scope N_scope.

Lemma wf_layer_fields l : wf_layer l ->
  Forall (fun nf => wf_scope (l_locals l) (match f_fenv (snd nf) with Some fe => fe | None => l_env l end) (f_body (snd nf))) (l_fields l).
Proof. destruct 1; assumption. Qed.

(* the fields of std carry no environment of their own and are closed in the empty scope *)
Lemma std_layer_rel x e1 e2 : lrel x e1 e2 std_layer std_layer.
Proof.
  pose proof (wf_layer_fields _ std_layer_wf) as Hf. rewrite Forall_forall in Hf.
  unfold std_layer in *. cbn [l_fields l_locals l_env] in Hf.
  econstructor; [apply ER_nil | constructor |]. apply Forall2_refl. intros nf Hin. specialize (Hf nf Hin).
  assert (Hshape : exists n body, nf = (n, MkField VisHidden false body None)).
  { apply in_app_or in Hin. destruct Hin as [Hin | Hin]; apply in_map_iff in Hin; destruct Hin as (r & <- & _); eauto. }
  destruct Hshape as (n & body & ->). simpl in Hf. constructor. inversion Hf; subst. split; [constructor | assumption].
Qed.

Lemma init_env_rel x e1 e2 : erel x e1 e2 init_env init_env [s_std] false.
Proof.
  apply (erel_vars x e1 e2 [(s_std, Tv std_value)] [(s_std, Tv std_value)] [] [] [] false); [|apply ER_nil].
  repeat constructor. apply std_layer_rel.
Qed.

(* the end of [run_top]: manifestation, with functions reported last *)
Lemma rel2_top_manifest x e1 e2 v v' : vrel x e1 e2 v v' ->
  rel2 x e1 e2 eq (let* j := manifest false v 0 in if has_func j then kind "ManifestFunction" else ret j)
                  (let* j := manifest false v' 0 in if has_func j then kind "ManifestFunction" else ret j).
Proof. intros Hv. r2_tac. Qed.

Definition dframe (x : str) (e : cexpr) : list frame := [FVars [] [(x, e)]].

Lemma dead_pair_local x e1 e2 : dead_pair x (dframe x e1) (dframe x e2).
Proof. split; apply dead_ok_local. Qed.

(* the two programs differ only in the value of a binding the body cannot mention *)
Theorem dead_local_core : forall x e1 e2 body,
  builtin_sim_at x (dframe x e1) (dframe x e2) ->
  closed (rm x [s_std]) false body ->
  forall fuel c, run_core fuel c (CLocal [(x, e1)] body) = run_core fuel c (CLocal [(x, e2)] body).
Proof.
  intros x e1 e2 body Hbs Hc fuel c. apply rrel_eq. unfold run_core, run_top.
  set (d1 := dframe x e1). set (d2 := dframe x e2).
  pose proof (dead_pair_local x e1 e2) as Hdp. fold d1 d2 in Hdp, Hbs.
  pose proof (run_task_rel x d1 d2 Hdp Hbs fuel c) as Hrec.
  eapply rrel_bind with (Q := vrel x d1 d2).
  - unfold eval. eapply rrel_bind with (Q := ans_rel x d1 d2).
    + unfold call. destruct fuel as [|n]; [split; reflexivity|].
      change (run_task (S n) c (TEval init_env (CLocal [(x, e1)] body)) 0)
        with ((let* v := eval (d1 ++ init_env) body 0 in ret (AVal v)) c (run_task n c)).
      change (run_task (S n) c (TEval init_env (CLocal [(x, e2)] body)) 0)
        with ((let* v := eval (d2 ++ init_env) body 0 in ret (AVal v)) c (run_task n c)).
      apply (rel2_bind x d1 d2 (vrel x d1 d2) (ans_rel x d1 d2)); [|intros v v' Hv; apply rel2_ret; exact Hv | apply run_task_rel; assumption].
      eapply rel2_eval; [apply ER_dead; apply init_env_rel | exact Hc].
    + intros a a' Ha. apply rel2_as_val; assumption.
  - intros v v' Hv. apply (rel2_top_manifest x d1 d2 v v' Hv). exact Hrec.
Qed.

(* source level: `local x = e1; body` and `local x = e2; body` run identically whenever body is
   statically fine WITHOUT x in scope (so x is not free in it) — e2 := error "..." included *)
Theorem dead_local_irrelevant : forall sp xid e1 e2 body,
  id_value xid <> s_std ->
  builtin_sim_at (id_value xid) (dframe (id_value xid) (ds_expr false false e1)) (dframe (id_value xid) (ds_expr false false e2)) ->
  StaticOK [s_std] false body ->
  forall fuel c, run fuel c (ELocal sp [MkBind xid None e1] body) = run fuel c (ELocal sp [MkBind xid None e2] body).
Proof.
  intros sp xid e1 e2 body Hne Hbs Hok fuel c. unfold run, desugar. cbn [ds_expr map ds_bind].
  apply dead_local_core; [exact Hbs|]. rewrite (rm_other _ _ Hne). apply static_ok_closed. exact Hok.
Qed.
