(* Proofs/Manifest_proofs.v — the manifested text of a JSON value, read by the
   specification-level decoder of Model/JsonDec.v, is the value (any whitespace format, any
   nesting); whitespace erasure maps every whitespace format to the minified text. *)
From RJ Require Import Base.Outcome Base.F64 Model.Token Model.JsonEsc Model.JsonDec Model.Manifest
  Proofs.JsonEsc_proofs.
From Coq Require Import Lia.
Local Open Scope N_scope.

Section JInd.
Variable P : jvalue -> Prop.
Hypothesis Hnull : P JNull.
Hypothesis Hbool : forall b, P (JBool b).
Hypothesis Hnum : forall x, P (JNum x).
Hypothesis Hstr : forall s, P (JStr s).
Hypothesis Harr : forall l, Forall P l -> P (JArr l).
Hypothesis Hobj : forall ms, Forall (fun kv => P (snd kv)) ms -> P (JObj ms).

Fixpoint jvalue_ind' (v : jvalue) : P v :=
  match v with
  | JNull => Hnull
  | JBool b => Hbool b
  | JNum x => Hnum x
  | JStr s => Hstr s
  | JArr l =>
      Harr l ((fix go (l : list jvalue) : Forall P l :=
                 match l with
                 | [] => Forall_nil _
                 | x :: r => Forall_cons x (jvalue_ind' x) (go r)
                 end) l)
  | JObj ms =>
      Hobj ms ((fix go (ms : list (str * jvalue)) : Forall (fun kv => P (snd kv)) ms :=
                  match ms with
                  | [] => Forall_nil _
                  | kv :: r => Forall_cons kv (jvalue_ind' (snd kv)) (go r)
                  end) ms)
  end.
End JInd.

(* Induction on a value all of whose numbers satisfy [okn]: the hypothesis is used up at the
   numbers, and is still at hand for the items of a container. *)
Lemma finite_ind (okn : f64 -> Prop) (P : jvalue -> Prop) :
  P JNull -> (forall b, P (JBool b)) -> (forall x, okn x -> P (JNum x)) -> (forall s, P (JStr s)) ->
  (forall l, Forall (fun x => Forall okn (nums_of x)) l -> Forall P l -> P (JArr l)) ->
  (forall ms, Forall (fun kv => Forall okn (nums_of (snd kv))) ms -> Forall (fun kv => P (snd kv)) ms -> P (JObj ms)) ->
  forall v, Forall okn (nums_of v) -> P v.
Proof.
  intros Hnull Hbool Hnum Hstr Harr Hobj.
  induction v as [|b|x|s|l IH|ms IH] using jvalue_ind'; cbn [nums_of]; intros Hf; auto.
  - apply Hnum. now inversion Hf.
  - apply Forall_flat_map in Hf. apply Harr; [exact Hf|].
    exact (Forall_impl _ (fun x H => proj1 H (proj2 H)) (Forall_and IH Hf)).
  - apply Forall_flat_map in Hf. apply Hobj; [exact Hf|].
    exact (Forall_impl _ (fun x H => proj1 H (proj2 H)) (Forall_and IH Hf)).
Qed.

Lemma all_ws_nil : all_ws [].
Proof. reflexivity. Qed.

Lemma all_ws_app : forall a b, all_ws a -> all_ws b -> all_ws (a ++ b).
Proof. unfold all_ws. intros a b Ha Hb. rewrite forallb_app, Ha, Hb. reflexivity. Qed.

Lemma all_ws_repeat : forall s n, all_ws s -> all_ws (repeat_str s n).
Proof. intros s n H. induction n as [|n IH]; [reflexivity|]. cbn [repeat_str]. apply all_ws_app; assumption. Qed.

Lemma skip_ws_app : forall w s, all_ws w -> skip_ws (w ++ s) = skip_ws s.
Proof.
  induction w as [|c w IH]; intros s H; [reflexivity|].
  unfold all_ws in H. cbn [forallb] in H. apply andb_true_iff in H as [Hc Hw].
  cbn [app skip_ws]. rewrite Hc. apply IH. exact Hw.
Qed.

Lemma skip_ws_nonws : forall c r, is_ws c = false -> skip_ws (c :: r) = c :: r.
Proof. intros c r H. cbn [skip_ws]. rewrite H. reflexivity. Qed.

Lemma skip_ws_ws_then : forall w c r, all_ws w -> is_ws c = false -> skip_ws (w ++ c :: r) = c :: r.
Proof. intros w c r Hw Hc. rewrite skip_ws_app by exact Hw. apply skip_ws_nonws. exact Hc. Qed.

Lemma item_indent_ws : forall fmt d, all_ws (indent fmt) -> all_ws (item_indent fmt d).
Proof.
  intros fmt d H. unfold item_indent. destruct (is_empty_str (indent fmt)); [reflexivity|].
  apply all_ws_repeat. exact H.
Qed.

Lemma numchar_neq : forall c k, is_numchar c = true -> is_numchar k = false -> (c =? k) = false.
Proof. intros c k Hc Hk. destruct (N.eqb_spec c k) as [->|_]; [congruence|reflexivity]. Qed.

Lemma numchar_not_ws : forall c, is_numchar c = true -> is_ws c = false.
Proof. intros c H. unfold is_ws. rewrite !(fun k => numchar_neq c k H) by reflexivity. reflexivity. Qed.

Lemma ws_not_numchar : forall c, is_ws c = true -> is_numchar c = false.
Proof.
  intros c H. destruct (is_numchar c) eqn:E; [|reflexivity].
  rewrite (numchar_not_ws c E) in H. discriminate.
Qed.

Lemma dig_numchar : forall c, is_dig c = true -> is_numchar c = true.
Proof. intros c H. unfold is_numchar. rewrite H. reflexivity. Qed.

(* Each piece of the number grammar consumes number characters only: if what it leaves
   consists of number characters, so does what it was given. *)
Lemma skip_digits_numchars : forall s, forallb is_numchar (skip_digits s) = true -> forallb is_numchar s = true.
Proof.
  induction s as [|c s IH]; [trivial|]. cbn [skip_digits]. destruct (is_dig c) eqn:D; [|trivial].
  intros H. cbn [forallb]. rewrite (dig_numchar c D). exact (IH H).
Qed.

Lemma digits1_numchars : forall s r, digits1 s = Some r -> forallb is_numchar r = true -> forallb is_numchar s = true.
Proof.
  intros [|c s] r H Hr; [discriminate|]. cbn [digits1] in H. destruct (is_dig c) eqn:D; [|discriminate].
  injection H as <-. cbn [forallb]. rewrite (dig_numchar c D). exact (skip_digits_numchars s Hr).
Qed.

Lemma json_int_numchars : forall s r, json_int s = Some r -> forallb is_numchar r = true -> forallb is_numchar s = true.
Proof.
  intros [|c s] r H Hr; [discriminate|]. cbn [json_int] in H.
  destruct (N.eqb_spec c 48) as [->|_]; [injection H as <-; exact Hr|].
  destruct (is_dig c) eqn:D; [|discriminate].
  injection H as <-. cbn [forallb]. rewrite (dig_numchar c D). exact (skip_digits_numchars s Hr).
Qed.

Lemma json_frac_numchars : forall s r, json_frac s = Some r -> forallb is_numchar r = true -> forallb is_numchar s = true.
Proof.
  intros [|c s] r H Hr; [reflexivity|]. cbn [json_frac] in H.
  destruct (N.eqb_spec c 46) as [->|_]; [exact (digits1_numchars s r H Hr)|].
  injection H as <-. exact Hr.
Qed.

Lemma either_numchar : forall c a b, (c =? a) || (c =? b) = true ->
  is_numchar a = true -> is_numchar b = true -> is_numchar c = true.
Proof. intros c a b E Ha Hb. apply orb_true_iff in E as [E|E]; apply N.eqb_eq in E; now subst. Qed.

Lemma json_exp_numchars : forall s r, json_exp s = Some r -> forallb is_numchar r = true -> forallb is_numchar s = true.
Proof.
  intros [|c s] r H Hr; [reflexivity|]. cbn [json_exp] in H.
  destruct ((c =? 101) || (c =? 69)) eqn:E; [|injection H as <-; exact Hr].
  cbn [forallb]. rewrite (either_numchar c 101 69 E eq_refl eq_refl). destruct s as [|sg s']; [discriminate|].
  destruct ((sg =? 43) || (sg =? 45)) eqn:G; [|exact (digits1_numchars _ r H Hr)].
  cbn [forallb]. rewrite (either_numchar sg 43 45 G eq_refl eq_refl). exact (digits1_numchars s' r H Hr).
Qed.

Lemma json_number_numchars : forall n, is_json_number n = true -> forallb is_numchar n = true /\ n <> [].
Proof.
  intros n H. split; [|intros ->; discriminate H]. unfold is_json_number in H.
  destruct (json_int _) as [s2|] eqn:E1; [|discriminate].
  destruct (json_frac s2) as [s3|] eqn:E2; [|discriminate].
  destruct (json_exp s3) as [[|? ?]|] eqn:E3; try discriminate.
  pose proof (json_int_numchars _ _ E1 (json_frac_numchars _ _ E2 (json_exp_numchars _ _ E3 eq_refl))) as Hn.
  destruct n as [|c r]; [reflexivity|]. destruct (N.eqb_spec c 45) as [->|_]; exact Hn.
Qed.

Definition tail_ok (rest : str) : Prop :=
  match rest with
  | [] => True
  | c :: _ => is_numchar c = false
  end.

Lemma span_num_app : forall n rest, forallb is_numchar n = true -> tail_ok rest -> span_num (n ++ rest) = (n, rest).
Proof.
  induction n as [|c n IH]; intros rest Hn Ht.
  - cbn [app]. destruct rest as [|c r]; [reflexivity|]. cbn [span_num]. cbn [tail_ok] in Ht. rewrite Ht. reflexivity.
  - cbn [forallb] in Hn. apply andb_true_iff in Hn as [Hc Hn]. cbn [app span_num]. rewrite Hc.
    rewrite (IH rest Hn Ht). reflexivity.
Qed.

Lemma tail_ok_ws_then : forall w c r, all_ws w -> is_numchar c = false -> tail_ok (w ++ c :: r).
Proof.
  intros [|x w] c r Hw Hc; cbn [app tail_ok]; [exact Hc|].
  unfold all_ws in Hw. cbn [forallb] in Hw. apply andb_true_iff in Hw as [Hx _].
  apply ws_not_numchar. exact Hx.
Qed.

(* fuel: one unit for each value, one more for each round of a list parser *)
Fixpoint cost (v : jvalue) : nat :=
  match v with
  | JArr l => S (list_sum (map (fun x => S (cost x)) l))
  | JObj ms => S (list_sum (map (fun kv => S (cost (snd kv))) ms))
  | _ => 1
  end.

Lemma list_sum_cons : forall a l, list_sum (a :: l) = (a + list_sum l)%nat.
Proof. reflexivity. Qed.

Lemma join_cons2 : forall sep x r, r <> [] -> join sep (x :: r) = x ++ sep ++ join sep r.
Proof. intros sep x [|y r] H; [contradiction H; reflexivity|reflexivity]. Qed.

Lemma join_single : forall sep x, join sep [x] = x.
Proof. reflexivity. Qed.

(* the first non-blank code point of a joined list is that of its first item *)
Lemma skip_ws_join_head {A} (sep : str) (t : A -> list N) x l w i c r tl : all_ws w -> all_ws i -> is_ws c = false ->
  t x = i ++ c :: r -> exists tl', skip_ws (w ++ join sep (map t (x :: l)) ++ tl) = c :: tl'.
Proof.
  intros Hw Hi Hc Ex. rewrite skip_ws_app by exact Hw.
  assert (Ej : exists tl', join sep (map t (x :: l)) ++ tl = t x ++ tl').
  { cbn [map]. destruct l as [|y l]; [rewrite join_single|rewrite join_cons2, <- !app_assoc by discriminate];
      eexists; reflexivity. }
  destruct Ej as [tl' ->]. rewrite Ex, <- app_assoc, skip_ws_app by exact Hi.
  cbn [app]. rewrite skip_ws_nonws by exact Hc. eexists; reflexivity.
Qed.

(* every item and every separator is at least as long as its share of the fuel *)
Lemma join_length_bound {A} (sep : str) (c : A -> nat) (t : A -> list N) : forall l,
  (1 <= length sep)%nat -> Forall (fun x => (c x <= length (t x))%nat) l -> l <> [] ->
  (list_sum (map (fun x => S (c x)) l) <= S (length (join sep (map t l))))%nat.
Proof.
  intros l Hsep H. induction H as [|x l Hx Hl IH]; intros Hne; [contradiction Hne; reflexivity|].
  cbn [map]. rewrite list_sum_cons. destruct l as [|y l].
  - cbn [map list_sum fold_right join]. lia.
  - rewrite join_cons2 by discriminate. rewrite !app_length. specialize (IH ltac:(discriminate)). lia.
Qed.

Section RoundTrip.
Variable okn : f64 -> Prop.
Let fin (v : jvalue) : Prop := Forall okn (nums_of v).
Variable show : f64 -> str.
Variable read : str -> option f64.
Hypothesis read_show : forall x, okn x -> read (show x) = Some x.
Hypothesis show_number : forall x, okn x -> is_json_number (show x) = true.
Variable fmt : json_format.
Hypothesis WF : ws_format fmt.

Lemma parse_value_skip : forall fuel w s, all_ws w -> parse_value read fuel (w ++ s) = parse_value read fuel s.
Proof.
  intros [|f] w s H; [reflexivity|].
  cbn [parse_value]. rewrite (skip_ws_app w s H). reflexivity.
Qed.

Lemma parse_members_skip : forall fuel w s, all_ws w -> parse_members read fuel (w ++ s) = parse_members read fuel s.
Proof.
  intros [|f] w s H; [reflexivity|].
  cbn [parse_members]. rewrite (skip_ws_app w s H). reflexivity.
Qed.

Lemma parse_value_arr : forall f r,
  parse_value read (S f) (91 :: r) =
  match skip_ws r with
  | [] => None
  | c :: r' => if c =? 93 then Some (JArr [], r')
               else match parse_elems read f r with Some (vs, r'') => Some (JArr vs, r'') | None => None end
  end.
Proof. reflexivity. Qed.

Lemma parse_value_obj : forall f r,
  parse_value read (S f) (123 :: r) =
  match skip_ws r with
  | [] => None
  | c :: r' => if c =? 125 then Some (JObj [], r')
               else match parse_members read f r with Some (ms, r'') => Some (JObj ms, r'') | None => None end
  end.
Proof. reflexivity. Qed.

Lemma parse_value_number : forall f n rest x, is_json_number n = true -> read n = Some x -> tail_ok rest ->
  parse_value read (S f) (n ++ rest) = Some (JNum x, rest).
Proof.
  intros f n rest x Hj Hr Ht. destruct (json_number_numchars n Hj) as [Hn Hne].
  destruct n as [|c r]; [contradiction Hne; reflexivity|].
  pose proof Hn as Hc. cbn [forallb] in Hc. apply andb_true_iff in Hc as [Hc _].
  cbn [app parse_value]. rewrite (skip_ws_nonws c _ (numchar_not_ws c Hc)).
  rewrite !(fun k => numchar_neq c k Hc) by reflexivity. rewrite Hc.
  change (c :: r ++ rest) with ((c :: r) ++ rest).
  rewrite (span_num_app (c :: r) rest Hn Ht), Hj, Hr. reflexivity.
Qed.

Lemma parse_value_string : forall f s rest,
  parse_value read (S f) (escape_string_json s ++ rest) = Some (JStr s, rest).
Proof.
  intros f s rest. unfold escape_string_json at 1. cbn [app parse_value skip_ws is_ws N.eqb Pos.eqb orb].
  change (34 :: (escape_body s ++ [34]) ++ rest) with (escape_string_json s ++ rest).
  rewrite unescape_escape. reflexivity.
Qed.

(* the statement proved by induction on the value *)
Definition rt (v : jvalue) : Prop :=
  forall d rest fuel, tail_ok rest -> (cost v <= fuel)%nat ->
  parse_value read fuel (manifest show fmt d v ++ rest) = Some (v, rest).

Lemma empty_form_shape : forall o c d e, bracket_shape o c e ->
  exists w, all_ws w /\ empty_form fmt o c d e = o :: w ++ [c].
Proof.
  intros o c d [s|] H; cbn [empty_form].
  - destruct H as [w [E Hw]]. exists w. split; [exact Hw|exact E].
  - exists (newline fmt ++ newline fmt ++ repeat_str (indent fmt) d). split.
    + apply all_ws_app; [apply WF|]. apply all_ws_app; [apply WF|]. apply all_ws_repeat. apply WF.
    + cbn [app]. rewrite <- !app_assoc. reflexivity.
Qed.

Lemma manifest_head : forall v d, fin v ->
  exists c r, manifest show fmt d v = c :: r /\ is_ws c = false /\ c <> 93.
Proof.
  intros v d Hf. destruct v as [|b|x|s|l|ms]; cbn [manifest].
  - eexists 110, _. repeat split. discriminate.
  - destruct b; [eexists 116, _|eexists 102, _]; repeat split; discriminate.
  - destruct (json_number_numchars _ (show_number x (Forall_inv Hf))) as [Hn Hne].
    destruct (show x) as [|c r]; [contradiction Hne; reflexivity|].
    cbn [forallb] in Hn. apply andb_true_iff in Hn as [Hc _].
    exists c, r. repeat split; [exact (numchar_not_ws c Hc)|intros ->; discriminate Hc].
  - eexists 34, _. repeat split. discriminate.
  - destruct l as [|v l]; [|eexists 91, _; repeat split; discriminate].
    destruct (empty_form_shape 91 93 d (empty_array fmt) (wf_ea fmt WF)) as [w [_ ->]].
    eexists 91, _. repeat split. discriminate.
  - destruct ms as [|kv ms]; [|eexists 123, _; repeat split; discriminate].
    destruct (empty_form_shape 123 125 d (empty_object fmt) (wf_eo fmt WF)) as [w [_ ->]].
    eexists 123, _. repeat split. discriminate.
Qed.

Definition item_text (d : nat) (it : jvalue) := item_indent fmt d ++ manifest show fmt (S d) it.
Definition member_text (d : nat) (kv : str * jvalue) :=
  item_indent fmt d ++ escape_string_json (fst kv) ++ key_val_sep fmt ++ manifest show fmt (S d) (snd kv).

Lemma close_ws : forall d, all_ws (newline fmt ++ repeat_str (indent fmt) d).
Proof. intros d. apply all_ws_app; [apply WF|apply all_ws_repeat; apply WF]. Qed.

(* One round of a list parser on the item [x] printed as [t x]: the separator [c] found after
   the item decides between going on and closing. *)
Definition item_step {A} (P : nat -> str -> option (list A * str)) (t : A -> list N) (cst : A -> nat)
    (close : N) (x : A) : Prop :=
  forall w w' c r f, all_ws w -> all_ws w' -> is_ws c = false -> is_numchar c = false -> (cst x <= f)%nat ->
  P (S f) (w ++ t x ++ w' ++ c :: r) =
  if c =? 44 then match P f r with Some (xs, r') => Some (x :: xs, r') | None => None end
  else if c =? close then Some ([x], r) else None.

Lemma parse_elems_step : forall v d, rt v -> item_step (parse_elems read) (item_text d) cost 93 v.
Proof.
  intros v d Hv w w' c r f Hw Hw' Hc Hn Hf. unfold item_text. rewrite <- app_assoc. cbn [parse_elems].
  rewrite !parse_value_skip by (assumption || apply item_indent_ws, WF).
  rewrite (Hv (S d) _ f (tail_ok_ws_then w' c r Hw' Hn) Hf), (skip_ws_ws_then w' c r Hw' Hc). reflexivity.
Qed.

(* a round of [parse_members] starts with the key and the colon *)
Lemma parse_members_step : forall kv d, rt (snd kv) ->
  item_step (parse_members read) (member_text d) (fun kv => cost (snd kv)) 125 kv.
Proof.
  intros [k v] d Hv w w' c r f Hw Hw' Hc Hn Hf. unfold member_text. cbn [fst snd] in *.
  rewrite <- !app_assoc, !parse_members_skip by (assumption || apply item_indent_ws, WF).
  cbn [parse_members]. change (skip_ws (escape_string_json k ++ ?x)) with (escape_string_json k ++ x).
  rewrite unescape_escape.
  destruct (wf_kvs fmt WF) as [k1 [k2 [-> [Hk1 Hk2]]]]. rewrite <- !app_assoc. cbn [app].
  rewrite skip_ws_ws_then by (try exact Hk1; reflexivity). cbn [N.eqb Pos.eqb].
  rewrite parse_value_skip by exact Hk2.
  rewrite (Hv (S d) _ f (tail_ok_ws_then w' c r Hw' Hn) Hf), (skip_ws_ws_then w' c r Hw' Hc). reflexivity.
Qed.

(* items after the opening bracket (or after a comma), up to and including the closing bracket *)
Lemma parse_join {A} (P : nat -> str -> option (list A * str)) (t : A -> list N) (cst : A -> nat) (close : N) :
  is_ws close = false -> is_numchar close = false -> (close =? 44) = false ->
  forall l, l <> [] -> Forall (item_step P t cst close) l ->
  forall d w rest fuel, all_ws w ->
  (list_sum (map (fun x => S (cst x)) l) <= fuel)%nat ->
  P fuel (w ++ join (item_sep fmt ++ newline fmt) (map t l)
            ++ newline fmt ++ repeat_str (indent fmt) d ++ close :: rest) = Some (l, rest).
Proof.
  intros Hcw Hcn Hc44. induction l as [|x l IH]; intros Hne HF d w rest fuel Hw Hfuel; [contradiction Hne; reflexivity|].
  inversion HF as [|? ? Hx HFl]; subst. unfold item_step in Hx.
  cbn [map] in Hfuel. rewrite list_sum_cons in Hfuel.
  destruct fuel as [|f]; [inversion Hfuel|].
  pose proof (close_ws d) as Hcl. destruct (wf_item fmt WF) as [w1 [w2 [Esep [Hw1 Hw2]]]].
  cbn [map]. destruct l as [|y l].
  - rewrite join_single, (app_assoc (newline fmt)), Hx by (assumption || lia).
    rewrite Hc44, N.eqb_refl. reflexivity.
  - rewrite join_cons2 by discriminate. set (J := join _ _).
    rewrite Esep, <- !app_assoc. cbn [app]. rewrite Hx by (assumption || reflexivity || lia).
    cbn [N.eqb Pos.eqb]. rewrite app_assoc. subst J.
    rewrite (IH ltac:(discriminate) HFl d (w2 ++ newline fmt) rest f);
      [reflexivity|apply all_ws_app; [exact Hw2|apply WF]|lia].
Qed.

Lemma rt_arr : forall l, Forall fin l -> Forall rt l -> rt (JArr l).
Proof.
  intros l Hfl IH d rest [|f] _ Hfuel; [inversion Hfuel|]. destruct l as [|v l]; cbn [manifest].
  - destruct (empty_form_shape 91 93 d (empty_array fmt) (wf_ea fmt WF)) as [w [Hw ->]].
    cbn [app]. rewrite <- app_assoc, parse_value_arr. cbn [app].
    rewrite skip_ws_ws_then by (try exact Hw; reflexivity). reflexivity.
  - fold (item_text d). rewrite <- !app_assoc. cbn [app]. rewrite parse_value_arr.
    (* the first non-blank code point after the bracket is the head of the first item *)
    destruct (manifest_head v (S d) (Forall_inv Hfl)) as [c [r [Eh [Hws Hn93]]]].
    destruct (skip_ws_join_head (item_sep fmt ++ newline fmt) (item_text d) v l (newline fmt) (item_indent fmt d) c r
                (newline fmt ++ repeat_str (indent fmt) d ++ 93 :: rest)) as [tl Hs];
      [apply WF|apply item_indent_ws, WF|exact Hws|unfold item_text; now rewrite Eh|].
    rewrite Hs. replace (c =? 93) with false by (symmetry; apply N.eqb_neq; exact Hn93).
    cbn [cost] in Hfuel.
    rewrite (parse_join (parse_elems read) (item_text d) cost 93 eq_refl eq_refl eq_refl (v :: l) ltac:(discriminate)
               (Forall_impl _ (fun x Hx => parse_elems_step x d Hx) IH) d (newline fmt) rest f);
      [reflexivity|apply WF|lia].
Qed.

Lemma rt_obj : forall ms, Forall (fun kv => rt (snd kv)) ms -> rt (JObj ms).
Proof.
  intros ms IH d rest [|f] _ Hfuel; [inversion Hfuel|]. destruct ms as [|kv ms]; cbn [manifest].
  - destruct (empty_form_shape 123 125 d (empty_object fmt) (wf_eo fmt WF)) as [w [Hw ->]].
    cbn [app]. rewrite <- app_assoc, parse_value_obj. cbn [app].
    rewrite skip_ws_ws_then by (try exact Hw; reflexivity). reflexivity.
  - fold (member_text d). rewrite <- !app_assoc. cbn [app]. rewrite parse_value_obj.
    destruct (skip_ws_join_head (item_sep fmt ++ newline fmt) (member_text d) kv ms (newline fmt) (item_indent fmt d) 34
                ((escape_body (fst kv) ++ [34]) ++ key_val_sep fmt ++ manifest show fmt (S d) (snd kv))
                (newline fmt ++ repeat_str (indent fmt) d ++ 125 :: rest)) as [tl Hs];
      [apply WF|apply item_indent_ws, WF|reflexivity|reflexivity|].
    rewrite Hs. cbn [N.eqb Pos.eqb]. cbn [cost] in Hfuel.
    rewrite (parse_join (parse_members read) (member_text d) _ 125 eq_refl eq_refl eq_refl (kv :: ms) ltac:(discriminate)
               (Forall_impl _ (fun x Hx => parse_members_step x d Hx) IH) d (newline fmt) rest f);
      [reflexivity|apply WF|lia].
Qed.

Theorem rt_all : forall v, fin v -> rt v.
Proof.
  apply (finite_ind okn rt).
  - intros d rest [|f] _ Hfuel; [inversion Hfuel|]. reflexivity.
  - intros b d rest [|f] _ Hfuel; [inversion Hfuel|]. destruct b; reflexivity.
  - intros x Hx d rest [|f] Ht Hfuel; [inversion Hfuel|].
    exact (parse_value_number f (show x) rest x (show_number x Hx) (read_show x Hx) Ht).
  - intros s d rest [|f] _ Hfuel; [inversion Hfuel|]. apply parse_value_string.
  - exact rt_arr.
  - intros ms _. apply rt_obj.
Qed.

(* the text is long enough to be its own fuel *)
Lemma item_sep_nonempty : (1 <= length (item_sep fmt ++ newline fmt))%nat.
Proof.
  destruct (wf_item fmt WF) as [w1 [w2 [E _]]]. rewrite E. rewrite !app_length. cbn [length]. lia.
Qed.

Lemma manifest_length : forall v, fin v -> forall d, (cost v <= length (manifest show fmt d v))%nat.
Proof.
  apply (finite_ind okn (fun v => forall d, (cost v <= length (manifest show fmt d v))%nat)).
  - intros d. cbn. lia.
  - intros [|] d; cbn; lia.
  - intros x Hx d. cbn [manifest cost].
    destruct (json_number_numchars _ (show_number x Hx)) as [_ Hne].
    destruct (show x); [contradiction Hne; reflexivity|cbn [length]; lia].
  - intros s d. cbn [manifest cost]. unfold escape_string_json. cbn [length]. lia.
  - intros l _ IH d. destruct l as [|v l]; cbn [manifest cost].
    + destruct (empty_form_shape 91 93 d (empty_array fmt) (wf_ea fmt WF)) as [w [_ ->]]. cbn. lia.
    + assert (F : Forall (fun x => (cost x <= length (item_text d x))%nat) (v :: l)).
      { eapply Forall_impl; [|exact IH]. intros x Hx. unfold item_text. rewrite app_length. specialize (Hx (S d)). lia. }
      pose proof (join_length_bound _ _ _ _ item_sep_nonempty F ltac:(discriminate)) as B. unfold item_text in B.
      rewrite !app_length. cbn [length]. lia.
  - intros ms _ IH d. destruct ms as [|kv ms]; cbn [manifest cost].
    + destruct (empty_form_shape 123 125 d (empty_object fmt) (wf_eo fmt WF)) as [w [_ ->]]. cbn. lia.
    + assert (F : Forall (fun kv => (cost (snd kv) <= length (member_text d kv))%nat) (kv :: ms)).
      { eapply Forall_impl; [|exact IH]. intros x Hx. unfold member_text. rewrite !app_length. specialize (Hx (S d)). lia. }
      pose proof (join_length_bound _ _ _ _ item_sep_nonempty F ltac:(discriminate)) as B. unfold member_text in B.
      rewrite !app_length. cbn [length]. lia.
Qed.

(* a value followed by more text, with the fuel the decoder gives itself *)
Theorem parse_manifest : forall v d rest, fin v -> tail_ok rest ->
  parse_value read (S (length (manifest show fmt d v ++ rest))) (manifest show fmt d v ++ rest) = Some (v, rest).
Proof.
  intros v d rest Hf Ht. apply (rt_all v Hf d rest _ Ht).
  pose proof (manifest_length v Hf d). rewrite app_length. lia.
Qed.
End RoundTrip.

Lemma ws_format_to_string : ws_format fmt_to_string.
Proof.
  constructor; cbn; try reflexivity.
  - exists [], [32]. repeat split.
  - exists [], [32]. repeat split.
  - exists [32]. repeat split.
  - exists [32]. repeat split.
Qed.

Lemma ws_format_manifest : ws_format fmt_manifest.
Proof.
  constructor; cbn; try reflexivity.
  - exists [], [32]. repeat split.
  - exists [], []. repeat split.
  - exists [32]. repeat split.
  - exists [32]. repeat split.
Qed.

Lemma ws_format_std_ex : forall i n k, all_ws i -> all_ws n -> sep_shape 58 k -> ws_format (fmt_std_ex i n k).
Proof.
  intros i n k Hi Hn Hk. constructor; cbn; try assumption; try exact I.
  exists [], []. repeat split.
Qed.

Lemma builtin_formats_ws :
  ws_format fmt_to_string /\ ws_format fmt_manifest /\ ws_format fmt_std_json /\ ws_format fmt_minified.
Proof.
  split; [exact ws_format_to_string|split; [exact ws_format_manifest|split]].
  - apply ws_format_std_ex; try reflexivity. exists [], [32]. repeat split.
  - apply ws_format_std_ex; try reflexivity. exists [], []. repeat split.
Qed.

Section Headline.
Variable okn : f64 -> Prop.
Let fin (v : jvalue) : Prop := Forall okn (nums_of v).
Variable show : f64 -> str.
Variable read : str -> option f64.
Hypothesis read_show : forall x, okn x -> read (show x) = Some x.
Hypothesis show_number : forall x, okn x -> is_json_number (show x) = true.

Theorem manifest_parse_roundtrip : forall fmt v d,
  ws_format fmt -> fin v -> decode read (manifest show fmt d v) = Ok v.
Proof.
  intros fmt v d WF Hf. unfold decode.
  pose proof (parse_manifest okn show read read_show show_number fmt WF v d [] Hf I) as H.
  rewrite app_nil_r in H. rewrite H. reflexivity.
Qed.

(* two values never share a document, across formats and depths *)
Corollary manifest_injective : forall fmt1 fmt2 v1 v2 d1 d2,
  ws_format fmt1 -> ws_format fmt2 -> fin v1 -> fin v2 ->
  manifest show fmt1 d1 v1 = manifest show fmt2 d2 v2 -> v1 = v2.
Proof.
  intros fmt1 fmt2 v1 v2 d1 d2 W1 W2 F1 F2 E.
  pose proof (manifest_parse_roundtrip fmt1 v1 d1 W1 F1) as R1.
  pose proof (manifest_parse_roundtrip fmt2 v2 d2 W2 F2) as R2.
  rewrite E in R1. rewrite R1 in R2. injection R2 as ->. reflexivity.
Qed.

(* the document wrappers of the command line: the default document ends in a newline;
   -m: every file holds the document of its field; -y: every stream item is a document *)
Corollary cli_default_roundtrip : forall v, fin v -> decode read (cli_default show v) = Ok v.
Proof.
  intros v Hf. unfold decode, cli_default, manifest_json.
  rewrite (parse_manifest okn show read read_show show_number fmt_manifest ws_format_manifest v 0 [10] Hf); reflexivity.
Qed.

Theorem cli_multi_roundtrip : forall ms, fin (JObj ms) ->
  exists files, cli_multi show (JObj ms) = Some files
  /\ Forall2 (fun kv f => fst f = fst kv /\ decode read (snd f) = Ok (snd kv)) ms files.
Proof.
  intros ms Hf. eexists. split; [reflexivity|].
  apply Forall_flat_map in Hf.
  induction Hf as [|kv l Hkv Hl IH]; cbn [map]; constructor; [|exact IH].
  split; [reflexivity|]. apply cli_default_roundtrip. exact Hkv.
Qed.

Theorem cli_yaml_stream_roundtrip : forall items, fin (JArr items) -> items <> [] ->
  exists docs, cli_yaml_stream show (JArr items)
               = Some (flat_map (fun doc => [45; 45; 45; 10] ++ doc) docs ++ [46; 46; 46; 10])
  /\ Forall2 (fun it doc => decode read doc = Ok it) items docs.
Proof.
  intros items Hf Hne. exists (map (cli_default show) items). split.
  - destruct items as [|v l]; [contradiction Hne; reflexivity|].
    cbn [cli_yaml_stream]. do 2 f_equal.
    generalize (v :: l). intros l0. induction l0 as [|x r IH]; [reflexivity|].
    cbn [flat_map map]. rewrite IH. unfold cli_default. rewrite <- !app_assoc. reflexivity.
  - apply Forall_flat_map in Hf. clear Hne.
    induction Hf as [|x r Hx Hr IH]; cbn [map]; constructor; [|exact IH].
    apply cli_default_roundtrip. exact Hx.
Qed.
End Headline.

Lemma erase_ws_skip : forall w s, all_ws w -> erase_ws_aux false false (w ++ s) = erase_ws_aux false false s.
Proof.
  induction w as [|c w IH]; intros s H; [reflexivity|].
  unfold all_ws in H. cbn [forallb] in H. apply andb_true_iff in H as [Hc Hw].
  cbn [app erase_ws_aux]. rewrite Hc. apply IH. exact Hw.
Qed.

Lemma erase_plain : forall c s, is_ws c = false -> c <> 34 ->
  erase_ws_aux false false (c :: s) = c :: erase_ws_aux false false s.
Proof.
  intros c s Hw Hq. cbn [erase_ws_aux]. rewrite Hw.
  replace (c =? 34) with false by (symmetry; apply N.eqb_neq; exact Hq). reflexivity.
Qed.

Lemma erase_numchars : forall n s, forallb is_numchar n = true ->
  erase_ws_aux false false (n ++ s) = n ++ erase_ws_aux false false s.
Proof.
  induction n as [|c n IH]; intros s H; [reflexivity|].
  cbn [forallb] in H. apply andb_true_iff in H as [Hc Hn]. cbn [app].
  rewrite erase_plain; [rewrite (IH s Hn); reflexivity|apply numchar_not_ws; exact Hc|].
  intros ->. discriminate Hc.
Qed.

Lemma hex_not_special : forall a x, hex_val a = Some x -> (a =? 92) = false /\ (a =? 34) = false.
Proof.
  intros a x H. split.
  - destruct (N.eqb_spec a 92) as [->|_]; [discriminate H|reflexivity].
  - destruct (N.eqb_spec a 34) as [->|_]; [discriminate H|reflexivity].
Qed.

Lemma erase_in_string_char : forall c s,
  erase_ws_aux true false (escape_char c ++ s) = escape_char c ++ erase_ws_aux true false s.
Proof.
  intros c s. destruct (escape_char_shape c) as [H1 H2 H3 H4 | e He Hs | a b Hc Ha Hb]; cbn [app].
  - cbn [erase_ws_aux].
    replace (c =? 92) with false by (symmetry; apply N.eqb_neq; assumption).
    replace (c =? 34) with false by (symmetry; apply N.eqb_neq; assumption). reflexivity.
  - reflexivity.
  - destruct (hex_not_special a _ Ha) as [A1 A2]. destruct (hex_not_special b _ Hb) as [B1 B2].
    cbn [erase_ws_aux N.eqb Pos.eqb]. rewrite A1, A2, B1, B2. reflexivity.
Qed.

Lemma erase_string : forall k s,
  erase_ws_aux false false (escape_string_json k ++ s) = escape_string_json k ++ erase_ws_aux false false s.
Proof.
  intros k s. unfold escape_string_json. cbn [app erase_ws_aux is_ws N.eqb Pos.eqb orb]. f_equal.
  rewrite <- app_assoc. cbn [app].
  induction k as [|c k IH].
  - reflexivity.
  - unfold escape_body. cbn [flat_map]. fold (escape_body k). rewrite <- !app_assoc.
    rewrite erase_in_string_char. rewrite IH. rewrite <- !app_assoc. reflexivity.
Qed.

Lemma repeat_str_nil : forall n, repeat_str [] n = [].
Proof. induction n as [|n IH]; [reflexivity|exact IH]. Qed.

Section Erasure.
Variable okn : f64 -> Prop.
Variable show : f64 -> str.
Hypothesis show_number : forall x, okn x -> is_json_number (show x) = true.
Variable fmt : json_format.
Hypothesis WF : ws_format fmt.

Definition er (v : jvalue) : Prop :=
  forall d d' rest,
  erase_ws_aux false false (manifest show fmt d v ++ rest)
  = manifest show fmt_minified d' v ++ erase_ws_aux false false rest.

Lemma erase_close : forall c d rest, is_ws c = false -> c <> 34 ->
  erase_ws_aux false false (newline fmt ++ repeat_str (indent fmt) d ++ c :: rest)
  = c :: erase_ws_aux false false rest.
Proof.
  intros c d rest H1 H2. rewrite erase_ws_skip by apply WF.
  rewrite erase_ws_skip by (apply all_ws_repeat; apply WF). apply erase_plain; assumption.
Qed.

Lemma erase_empty_form : forall o c d d' e rest, bracket_shape o c e ->
  is_ws o = false -> o <> 34 -> is_ws c = false -> c <> 34 ->
  erase_ws_aux false false (empty_form fmt o c d e ++ rest)
  = empty_form fmt_minified o c d' None ++ erase_ws_aux false false rest.
Proof.
  intros o c d d' e rest B Ho1 Ho2 Hc1 Hc2.
  destruct (empty_form_shape fmt WF o c d e B) as [w [Hw E]]. rewrite E.
  cbn [empty_form fmt_minified fmt_std_ex newline indent app]. rewrite repeat_str_nil. cbn [app].
  rewrite erase_plain by assumption. rewrite <- app_assoc. rewrite erase_ws_skip by exact Hw.
  cbn [app]. rewrite erase_plain by assumption. reflexivity.
Qed.

Lemma minified_item_indent : forall d, item_indent fmt_minified d = [].
Proof. reflexivity. Qed.

(* Items that erase one by one erase as a joined list: every separator shrinks to its comma. *)
Lemma erase_join {A} (t t' : A -> list N) : forall l, l <> [] ->
  Forall (fun x => forall tl, erase_ws_aux false false (t x ++ tl) = t' x ++ erase_ws_aux false false tl) l ->
  forall w rest, all_ws w ->
  erase_ws_aux false false (w ++ join (item_sep fmt ++ newline fmt) (map t l) ++ rest)
  = join [44] (map t' l) ++ erase_ws_aux false false rest.
Proof.
  induction l as [|x l IH]; intros Hne HF w rest Hw; [contradiction Hne; reflexivity|].
  inversion HF as [|? ? Hx HFl]; subst.
  destruct (wf_item fmt WF) as [w1 [w2 [Esep [Hw1 Hw2]]]].
  rewrite erase_ws_skip by exact Hw. cbn [map]. destruct l as [|y l].
  - rewrite !join_single. apply Hx.
  - rewrite !join_cons2 by discriminate. set (J := join (item_sep fmt ++ newline fmt) _).
    rewrite <- !app_assoc, Hx. f_equal.
    rewrite Esep, <- !app_assoc, erase_ws_skip by exact Hw1. cbn [app].
    rewrite erase_plain by (try reflexivity; discriminate). f_equal.
    rewrite app_assoc. subst J.
    apply (IH ltac:(discriminate) HFl). apply all_ws_app; [exact Hw2|apply WF].
Qed.

Lemma er_arr : forall l, Forall er l -> er (JArr l).
Proof.
  intros l IH d d' rest. destruct l as [|v l]; cbn [manifest].
  - apply erase_empty_form; try (apply WF); try reflexivity; discriminate.
  - cbn [fmt_minified fmt_std_ex newline indent item_sep app]. rewrite repeat_str_nil.
    cbn [app]. rewrite erase_plain by (try reflexivity; discriminate). f_equal.
    rewrite <- !app_assoc.
    rewrite (erase_join _ (fun it => manifest show fmt_minified (S d') it) (v :: l)); [| discriminate | | apply WF].
    + cbn [app]. rewrite erase_close by (try reflexivity; discriminate). reflexivity.
    + eapply Forall_impl; [|exact IH]. intros x Hx tl. rewrite <- app_assoc.
      rewrite erase_ws_skip by (apply item_indent_ws, WF). apply Hx.
Qed.

Lemma er_obj : forall ms, Forall (fun kv => er (snd kv)) ms -> er (JObj ms).
Proof.
  intros ms IH d d' rest. destruct ms as [|kv ms]; cbn [manifest].
  - apply erase_empty_form; try (apply WF); try reflexivity; discriminate.
  - cbn [fmt_minified fmt_std_ex newline indent item_sep key_val_sep app]. rewrite repeat_str_nil.
    cbn [app]. rewrite erase_plain by (try reflexivity; discriminate). f_equal.
    rewrite <- !app_assoc.
    rewrite (erase_join _ (fun kv => escape_string_json (fst kv) ++ [58] ++ manifest show fmt_minified (S d') (snd kv))
               (kv :: ms)); [| discriminate | | apply WF].
    + cbn [app]. rewrite erase_close by (try reflexivity; discriminate). reflexivity.
    + eapply Forall_impl; [|exact IH]. intros [k x] Hx tl. cbn [fst snd] in *.
      destruct (wf_kvs fmt WF) as [k1 [k2 [-> [Hk1 Hk2]]]]. rewrite <- !app_assoc.
      rewrite erase_ws_skip by (apply item_indent_ws, WF). rewrite erase_string. f_equal.
      rewrite erase_ws_skip by exact Hk1. cbn [app].
      rewrite erase_plain by (try reflexivity; discriminate). f_equal.
      rewrite erase_ws_skip by exact Hk2. apply Hx.
Qed.

Theorem er_all : forall v, Forall okn (nums_of v) -> er v.
Proof.
  apply (finite_ind okn er); unfold er.
  - reflexivity.
  - intros [|]; reflexivity.
  - intros x Hx d d' rest. cbn [manifest].
    apply erase_numchars, (json_number_numchars _ (show_number x Hx)).
  - intros s d d' rest. cbn [manifest]. apply erase_string.
  - intros l _. apply er_arr.
  - intros ms _. apply er_obj.
Qed.

Theorem ws_erasure : forall v d d', Forall okn (nums_of v) ->
  erase_ws (manifest show fmt d v) = manifest show fmt_minified d' v.
Proof.
  intros v d d' Hf. unfold erase_ws.
  pose proof (er_all v Hf d d' []) as H. rewrite !app_nil_r in H. exact H.
Qed.
End Erasure.
