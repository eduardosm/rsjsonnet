(* Proofs/RefNoPanic_defs.v — C01: the reference interpreter (Model/RefEval.v) never answers Panic, part 1.

   The only panic site of RefEval that needs a global invariant is CompareValue's
   `partial_cmp().unwrap()`: it is unreachable because no number value is ever a NaN.
   [nv_value / nv_thunk / nv_env / nv_layer]: every number stored anywhere in a run-time structure
   (arrays of thunks, environments, object layers, closures, pending calls) is not a NaN.
   Same shape as RefScope_defs.wf_* (C02's scope invariant) without the closedness part.
   The other sites (answer kinds of the knot, do_field's layer lookup, call_builtin's arity) are local. *)
From RJ Require Import Base.Outcome Base.F64 Model.Token Model.Ast Model.RefCore Model.RefValue Model.RefEval.
From RJ Require Import Proofs.RefScope_defs.
From Coq Require Import Lia Floats.SpecFloat.
Local Open Scope N_scope.

Definition nn (f : f64) : Prop := f <> S754_nan.

Lemma shr_1_nonneg mrs : (0 <= shr_m mrs)%Z -> (0 <= shr_m (shr_1 mrs))%Z.
Proof. destruct mrs as [m r s]. cbn [shr_m]. destruct m as [|p|p]; [|destruct p|]; cbn; lia. Qed.

Lemma iter_shr_1_nonneg p : forall mrs, (0 <= shr_m mrs)%Z -> (0 <= shr_m (iter_pos shr_1 p mrs))%Z.
Proof.
  induction p as [p IH|p IH|]; intros mrs H; cbn [iter_pos].
  - apply IH. apply IH. apply shr_1_nonneg. exact H.
  - apply IH. apply IH. exact H.
  - apply shr_1_nonneg. exact H.
Qed.

Lemma shr_fexp_nonneg prec emax m e l : (0 <= m)%Z -> (0 <= shr_m (fst (shr_fexp prec emax m e l)))%Z.
Proof.
  intros H. unfold shr_fexp, shr.
  assert (H0 : (0 <= shr_m (shr_record_of_loc m l))%Z) by (destruct l as [|[| |]]; exact H).
  destruct (fexp prec emax (Zdigits2 m + e) - e)%Z; cbn [fst]; [exact H0| |exact H0].
  apply iter_shr_1_nonneg. exact H0.
Qed.

Lemma round_nearest_even_nonneg m l : (0 <= m)%Z -> (0 <= round_nearest_even m l)%Z.
Proof. intros H. unfold round_nearest_even. destruct l as [|[| |]]; try destruct (Z.even m); lia. Qed.

Lemma binary_round_aux_nn prec emax sx mx ex lx : (0 <= mx)%Z -> binary_round_aux prec emax sx mx ex lx <> S754_nan.
Proof.
  intros H. unfold binary_round_aux.
  pose proof (shr_fexp_nonneg prec emax mx ex lx H) as H1.
  destruct (shr_fexp prec emax mx ex lx) as [mrs' e']. cbn [fst] in H1.
  pose proof (shr_fexp_nonneg prec emax _ e' loc_Exact (round_nearest_even_nonneg _ (loc_of_shr_record mrs') H1)) as H2.
  destruct (shr_fexp prec emax (round_nearest_even (shr_m mrs') (loc_of_shr_record mrs')) e' loc_Exact) as [mrs'' e''].
  cbn [fst] in H2. destruct (shr_m mrs''); [discriminate| |lia].
  destruct (Zle_bool e'' (emax - prec)); discriminate.
Qed.

Lemma nn_f_of_Z z : nn (f_of_Z z).
Proof.
  unfold nn, f_of_Z, f_of_Z_exp, binary_normalize. destruct z; [discriminate| |];
    unfold binary_round; destruct (shl_align _ _ _); apply binary_round_aux_nn; lia.
Qed.
Lemma nn_f_of_N n : nn (f_of_N n).
Proof. apply nn_f_of_Z. Qed.
Lemma nn_f_zero : nn f_zero. Proof. discriminate. Qed.
Lemma nn_f_neg f : nn f -> nn (f_neg f).
Proof. unfold nn, f_neg. destruct f; cbn; congruence. Qed.
Lemma nn_compare x y : nn x -> nn y -> f_compare x y <> None.
Proof. unfold nn, f_compare. destruct x, y; cbn; try congruence; try discriminate. Qed.

Inductive nv_value : value -> Prop :=
| NV_null : nv_value VNull
| NV_bool b : nv_value (VBool b)
| NV_num f : nn f -> nv_value (VNum f)
| NV_str s : nv_value (VStr s)
| NV_arr items : Forall nv_thunk items -> nv_value (VArr items)
| NV_obj ls c : Forall nv_layer ls -> nv_value (VObj ls c)
| NV_fun ps body fenv : nv_env fenv -> nv_value (VFun ps body fenv)
| NV_builtin b : nv_value (VBuiltin b)
with nv_thunk : thunk -> Prop :=
| NT_th e en : nv_env en -> nv_thunk (Th e en)
| NT_tv v : nv_value v -> nv_thunk (Tv v)
| NT_call f args : nv_value f -> Forall nv_thunk args -> nv_thunk (TCall f args)
with nv_env : list frame -> Prop :=
| NE_nil : nv_env []
| NE_vars b r rest : Forall (fun p => nv_thunk (snd p)) b -> nv_env rest -> nv_env (FVars b r :: rest)
| NE_obj ls i c rest : Forall nv_layer ls -> nv_env rest -> nv_env (FObj ls i c :: rest)
with nv_layer : layer -> Prop :=
| NL_intro locals asserts fields en std :
    nv_env en ->
    Forall (fun nf => forall fe, f_fenv (snd nf) = Some fe -> nv_env fe) fields ->
    nv_layer (MkLayer locals asserts fields en std).

Definition nv_layers (ls : list layer) : Prop := Forall nv_layer ls.
Definition nv_vars (v : list (str * thunk)) : Prop := Forall (fun p => nv_thunk (snd p)) v.

Lemma nv_num_inv f : nv_value (VNum f) -> nn f.
Proof. inversion 1; assumption. Qed.
Lemma nv_arr_inv items : nv_value (VArr items) -> Forall nv_thunk items.
Proof. inversion 1; assumption. Qed.
Lemma nv_obj_inv ls c : nv_value (VObj ls c) -> Forall nv_layer ls.
Proof. inversion 1; assumption. Qed.

Lemma lookup_var_nv : forall x en t, nv_env en -> lookup_var x en = Some t -> nv_thunk t.
Proof.
  intros x en. induction en as [|fr rest IH]; intros t Hnv H; simpl in H; [discriminate|].
  destruct fr as [b r | ls i c].
  - inversion Hnv as [| b' r' rest' Hb Hrest |]; subst.
    destruct (assoc x b) as [t0|] eqn:Eb.
    + injection H as <-. apply in_assoc_in in Eb. rewrite Forall_forall in Hb. apply (Hb _ Eb).
    + destruct (assoc x r) as [ex|] eqn:Er.
      * injection H as <-. constructor. exact Hnv.
      * apply IH; assumption.
  - inversion Hnv; subst. apply IH; assumption.
Qed.

Lemma lookup_obj_nv : forall en ls i c, nv_env en -> lookup_obj en = Some (ls, i, c) -> nv_layers ls.
Proof.
  induction en as [|fr rest IH]; intros ls i c Hnv H; simpl in H; [discriminate|].
  destruct fr as [b r | ls' i' c'].
  - inversion Hnv; subst. eapply IH; eassumption.
  - injection H as <- <- <-. inversion Hnv; subst. assumption.
Qed.

Lemma layer_env_nv ls i l base : nv_layers ls -> nv_env base -> nv_env (layer_env ls i l base).
Proof. intros Hls Hb. unfold layer_env. constructor; [constructor|]. constructor; assumption. Qed.

Lemma field_env_nv ls i l name f : nv_layers ls -> In l ls -> In (name, f) (l_fields l) -> nv_env (field_env ls i l f).
Proof.
  intros Hls Hl Hin. unfold field_env. apply layer_env_nv; [exact Hls|].
  destruct (Forall_in _ _ _ Hls Hl) as [locals asserts fields en std He Hf]. cbn [l_fields l_env] in *.
  destruct (f_fenv f) as [fe|] eqn:E; [|exact He].
  exact (Forall_in _ _ _ Hf Hin fe E).
Qed.
