(* Proofs/RefSem_laws.v — C02: the big-step reading of the reference interpreter, the specification's
   desugaring laws, and the laws of `error`, `assert`, `if` and `!=` read on the core interpreter. *)
From RJ Require Import Base.Outcome Base.F64 Model.Token Model.Ast Model.RefCore Model.RefValue Model.RefEval.
From RJ Require Import Proofs.RefSem_proofs.
Local Open Scope N_scope.

(* [evaluates c e r]: some amount of fuel produces the result r (value or error, with its trace) *)
Definition evaluates (c : cfg) (e : expr) (r : res json) : Prop :=
  exists fuel, run fuel c e = r /\ snd r <> OutOfFuel.

Theorem evaluates_functional : forall c e r1 r2, evaluates c e r1 -> evaluates c e r2 -> r1 = r2.
Proof.
  intros c e r1 r2 (f1 & H1 & N1) (f2 & H2 & N2).
  rewrite <- (fuel_monotone f1 (Nat.max f1 f2) c e r1 H1 N1 (Nat.le_max_l _ _)).
  rewrite <- (fuel_monotone f2 (Nat.max f1 f2) c e r2 H2 N2 (Nat.le_max_r _ _)).
  reflexivity.
Qed.

Lemma ne_desugars : forall io tl sp sp1 sp2 l r,
  ds_expr io tl (EBinary sp l BNe r) = ds_expr io tl (EUnary sp1 ULogicNot (EBinary sp2 l BEq r)).
Proof. reflexivity. Qed.

Lemma objext_desugars : forall io tl sp sp1 sp2 e o osp,
  ds_expr io tl (EObjExt sp e o osp) = ds_expr io tl (EBinary sp1 e BAdd (EObject sp2 o)).
Proof. reflexivity. Qed.

Lemma if_no_else_desugars : forall io tl sp sp1 sp2 c t,
  ds_expr io tl (EIf sp c t None) = ds_expr io tl (EIf sp1 c t (Some (ENull sp2))).
Proof. reflexivity. Qed.

Lemma local_function_desugars : forall io tl sp sp1 f ps psp b rest body,
  ds_expr io tl (ELocal sp (MkBind f (Some (ps, psp)) b :: rest) body)
  = ds_expr io tl (ELocal sp (MkBind f None (EFunc sp1 ps b) :: rest) body).
Proof. reflexivity. Qed.

Lemma field_function_desugars : forall io tl sp sp1 name ps psp vis b before after,
  ds_expr io tl (EObject sp (OMembers (before ++ MField (FFunc name ps psp vis b) :: after)))
  = ds_expr io tl (EObject sp (OMembers (before ++ MField (FValue name false vis (EFunc sp1 ps b)) :: after))).
Proof.
  intros. cbn [ds_expr ds_obj]. rewrite !flat_map_app. reflexivity.
Qed.

Lemma paren_transparent : forall sp e, desugar (EParen sp e) = desugar e.
Proof. reflexivity. Qed.

(* `$` is the variable bound by `local $ = self` on every outermost object, and only there:
   an outermost object literal is the inner-object form plus that one object local (computed
   field names stay in the enclosing scope, hence [ds_field_of io]) *)
Lemma dollar_is_outermost_self : forall tl sp s1 s2 s3 ms,
  ds_expr false tl (EObject sp (OMembers ms))
  = CObject (ds_bind true (MkBind {| id_value := dollar; id_span := s1 |} None (ESelf s2)) :: flat_map ds_local_of ms)
            (flat_map ds_assert_of ms) (flat_map (ds_field_of false) ms)
  /\ ds_expr true tl (EObject sp (OMembers ms))
     = CObject (flat_map ds_local_of ms) (flat_map ds_assert_of ms) (flat_map (ds_field_of true) ms)
  /\ (forall io, ds_expr io tl (EDollar s3) = ds_expr io tl (EIdent s3 {| id_value := dollar; id_span := s1 |})).
Proof. intros. split; [reflexivity | split; [reflexivity | intros; reflexivity]]. Qed.

Lemma desugar_eq_run : forall e1 e2, desugar e1 = desugar e2 -> forall fuel c, run fuel c e1 = run fuel c e2.
Proof. intros e1 e2 H fuel c. unfold run. rewrite H. reflexivity. Qed.

Lemma run_task_S f c t d : run_task (S f) c t d = step t d c (run_task f c).
Proof. reflexivity. Qed.

Definition fits (c : cfg) (d : N) : Prop := c_limit c <? d + 1 = false.

Ltac norm_apps := repeat rewrite ?app_nil_r, ?app_nil_l.
(* one step of the interpreter on a given node, spelled out down to results; [run_task] stays folded,
   so that what is known of the sub-evaluations can be rewritten in *)
Ltac crunch :=
  cbv [step do_eval do_force bind enter eval forceT call to_string as_val as_bool as_json
       ret fail lift kind run_assert cond_bool manifest render_m equals un_op fits fst snd] in *.

(* `error e`: if e evaluates to the string s, the program fails with exactly that message *)
Lemma error_message_string : forall f c en e d t s,
  fits c d ->
  run_task f c (TEval en e) (d + 1) = (t, Ok (AVal (VStr s))) ->
  run_task (S f) c (TEval en (CError e)) d = (t, Err (EExplicit s)).
Proof.
  intros * Hfit He. rewrite run_task_S.
  crunch. rewrite Hfit. crunch. rewrite He. crunch. norm_apps. reflexivity.
Qed.

(* ... and to the value v otherwise: the message is its toString text *)
Lemma error_message : forall f c en e d t v t2 j s,
  fits c d ->
  run_task f c (TEval en e) (d + 1) = (t, Ok (AVal v)) ->
  (forall s0, v <> VStr s0) ->
  run_task f c (TManifest true v) (d + 1) = (t2, Ok (AJson j)) ->
  render j = Some s ->
  run_task (S f) c (TEval en (CError e)) d = (t ++ t2, Err (EExplicit s)).
Proof.
  intros * Hfit He Hns Hm Hr. rewrite run_task_S.
  crunch. rewrite Hfit. crunch. rewrite He. crunch.
  destruct v; try (exfalso; eapply Hns; reflexivity); crunch; rewrite Hm; crunch; rewrite Hr; crunch; norm_apps; reflexivity.
Qed.

(* failed assert with a message that evaluates to the string s *)
Lemma assert_message : forall f c en cnd m body d t1 t2 s,
  run_task f c (TEval en cnd) d = (t1, Ok (AVal (VBool false))) ->
  run_task f c (TEval en m) d = (t2, Ok (AVal (VStr s))) ->
  run_task (S f) c (TEval en (CAssert cnd (Some m) body)) d = (t1 ++ t2, Err (EAssertFailed (Some s))).
Proof.
  intros * Hc Hm. rewrite run_task_S.
  crunch. rewrite Hc. crunch. rewrite Hm. crunch. norm_apps. reflexivity.
Qed.

Lemma assert_nomsg : forall f c en cnd body d t1,
  run_task f c (TEval en cnd) d = (t1, Ok (AVal (VBool false))) ->
  run_task (S f) c (TEval en (CAssert cnd None body)) d = (t1, Err (EAssertFailed None)).
Proof.
  intros * Hc. rewrite run_task_S.
  crunch. rewrite Hc. crunch. norm_apps. reflexivity.
Qed.

(* assert c : m; e  with c true is e (whatever e does), and so is  if c then e else error m *)
Lemma assert_is_if_error : forall f c en cnd m m' body d t1,
  run_task f c (TEval en cnd) d = (t1, Ok (AVal (VBool true))) ->
  run_task (S f) c (TEval en (CAssert cnd m body)) d
  = run_task (S f) c (TEval en (CIte cnd body (CError m'))) d.
Proof.
  intros * Hc. rewrite !run_task_S.
  crunch. rewrite Hc. crunch.
  destruct (run_task f c (TEval en body) d) as [t2 [a | e | s |]]; crunch; norm_apps; try reflexivity.
  destruct a; crunch; norm_apps; reflexivity.
Qed.

(* if c then a else b  evaluates the branch that c selects *)
Lemma if_branch : forall f c en cnd a b d t1 t2 v (sel : bool),
  run_task f c (TEval en cnd) d = (t1, Ok (AVal (VBool sel))) ->
  run_task f c (TEval en (if sel then a else b)) d = (t2, Ok (AVal v)) ->
  run_task (S f) c (TEval en (CIte cnd a b)) d = (t1 ++ t2, Ok (AVal v)).
Proof.
  intros * Hc Hs. rewrite run_task_S.
  crunch. rewrite Hc. crunch. destruct sel; rewrite Hs; crunch; norm_apps; reflexivity.
Qed.

Lemma assert_true_transparent : forall f c en cnd m body d t1 t2 v,
  run_task f c (TEval en cnd) d = (t1, Ok (AVal (VBool true))) ->
  run_task f c (TEval en body) d = (t2, Ok (AVal v)) ->
  run_task (S f) c (TEval en (CAssert cnd m body)) d = (t1 ++ t2, Ok (AVal v)).
Proof.
  intros * Hc Hb. rewrite (assert_is_if_error f c en cnd m body body d t1 Hc).
  exact (if_branch f c en cnd body _ d t1 t2 v true Hc Hb).
Qed.

(* The rest of a computation after a result [x]: [bind] with configuration and knot applied.  At this
   level the monad laws are plain equations, and a result produced under one knot can be continued
   under another, as happens when a law relates evaluations that differ in fuel. *)
Definition rbind {A B} (x : res A) (h : A -> res B) : res B :=
  match x with
  | (t, Ok a) => match h a with (t2, o) => (t ++ t2, o) end
  | (t, Err e) => (t, Err e)
  | (t, Panic s) => (t, Panic s)
  | (t, OutOfFuel) => (t, OutOfFuel)
  end.

Lemma bind_rbind {A B} (m : M A) (k : A -> M B) c r : bind m k c r = rbind (m c r) (fun a => k a c r).
Proof. reflexivity. Qed.

Lemma rbind_assoc {A B C} (x : res A) (h : A -> res B) (g : B -> res C) :
  rbind (rbind x h) g = rbind x (fun a => rbind (h a) g).
Proof.
  destruct x as [t [a | e | s |]]; simpl; try reflexivity.
  destruct (h a) as [t2 [b | e | s |]]; simpl; try reflexivity.
  destruct (g b) as [t3 o]. rewrite app_assoc. reflexivity.
Qed.

Lemma rbind_ext {A B} (x : res A) (h h' : A -> res B) : (forall a, h a = h' a) -> rbind x h = rbind x h'.
Proof. intros H. destruct x as [t [a | e | s |]]; simpl; try reflexivity. rewrite H. reflexivity. Qed.

Lemma step_eval f c en x d :
  run_task (S f) c (TEval en x) d = (let* v := do_eval en x d in ret (AVal v)) c (run_task f c).
Proof. reflexivity. Qed.

(* e1 != e2 computes the negation of e1 == e2 (semantic reading of the law, one more unit of fuel
   for the extra node of the expanded form): both sides run the same four steps (frame, operands,
   comparison); by associativity what differs is pushed to the end, where `!` meets the boolean *)
Lemma ne_is_not_eq : forall f c en l r d,
  run_task (S (S f)) c (TEval en (CUn ULogicNot (CBin BEq l r))) d
  = run_task (S f) c (TEval en (CBin BNe l r)) d.
Proof.
  intros f c en l r d. rewrite !step_eval.
  change (do_eval en (CUn ULogicNot (CBin BEq l r)) d) with (let* v := eval en (CBin BEq l r) d in un_op ULogicNot v).
  unfold eval at 1. rewrite !bind_rbind. unfold call at 1. rewrite step_eval. unfold do_eval.
  do 4 (rewrite !bind_rbind, !rbind_assoc; apply rbind_ext; intros ?). reflexivity.
Qed.
