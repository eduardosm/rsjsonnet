(* Proofs/RefDead_main.v — C02/C04: dead-binding irrelevance, part 3: slices, calls, equality,
   manifestation, the expression evaluator and the knot ([run_task_rel]).
   The simulation of the builtins ([call_builtin]) is a premise ([builtin_sim]). *)
From RJ Require Import Base.Outcome Base.F64 Model.Token Model.Ast Model.RefCore Model.RefValue Model.RefEval.
From RJ Require Import Proofs.RefScope_defs Proofs.RefScope_main.
From RJ Require Import Proofs.RefDead_defs Proofs.RefDead_proofs.
Local Open Scope N_scope.

Lemma bind_args_defaults ps pos named b ds : bind_args ps pos named = Ok (b, ds) ->
  forall y de, In (y, de) ds -> In (y, Some de) ps.
Proof. intros H. apply (bind_args_all (fun _ => True) _ _ _ _ _ H); apply Forall_forall; trivial. Qed.

Section DeadMain.
Variable x : str.
Variables e1 e2 : list frame.
Hypothesis Hdead : dead_pair x e1 e2.
Notation vr := (vrel x e1 e2).
Notation tr := (trel x e1 e2).
Notation er := (erel x e1 e2).
Notation lr := (lrel x e1 e2).
Notation lsr := (lsrel x e1 e2).
Notation tsr := (tsrel x e1 e2).
Notation bvr := (bvrel x e1 e2).
Notation fr := (frel x e1 e2).

Definition builtin_sim_at : Prop := forall bi args args' d,
  tsr args args' -> rel2 x e1 e2 vr (call_builtin bi args d) (call_builtin bi args' d).
Hypothesis builtin_sim : builtin_sim_at.

Lemma rel2_ret_eq {A} (a : A) : rel2 x e1 e2 eq (ret a) (ret a).
Proof. apply rel2_ret. reflexivity. Qed.
Hint Resolve rel2_ret_eq : rel2.

Lemma rel2_index_value v v' i i' d : vr v v' -> vr i i' -> rel2 x e1 e2 vr (index_value v i d) (index_value v' i' d).
Proof.
  intros Hv Hi. destruct Hv as [| | | | items items' Hit | | |]; destruct Hi; unfold index_value; try apply rel2_kind.
  - r2_tac.
  - destruct (to_index f) as [n|]; [|apply rel2_kind]. pose proof (Forall2_nthN _ items items' n Hit) as Hn.
    destruct (nthN items n); destruct (nthN items' n); try contradiction; r2_tac.
  - apply rel2_get_field. assumption.
Qed.
Hint Resolve rel2_index_value : rel2.

Lemma rel2_opt_num v v' s : vr v v' -> rel2 x e1 e2 eq (opt_num v s) (opt_num v' s).
Proof. intros H. destruct H; unfold opt_num; r2_tac. Qed.
Lemma rel2_slice_pos l f : rel2 x e1 e2 eq (slice_pos l f) (slice_pos l f).
Proof. unfold slice_pos. r2_tac. Qed.
Hint Resolve rel2_opt_num rel2_slice_pos : rel2.
Lemma rel2_slice_range l a b c : rel2 x e1 e2 eq (slice_range l a b c) (slice_range l a b c).
Proof. unfold slice_range. destruct a, b, c; r2_tac. Qed.
Hint Resolve rel2_slice_range : rel2.

Lemma rel2_do_slice v v' a b c f : vr v v' -> rel2 x e1 e2 vr (do_slice v a b c f) (do_slice v' a b c f).
Proof.
  intros Hv. destruct Hv as [| | | | items items' Hit | | |]; unfold do_slice; try solve [r2_tac].
  rewrite <- (Forall2_len _ _ _ Hit). eapply rel2_bind; [apply rel2_slice_range|]. intros [[s0 st] sp] ? <-. apply rel2_ret. constructor. apply Forall2_slice. assumption.
Qed.
Hint Resolve rel2_do_slice : rel2.

Lemma rel2_eval_opt en en' vs io o d : er en en' vs io -> closed_opt vs io o -> rel2 x e1 e2 vr (eval_opt en o d) (eval_opt en' o d).
Proof. intros He Ho. unfold eval_opt. destruct Ho; r2_tac. Qed.
Hint Resolve rel2_eval_opt : rel2.

Definition bres_rel (r r' : list (str * thunk) * list (str * cexpr)) : Prop := bvr (fst r) (fst r') /\ snd r = snd r'.

Lemma bind_positional_rel : forall ps pos pos', tsr pos pos' ->
  match bind_positional ps pos, bind_positional ps pos' with
  | Some (b, rest), Some (b', rest') => bvr b b' /\ rest = rest'
  | None, None => True
  | _, _ => False
  end.
Proof.
  intros ps pos pos' H. revert ps. induction H as [|t t' r r' Ht _ IH]; intros ps.
  - destruct ps; simpl; split; auto; constructor.
  - destruct ps as [|[y dflt] psr]; simpl; [exact I|]. specialize (IH psr).
    destruct (bind_positional psr r) as [[b rest]|]; destruct (bind_positional psr r') as [[b' rest']|]; try contradiction; [|exact I].
    destruct IH as [Hb ->]. split; [constructor; [split; [reflexivity | exact Ht] | exact Hb] | reflexivity].
Qed.

Lemma check_named_rel rest bpos bpos' : bvr bpos bpos' -> forall named named' seen, bvr named named' ->
  check_named rest bpos named seen = check_named rest bpos' named' seen.
Proof.
  intros Hb named named' seen Hn. revert seen. induction Hn as [|[y t] [y' t'] r r' [Hy _] _ IH]; intros seen; simpl; [reflexivity|].
  simpl in Hy. subst y'. destruct (assoc y rest).
  - destruct (mem_str y seen); [reflexivity | apply IH].
  - pose proof (bvrel_assoc x e1 e2 bpos bpos' y Hb) as Ha. destruct (assoc y bpos); destruct (assoc y bpos'); try contradiction; reflexivity.
Qed.

Lemma fill_rest_rel : forall rest named named', bvr named named' ->
  orel bres_rel (fill_rest rest named) (fill_rest rest named').
Proof.
  induction rest as [|[y dflt] r IH]; intros named named' Hn; simpl.
  - split; [constructor | reflexivity].
  - specialize (IH named named' Hn).
    destruct (fill_rest r named) as [[b ds] | e | s |]; destruct (fill_rest r named') as [[b' ds'] | e' | s' |]; simpl in IH; try contradiction; auto.
    destruct IH as [Hb Hd]. simpl in Hb, Hd. subst ds'.
    pose proof (bvrel_assoc x e1 e2 named named' y Hn) as Ha.
    destruct (assoc y named) as [t|]; destruct (assoc y named') as [t'|]; try contradiction.
    + simpl. split; [constructor; [split; [reflexivity | exact Ha] | exact Hb] | reflexivity].
    + destruct dflt; simpl; [split; [exact Hb | reflexivity] | reflexivity].
Qed.

Lemma bind_args_rel ps pos pos' named named' : tsr pos pos' -> bvr named named' ->
  orel bres_rel (bind_args ps pos named) (bind_args ps pos' named').
Proof.
  intros Hp Hn. unfold bind_args. pose proof (bind_positional_rel ps pos pos' Hp) as Hbp.
  destruct (bind_positional ps pos) as [[bpos rest]|]; destruct (bind_positional ps pos') as [[bpos' rest']|]; try contradiction; [|reflexivity].
  destruct Hbp as [Hb ->]. rewrite (check_named_rel rest' bpos bpos' Hb named named' [] Hn).
  destruct (check_named rest' bpos' named' []); [reflexivity|].
  pose proof (fill_rest_rel rest' named named' Hn) as Hf.
  destruct (fill_rest rest' named) as [[b ds] | e | s |]; destruct (fill_rest rest' named') as [[b' ds'] | e' | s' |]; simpl in Hf; try contradiction; auto.
  destruct Hf as [Hb2 Hd]. simpl in *. subst. split; [apply Forall2_app; assumption | reflexivity].
Qed.

Lemma rel2_bind_args ps pos pos' named named' : tsr pos pos' -> bvr named named' ->
  rel2 x e1 e2 (fun r r' => bres_rel r r' /\ bind_args ps pos named = Ok r) (lift (bind_args ps pos named)) (lift (bind_args ps pos' named')).
Proof.
  intros Hp Hn c r r' _. split; [reflexivity|]. unfold lift. simpl. pose proof (bind_args_rel ps pos pos' named named' Hp Hn) as H.
  destruct (bind_args ps pos named) as [a | e | s |]; destruct (bind_args ps pos' named') as [a' | e' | s' |]; simpl in *; try contradiction; auto.
Qed.

Lemma arg_thunks_rel ps fr0 fr0' vs io : er fr0 fr0' vs io -> (forall p, In p ps -> In (fst p) vs) -> tsr (arg_thunks ps fr0) (arg_thunks ps fr0').
Proof.
  intros He. unfold arg_thunks. induction ps as [|p r IH]; intros Hin; simpl; [constructor|].
  apply Forall2_app; [|apply IH; intros; apply Hin; right; assumption].
  destruct (erel_lookup_var x e1 e2 Hdead _ _ _ _ He (fst p) (Hin p (or_introl eq_refl))) as (t & t' & -> & -> & Ht).
  constructor; [exact Ht | constructor].
Qed.

Lemma rel2_force_args ts ts' d : tsr ts ts' -> rel2 x e1 e2 eq (force_args ts d) (force_args ts' d).
Proof.
  intros H. unfold force_args. apply rel2_iterM. eapply Forall2_imp; [|exact H]. intros t t' Ht. r2_tac.
Qed.

Lemma call_frame_rel ps body en en' vs io pos named b b' ds :
  er en en' vs io -> closed vs io (CFunc ps body) -> bind_args ps pos named = Ok (b, ds) -> bvr b b' ->
  exists sc, er (FVars b ds :: en) (FVars b' ds :: en') sc io /\ closed sc io body /\ incl (map fst ps) sc.
Proof.
  intros He Hc Hok Hb. exists (map fst b ++ map fst ds ++ vs).
  assert (Hi : incl (map fst ps) (map fst b ++ map fst ds ++ vs)).
  { rewrite app_assoc. apply incl_appl. exact (bind_args_binds_all _ _ _ _ _ Hok). }
  destruct (closed_func_inv _ _ _ _ Hc _ (incl_appr _ (incl_appr _ (incl_refl vs))) Hi) as [Hps Hbd].
  split; [|split; assumption]. constructor; [exact Hb | | exact He].
  (* a default left to evaluate is a default of the parameter list, hence closed in this scope *)
  rewrite Forall_forall. intros [y de] Hin.
  pose proof (Forall_in _ _ _ Hps (bind_args_defaults _ _ _ _ _ Hok _ _ Hin)) as Hde. inversion Hde; subst. assumption.
Qed.

Lemma rel2_do_apply fv fv' pos pos' named named' force d :
  vr fv fv' -> tsr pos pos' -> bvr named named' -> rel2 x e1 e2 vr (do_apply fv pos named force d) (do_apply fv' pos' named' force d).
Proof.
  intros Hf Hp Hn. destruct Hf as [| | | | | | ps body en en' vs io He Hc | bi]; unfold do_apply; try apply rel2_kind.
  - eapply rel2_bind; [apply rel2_bind_args; eassumption|]. intros [b ds] [b' ds'] [[Hb Hd] Hok]. simpl in Hb, Hd. subst ds'.
    destruct (call_frame_rel _ _ _ _ _ _ _ _ _ _ _ He Hc Hok Hb) as (sc & Hfr & Hbd & Hi).
    eapply rel2_bind with (Q := eq).
    { destruct force; [|apply rel2_ret; reflexivity]. apply rel2_force_args. eapply arg_thunks_rel; [exact Hfr|].
      intros p Hp1. apply Hi, in_map, Hp1. }
    intros ? ? _. eapply rel2_bind; [apply rel2_enter|]. intros d1 d2 ->. eapply rel2_eval; eassumption.
  - eapply rel2_bind; [apply rel2_bind_args; eassumption|]. intros [bb ds] [bb' ds'] [[Hb Hd] Hok]. simpl in Hb, Hd.
    eapply rel2_bind; [apply rel2_enter|]. intros d1 d2 ->. apply builtin_sim.
    eapply arg_thunks_rel; [exact (erel_vars x e1 e2 _ _ _ _ _ _ Hb (ER_nil x e1 e2))|]. intros p Hp1. rewrite app_nil_r.
    (* a builtin has no defaults, so the positional and named arguments bind every parameter *)
    destruct (in_app_or _ _ _ (bind_args_binds_all _ _ _ _ _ Hok _ (in_map fst _ _ Hp1))) as [Hin | Hin]; [exact Hin|].
    apply in_map_iff in Hin. destruct Hin as ([y de] & _ & Hin).
    destruct (builtin_params_no_default _ _ _ (bind_args_defaults _ _ _ _ _ Hok _ _ Hin)).
Qed.

Lemma rel2_eq_items d : forall a a' b b', tsr a a' -> tsr b b' -> rel2 x e1 e2 eq (eq_items a b d) (eq_items a' b' d).
Proof.
  intros a a' b b' Ha. revert b b'. induction Ha as [|t t' ra ra' Ht _ IH]; intros b b' Hb; destruct Hb; simpl; r2_tac.
Qed.

Lemma rel2_eq_fields la la' lb lb' d : lsr la la' -> lsr lb lb' -> forall names,
  rel2 x e1 e2 eq (eq_fields la lb names d) (eq_fields la' lb' names d).
Proof. intros Ha Hb. induction names as [|n r IH]; simpl; r2_tac. Qed.

Lemma rel2_cmp_items d : forall a a' b b', tsr a a' -> tsr b b' -> rel2 x e1 e2 eq (cmp_items a b d) (cmp_items a' b' d).
Proof.
  intros a a' b b' Ha. revert b b'. induction Ha as [|t t' ra ra' Ht _ IH]; intros b b' Hb; destruct Hb; simpl; r2_tac.
Qed.

Lemma rel2_do_equals a a' b b' d : vr a a' -> vr b b' -> rel2 x e1 e2 eq (do_equals a b d) (do_equals a' b' d).
Proof.
  intros Ha Hb.
  destruct Ha as [| | | | xs xs' Hxs | la la' ca Hla | |]; destruct Hb as [| | | | ys ys' Hys | lb lb' cb Hlb | |];
    unfold do_equals; try apply rel2_ret_eq; try apply rel2_kind.
  - rewrite <- (Forall2_len _ _ _ Hxs), <- (Forall2_len _ _ _ Hys).
    destruct (lenN xs =? lenN ys); [apply rel2_eq_items; assumption | apply rel2_ret_eq].
  - rewrite <- (lsrel_visible_names x e1 e2 _ _ Hla), <- (lsrel_visible_names x e1 e2 _ _ Hlb).
    destruct (list_str_eqb (visible_names la) (visible_names lb)); [|apply rel2_ret_eq].
    destruct (visible_names la); [apply rel2_ret_eq|].
    eapply rel2_bind; [apply rel2_run_asserts; exact Hla|]. intros ? ? _.
    eapply rel2_bind; [apply rel2_run_asserts; exact Hlb|]. intros ? ? _. apply rel2_eq_fields; assumption.
Qed.

Lemma rel2_do_compare a a' b b' d : vr a a' -> vr b b' -> rel2 x e1 e2 eq (do_compare a b d) (do_compare a' b' d).
Proof.
  intros Ha Hb. destruct Ha; destruct Hb; unfold do_compare; try apply rel2_kind.
  - r2_tac.
  - apply rel2_ret_eq.
  - apply rel2_cmp_items; assumption.
Qed.

Lemma rel2_do_manifest s v v' d : vr v v' -> rel2 x e1 e2 eq (do_manifest s v d) (do_manifest s v' d).
Proof.
  intros Hv. destruct Hv as [| | | | items items' Hit | ls ls' c Hls | |]; unfold do_manifest; try solve [r2_tac].
  - eapply rel2_bind; [|intros js js' ->; apply rel2_ret_eq].
    apply rel2_mapM_eq. eapply Forall2_imp; [|exact Hit]. intros t t' Ht. r2_tac.
  - rewrite <- (lsrel_visible_names x e1 e2 _ _ Hls).
    eapply rel2_bind; [apply rel2_run_asserts; exact Hls|]. intros ? ? _.
    eapply rel2_bind; [|intros js js' ->; apply rel2_ret_eq].
    apply rel2_mapM_eq. apply Forall2_refl. intros n _. r2_tac.
Qed.

Lemma rel2_cond_bool v v' : vr v v' -> rel2 x e1 e2 eq (cond_bool v) (cond_bool v').
Proof. intros H. destruct H; unfold cond_bool; r2_tac. Qed.
Hint Resolve rel2_cond_bool : rel2.

Lemma lr_object locals asserts fs fs' en en' std vs io :
  er en en' vs io ->
  Forall (fun p => closed (map fst locals ++ vs) true (snd p)) locals ->
  Forall (fun a => closed (map fst locals ++ vs) true (fst a) /\ closed_opt (map fst locals ++ vs) true (snd a)) asserts ->
  Forall2 (fr locals vs) fs fs' ->
  lr (MkLayer locals asserts fs en std) (MkLayer locals asserts fs' en' std).
Proof.
  intros He Hl Ha Hf. econstructor; [exact He | | exact Hf].
  eapply Forall_impl; [|exact Ha]. intros a [Hc Hm]. split; [split; assumption|].
  intros m Em. rewrite Em in Hm. inversion Hm; subst. split; assumption.
Qed.

Lemma is_fun_rel v v' : vr v v' -> is_fun v = is_fun v'.
Proof. intros H. destruct H; reflexivity. Qed.

(* the operators that [do_eval] treats itself (short-circuit, equality, ordering), and the strict ones *)
Lemma rel2_do_eval_bin en en' vs io op l r d : er en en' vs io -> closed vs io l -> closed vs io r ->
  rel2 x e1 e2 vr (do_eval en (CBin op l r) d) (do_eval en' (CBin op l r) d).
Proof.
  intros He Hl Hr.
  assert (Hstrict : forall op, rel2 x e1 e2 vr (let* lv := eval en l d in let* rv := eval en r d in bin_op op lv rv d)
                                              (let* lv := eval en' l d in let* rv := eval en' r d in bin_op op lv rv d))
    by (intros; r2_tac).
  destruct op; unfold do_eval; try apply Hstrict; r2_tac.
Qed.

Lemma rel2_do_eval en en' vs io e d : er en en' vs io -> closed vs io e -> rel2 x e1 e2 vr (do_eval en e d) (do_eval en' e d).
Proof.
  intros He Hc.
  destruct Hc; lazymatch goal with
               | |- context [CBin] => eapply rel2_do_eval_bin; eassumption
               | |- _ => unfold do_eval; try solve [r2_tac]
               end.
  - (* CSelf *)
    destruct (erel_lookup_obj x e1 e2 Hdead _ _ _ _ He eq_refl) as (ls & ls' & i & c & E & E' & Hls). rewrite E, E'.
    apply rel2_ret. constructor. exact Hls.
  - (* CVar *)
    destruct (erel_lookup_var x e1 e2 Hdead _ _ _ _ He _ ltac:(eassumption)) as (t & t' & -> & -> & Ht). r2_tac.
  - (* CObject *)
    eapply rel2_bind; [eapply rel2_build_fields; try eassumption; constructor|]. intros fs fs' Hfs.
    apply rel2_ret. constructor. constructor; [|constructor]. eapply lr_object; eassumption.
  - (* CObjComp *)
    eapply rel2_bind; [eapply rel2_comp_envs; eassumption|]. intros envs envs' Henvs.
    eapply rel2_bind; [eapply (rel2_build_comp_fields x e1 e2 locals vs); try eassumption; constructor|]. intros fs fs' Hfs.
    apply rel2_ret. constructor. constructor; [|constructor]. econstructor; [exact He | constructor | exact Hfs].
  - (* CArray *)
    apply rel2_ret. constructor. apply Forall2_map_same. intros a Ha. econstructor; [eassumption | eapply Forall_in; eassumption].
  - (* CArrComp *)
    eapply rel2_bind; [eapply rel2_comp_envs; eassumption|]. intros envs envs' Henvs.
    apply rel2_ret. constructor. eapply Forall2_map_intro; [exact Henvs|]. intros a a' Ha. econstructor; [exact Ha | assumption].
  - (* CInSuper *)
    eapply rel2_bind; [eapply rel2_eval; eassumption|]. intros v v' Hv. destruct Hv; try apply rel2_kind.
    eapply (rel2_with_super x e1 e2 Hdead); [exact He|]. intros ls ls' i Hls. apply rel2_ret. rewrite (lsrel_has_field x e1 e2 ls ls' (i + 1) s Hls). constructor.
  - (* CCall *)
    eapply rel2_bind; [eapply rel2_eval; eassumption|]. intros fv fv' Hfv. rewrite <- (is_fun_rel _ _ Hfv). destruct (is_fun fv); [|r2_tac].
    eapply rel2_bind; [apply rel2_ask_ts_tail|]. intros ot ot' ->. apply rel2_apply; [exact Hfv | |].
    + apply Forall2_map_same. intros a Ha. econstructor; [eassumption | eapply Forall_in; eassumption].
    + apply Forall2_map_same. intros p Hp. split; [reflexivity|]. simpl. econstructor; [eassumption|].
      eapply (Forall_in (fun p => closed vs io (snd p))); eassumption.
  - (* CLocal *)
    eapply rel2_eval; [apply erel_locals; eassumption | eassumption].
  - (* CFunc *)
    apply rel2_ret. econstructor; [exact He | constructor; assumption].
  - (* CAssert *)
    eapply rel2_bind; [eapply rel2_run_assert; simpl; eassumption|]. intros ? ? _. eapply rel2_eval; eassumption.
Qed.

Lemma rel2_do_force t t' d : tr t t' -> rel2 x e1 e2 vr (do_force t d) (do_force t' d).
Proof. intros H. destruct H; unfold do_force; r2_tac. Qed.

Hint Resolve rel2_do_eval rel2_do_force rel2_do_apply rel2_do_equals rel2_do_compare rel2_do_manifest : rel2.

Lemma rel2_step_fn t t' d : task_rel x e1 e2 t t' -> rel2 x e1 e2 (ans_rel x e1 e2) (step t d) (step t' d).
Proof.
  intros H. unfold step. destruct t, t'; simpl in H; try contradiction.
  - destruct H as (<- & vs & io & He & Hc). r2_tac.
  - r2_tac.
  - destruct H as (Hf & Hp & Hn & <-). r2_tac.
  - destruct H as (Hl & <- & <-). r2_tac.
  - destruct H as (Ha & Hb). r2_tac. reflexivity.
  - destruct H as (Ha & Hb). r2_tac. reflexivity.
  - destruct H as (<- & Hv). r2_tac. reflexivity.
Qed.

Lemma run_task_rel : forall fuel c, rec_rel x e1 e2 (run_task fuel c) (run_task fuel c).
Proof.
  induction fuel as [|n IH]; intros c t t' d Ht.
  - split; reflexivity.
  - simpl. apply rel2_step_fn; [exact Ht | apply IH].
Qed.
End DeadMain.

#[global] Hint Resolve rel2_ret_eq rel2_opt_num rel2_do_slice : rel2.
