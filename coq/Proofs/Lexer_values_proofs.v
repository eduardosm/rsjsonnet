(* Proofs/Lexer_values_proofs.v — what text-block and number tokens denote: the text
   of a block is given by a grammar on the lines of the decoded input, the digits
   and exponent of a number by a grammar on digit groups (with the one place where
   the code accepts more than the upstream grammar). *)
From RJ Require Import Base.Outcome Model.Token Model.Utf8 Model.Lexer Proofs.Utf8_proofs Proofs.Lexer_proofs.
From Coq Require Import Lia.
Local Open Scope N_scope.
Local Open Scope outcome_scope.

(* Text blocks, first stage: the byte scanner is a code-point scanner applied to
   the lossy decoding of the input *)

Notation tbres := (outcome (list N * list N) lex_error_kind).

Fixpoint span_while (p : N -> bool) (l : list N) : list N * list N :=
  match l with
  | [] => ([], [])
  | x :: r => if p x then let '(a, b) := span_while p r in (x :: a, b) else ([], l)
  end.

Lemma span_while_all p l : Forall (fun x => p x = true) (fst (span_while p l)).
Proof.
  induction l as [|x l IH]; cbn [span_while]; [constructor|].
  destruct (p x) eqn:Hx; [|constructor]. destruct (span_while p l). cbn [fst] in *. constructor; assumption.
Qed.

Lemma span_while_join p l : fst (span_while p l) ++ snd (span_while p l) = l.
Proof.
  induction l as [|x l IH]; cbn [span_while]; [reflexivity|].
  destruct (p x); [|reflexivity]. destruct (span_while p l). cbn [fst snd app] in *. f_equal. exact IH.
Qed.

Fixpoint cp_blank_lines (cps : list N) : list N * list N :=
  match cps with
  | [] => ([], [])
  | c :: r =>
      if c =? 10 then let '(s, t) := cp_blank_lines r in (10 :: s, t)
      else if c =? 13 then
        match r with
        | c2 :: r2 => if c2 =? 10 then let '(s, t) := cp_blank_lines r2 in (13 :: 10 :: s, t)
                      else ([], cps)
        | [] => ([], cps)
        end
      else ([], cps)
  end.

Fixpoint cp_first_loop (fuel : nat) (cps : list N) : outcome (list N * list N * list N) lex_error_kind :=
  match fuel with
  | O => OutOfFuel
  | S f =>
      let '(prefix, r1) := span_while is_blank cps in
      let '(cr, r2) := match r1 with
                       | c :: r2 => if c =? 13 then ([13], r2) else ([], r1)
                       | [] => ([], r1)
                       end in
      match prefix with
      | [] =>
          match r2 with
          | c :: r3 =>
              if c =? 10 then
                do t <- cp_first_loop f r3;
                let '(s, p, r) := t in Ok (cr ++ 10 :: s, p, r)
              else Err EMissingWhitespaceTextBlockStart
          | [] => Err EMissingWhitespaceTextBlockStart
          end
      | _ => Ok (cr, prefix, r2)
      end
  end.

Fixpoint cp_body (fuel : nat) (prefix : list N) (cps : list N) : tbres :=
  match fuel with
  | O => OutOfFuel
  | S f =>
      match cps with
      | [] => Err EUnfinishedString
      | c :: r1 =>
          if c =? 10 then
            let '(blank, r2) := cp_blank_lines r1 in
            match strip_prefix prefix r2 with
            | Some r3 => do t <- cp_body f prefix r3; let '(s, u) := t in Ok (10 :: blank ++ s, u)
            | None =>
                match strip_prefix [124; 124; 124] (snd (span_while is_blank r2)) with
                | Some r4 => Ok (10 :: blank, r4)
                | None => Err EInvalidTextBlockTermination
                end
            end
          else do t <- cp_body f prefix r1; let '(s, u) := t in Ok (c :: s, u)
      end
  end.

Definition drop_last_lf (s : list N) : list N :=
  match rev s with
  | c :: r => if c =? 10 then rev r else s
  | [] => s
  end.

Definition cp_text_block (cps : list N) : tbres :=
  let '(strip, r1) := match cps with
                      | c :: r => if c =? 45 then (true, r) else (false, cps)
                      | [] => (false, cps)
                      end in
  match snd (span_while is_blank_cr r1) with
  | c :: r3 =>
      if c =? 10 then
        do t <- cp_first_loop (S (length r3)) r3;
        let '(s1, p, r4) := t in
        do u <- cp_body (S (length r4)) p r4;
        let '(s2, r5) := u in
        Ok (if strip then drop_last_lf (s1 ++ s2) else s1 ++ s2, r5)
      else Err EMissingLineBreakAfterTextBlockStart
  | [] => Err EMissingLineBreakAfterTextBlockStart
  end.

Definition ascii_class (p : N -> bool) : Prop :=
  (forall b, p b = true -> b < 128) /\ (forall cp, 128 <= cp -> p cp = false).

Lemma blank_cr_class : ascii_class is_blank_cr.
Proof.
  split; unfold is_blank_cr; intros x H.
  - apply orb_true_iff in H as [H|H]; [apply orb_true_iff in H as [H|H]|]; apply N.eqb_eq in H; lia.
  - repeat (apply orb_false_iff; split); apply N.eqb_neq; lia.
Qed.

Lemma blank_class : ascii_class is_blank.
Proof.
  split; unfold is_blank; intros x H.
  - apply orb_true_iff in H as [H|H]; apply N.eqb_eq in H; lia.
  - apply orb_false_iff. split; apply N.eqb_neq; lia.
Qed.

Lemma eat_while_lossy p c : ascii_class p -> bytes_ok (rest c) ->
  exists l, rest c = l ++ rest (eat_while p c) /\
            span_while p (lossy (rest c)) = (l, lossy (rest (eat_while p c))) /\
            bytes_ok (rest (eat_while p c)) /\ Forall (fun b => p b = true) l.
Proof.
  intros C. destruct c as [ps r]. unfold eat_while. cbn [pos rest]. revert ps.
  induction r as [|b r IH]; intros ps B; cbn [eat_while_from].
  - exists []. cbn. repeat split; constructor.
  - destruct (p b) eqn:Hp.
    + pose proof (bytes_ok_tail _ _ B) as Br. destruct (IH (ps + 1) Br) as [l [E [S [B' F]]]].
      exists (b :: l). split; [cbn; f_equal; exact E|]. split; [|split; [exact B'|constructor; assumption]].
      rewrite (lossy_ascii b r (proj1 C b Hp)). cbn [span_while]. rewrite Hp, S. reflexivity.
    + exists []. cbn [app rest]. split; [reflexivity|]. split; [|split; [exact B|constructor]].
      destruct (lossy_cons b r B) as [cp [t [-> [A NA]]]]. cbn [span_while].
      replace (p cp) with false; [reflexivity|]. symmetry.
      destruct (N.lt_ge_cases b 128) as [Lt|Ge]; [rewrite (A Lt); exact Hp|exact (proj2 C _ (NA Ge))].
Qed.

Lemma strip_prefix_lossy s : Forall (fun b => b < 128) s -> forall r, bytes_ok r ->
  strip_prefix s (lossy r) = match strip_prefix s r with Some r' => Some (lossy r') | None => None end /\
  (forall r', strip_prefix s r = Some r' -> bytes_ok r').
Proof.
  induction 1 as [|x s Hx Hs IH]; intros r B; cbn [strip_prefix].
  - split; [reflexivity|]. intros r' E. inversion E; subst. exact B.
  - destruct r as [|y r]; [split; [reflexivity|discriminate]|].
    pose proof (bytes_ok_tail _ _ B) as Br.
    destruct (N.eqb_spec x y) as [->|Ne].
    + rewrite (lossy_ascii y r Hx), N.eqb_refl. apply IH, Br.
    + split; [|discriminate]. destruct (lossy_cons y r B) as [cp [t [-> [A NA]]]].
      destruct (N.eqb_spec x cp); [lia|reflexivity].
Qed.

(* an optional byte, as the code-point scanners read it *)
Lemma eat_opt_lossy {A} b (x y : A) c : b < 128 -> bytes_ok (rest c) ->
  let '(v, c') := match eat_byte b c with Some c2 => (x, c2) | None => (y, c) end in
  match lossy (rest c) with
  | cp :: r => if cp =? b then (x, r) else (y, lossy (rest c))
  | [] => (y, lossy (rest c))
  end = (v, lossy (rest c')) /\ bytes_ok (rest c') /\
  (length (lossy (rest c')) <= length (lossy (rest c)))%nat.
Proof.
  intros Hb B. pose proof (eat_byte_lossy b c Hb B) as E. destruct (eat_byte b c) as [c2|].
  - destruct E as [-> B2]. rewrite N.eqb_refl. split; [reflexivity|]. split; [exact B2|cbn; lia].
  - split; [|split; [exact B|lia]]. destruct (lossy (rest c)) as [|cp t]; [reflexivity|].
    destruct (N.eqb_spec cp b); [congruence|reflexivity].
Qed.

Lemma cp_blank_lines_app : forall l, l = fst (cp_blank_lines l) ++ snd (cp_blank_lines l).
Proof.
  fix IH 1. intros [|x l]; [reflexivity|]. cbn [cp_blank_lines].
  destruct (x =? 10) eqn:X.
  - apply N.eqb_eq in X. subst x. specialize (IH l). destruct (cp_blank_lines l) as [s t].
    cbn [fst snd app] in *. f_equal. exact IH.
  - destruct (x =? 13) eqn:X'; [|reflexivity]. destruct l as [|y l]; [reflexivity|].
    destruct (y =? 10) eqn:Y; [|reflexivity].
    apply N.eqb_eq in X', Y. subst x y. specialize (IH l). destruct (cp_blank_lines l) as [s t].
    cbn [fst snd app] in *. do 2 f_equal. exact IH.
Qed.

Lemma tb_blank_lines_lossy : forall r ps, bytes_ok r ->
  cp_blank_lines (lossy r) = (fst (tb_blank_lines ps r), lossy (rest (snd (tb_blank_lines ps r)))) /\
  bytes_ok (rest (snd (tb_blank_lines ps r))).
Proof.
  fix IH 1. intros r ps B. rewrite tb_blank_lines_eq. destruct r as [|b r']; [split; [reflexivity|exact B]|].
  pose proof (bytes_ok_tail _ _ B) as B'.
  destruct (N.eqb_spec b 10) as [->|N10].
  - rewrite (lossy_ascii 10 r' ltac:(lia)). cbn [cp_blank_lines]. rewrite N.eqb_refl.
    destruct (IH r' (ps + 1) B') as [E1 E2].
    destruct (tb_blank_lines (ps + 1) r') as [s c]. cbn [fst snd] in *. rewrite E1. split; [reflexivity|exact E2].
  - destruct (N.eqb_spec b 13) as [->|N13].
    + rewrite (lossy_ascii 13 r' ltac:(lia)). cbn [cp_blank_lines]. change (13 =? 10) with false.
      rewrite N.eqb_refl. cbv iota.
      destruct r' as [|b' r'']; [split; [reflexivity|exact B]|].
      destruct (N.eqb_spec b' 10) as [->|N10'].
      * pose proof (bytes_ok_tail _ _ B') as B''.
        rewrite (lossy_ascii 10 r'' ltac:(lia)), N.eqb_refl.
        destruct (IH r'' (ps + 2) B'') as [E1 E2].
        destruct (tb_blank_lines (ps + 2) r'') as [s c]. cbn [fst snd] in *. rewrite E1. split; [reflexivity|exact E2].
      * cbn [fst snd rest]. rewrite (lossy_ascii 13 (b' :: r'') ltac:(lia)).
        destruct (lossy_cons b' r'' B') as [cp [t [-> [A NA]]]].
        destruct (N.eqb_spec cp 10); [lia|]. split; [reflexivity|exact B].
    + cbn [fst snd rest]. destruct (lossy_cons b r' B) as [cp [t [-> [A NA]]]]. cbn [cp_blank_lines].
      destruct (N.eqb_spec cp 10); [lia|]. destruct (N.eqb_spec cp 13); [lia|]. split; [reflexivity|exact B].
Qed.

(* a byte-level scanner and its code-point counterpart answer alike: the same
   value up to [conv], or an error of the same kind *)
Definition tb_rel {A B} (conv : A -> B -> Prop) (r : res A) (q : outcome B lex_error_kind) : Prop :=
  match r with
  | Ok a => exists b, q = Ok b /\ conv a b
  | Err e => q = Err (err_kind e)
  | _ => True
  end.

Lemma tb_rel_fail {A B} (conv : A -> B -> Prop) len k s e : tb_rel conv (fail len k s e) (Err k).
Proof.
  pose proof (fail_inv (A := A) len k s e _ eq_refl) as H. unfold tb_rel.
  destruct (fail len k s e); auto; [contradiction|congruence].
Qed.

Lemma tb_rel_bind {A B A' B'} (conv : A -> B -> Prop) (conv' : A' -> B' -> Prop) r q f g :
  tb_rel conv r q -> (forall a b, conv a b -> tb_rel conv' (f a) (g b)) ->
  tb_rel conv' (obind r f) (obind q g).
Proof.
  destruct r; cbn; auto.
  - intros [b [-> H]] K. exact (K _ _ H).
  - intros -> _. reflexivity.
Qed.

Lemma first_loop_value len : forall fuel c fs, bytes_ok (rest c) -> (length (lossy (rest c)) < fs)%nat ->
  tb_rel (fun (a : list N * list N * cur) (b : list N * list N * list N) =>
            let '(s, p, c') := a in b = (s, p, lossy (rest c')) /\ bytes_ok (rest c') /\
                                    Forall (fun x => is_blank x = true) p)
         (tb_first_loop len fuel c) (cp_first_loop fs (lossy (rest c))).
Proof.
  induction fuel as [|f IH]; intros c fs B FS; [exact I|]. destruct fs as [|fs]; [lia|].
  cbn [tb_first_loop cp_first_loop].
  destruct (eat_while_lossy is_blank c blank_class B) as [l [E [S [B1 F]]]].
  pose proof (f_equal (@length N) (span_while_join is_blank (lossy (rest c)))) as L1.
  rewrite (bytes_between_app l _ _ E), S. rewrite S, app_length in L1. cbn [fst snd] in L1.
  set (c1 := eat_while is_blank c) in *.
  pose proof (eat_opt_lossy 13 [13] [] c1 ltac:(lia) B1) as CR.
  destruct (match eat_byte 13 c1 with Some c2 => ([13], c2) | None => ([], c1) end) as [cr c2].
  destruct CR as [-> [B2 L2]].
  destruct l as [|x l]; [|eexists; split; [reflexivity|]; repeat split; assumption].
  pose proof (eat_byte_lossy 10 c2 ltac:(lia) B2) as LF. destruct (eat_byte 10 c2) as [c3|].
  - destruct LF as [L3 B3]. rewrite L3 in L2 |- *. rewrite N.eqb_refl. cbn [length] in L2.
    eapply tb_rel_bind; [exact (IH c3 fs B3 ltac:(lia))|].
    intros [[s p] c4] b [-> [B4 F4]]. eexists. split; [reflexivity|]. repeat split; assumption.
  - destruct (lossy (rest c2)) as [|cp t]; [apply tb_rel_fail|].
    destruct (N.eqb_spec cp 10); [congruence|apply tb_rel_fail].
Qed.

Definition at_cp (a : list N * cur) (b : list N * list N) : Prop :=
  b = (fst a, lossy (rest (snd a))) /\ bytes_ok (rest (snd a)).

Lemma body_value len start prefix : Forall (fun x => is_blank x = true) prefix ->
  forall fuel c fs, bytes_ok (rest c) -> (length (lossy (rest c)) < fs)%nat ->
  tb_rel at_cp (tb_body_loop len fuel start prefix c) (cp_body fs prefix (lossy (rest c))).
Proof.
  intros HP. induction fuel as [|f IH]; intros c fs B FS; [exact I|]. destruct fs as [|fs]; [lia|].
  cbn [tb_body_loop cp_body].
  (* the recursive calls, from a cursor whose decoding is shorter *)
  assert (REC : forall c2 (g : list N -> list N), bytes_ok (rest c2) -> (length (lossy (rest c2)) < fs)%nat ->
    tb_rel at_cp
      (obind (tb_body_loop len f start prefix c2) (fun t => let '(s, c4) := t in Ok (g s, c4)))
      (obind (cp_body fs prefix (lossy (rest c2))) (fun t => let '(s, u) := t in Ok (g s, u)))).
  { intros c2 g B2 F2. eapply tb_rel_bind; [exact (IH c2 fs B2 F2)|].
    intros [s c4] b [-> B4]. eexists. split; [reflexivity|]. split; [reflexivity|exact B4]. }
  pose proof (eat_byte_lossy 10 c ltac:(lia) B) as LF. destruct (eat_byte 10 c) as [c1|].
  - destruct LF as [L1 B1]. rewrite L1 in FS |- *. rewrite N.eqb_refl. cbn [length] in FS.
    destruct (tb_blank_lines_lossy (rest c1) (pos c1) B1) as [BL B2].
    pose proof (cp_blank_lines_app (lossy (rest c1))) as L2. rewrite BL in L2 |- *.
    destruct (tb_blank_lines (pos c1) (rest c1)) as [blank c2]. cbn [fst snd] in L2, B2 |- *.
    apply (f_equal (@length N)) in L2. rewrite app_length in L2.
    destruct (strip_prefix_lossy prefix (Forall_impl _ (proj1 blank_class) HP) (rest c2) B2) as [SP SPB]. rewrite SP.
    unfold eat_slice at 1.
    destruct (strip_prefix prefix (rest c2)) as [r3|] eqn:PF.
    + apply (REC {| pos := pos c2 + N.of_nat (length prefix); rest := r3 |}); [exact (SPB r3 eq_refl)|].
      apply strip_prefix_app, (f_equal (@length N)) in SP. rewrite app_length in SP. cbn [rest]. lia.
    + destruct (eat_while_lossy is_blank c2 blank_class B2) as [l [_ [S [B3 _]]]]. rewrite S. cbn [snd].
      destruct (strip_prefix_lossy [124; 124; 124] ltac:(repeat constructor; lia) _ B3) as [ST STB].
      rewrite ST. unfold eat_slice.
      destruct (strip_prefix [124; 124; 124] (rest (eat_while is_blank c2))) as [r4|]; [|apply tb_rel_fail].
      eexists. split; [reflexivity|]. split; [reflexivity|exact (STB _ eq_refl)].
  - pose proof (eat_any_char_lossy c B) as EA. destruct (rest c) as [|x r].
    + rewrite EA. apply tb_rel_fail.
    + destruct EA as [c1 [oc [-> [L B1]]]]. cbn [obind]. rewrite L in LF, FS |- *. cbn [length] in FS.
      destruct (N.eqb_spec (or_replacement oc) 10); [congruence|]. apply REC; [exact B1|lia].
Qed.

Lemma strip_last_lf_drop s : tb_rel (fun a b => b = a) (strip_last_lf s) (Ok (drop_last_lf s)).
Proof.
  unfold strip_last_lf, drop_last_lf. destruct (rev s) as [|x r]; [exact I|].
  case_N x; try exact I. eexists. split; reflexivity.
Qed.

Definition block_at_cp (a : token * cur) (b : list N * list N) : Prop :=
  tok_kind (fst a) = TTextBlock (fst b) /\ snd b = lossy (rest (snd a)).

Theorem text_block_cp len start c : bytes_ok (rest c) ->
  tb_rel block_at_cp (lex_text_block len start c) (cp_text_block (lossy (rest c))).
Proof.
  intros B. unfold lex_text_block, cp_text_block.
  pose proof (eat_opt_lossy 45 true false c ltac:(lia) B) as DS.
  destruct (match eat_byte 45 c with Some c1 => (true, c1) | None => (false, c) end) as [strip c1].
  destruct DS as [-> [B1 _]].
  destruct (eat_while_lossy is_blank_cr c1 blank_cr_class B1) as [l [_ [-> [B2 _]]]]. cbn [snd].
  set (c2 := eat_while is_blank_cr c1) in *.
  pose proof (eat_byte_lossy 10 c2 ltac:(lia) B2) as LF. destruct (eat_byte 10 c2) as [c3|].
  2:{ destruct (lossy (rest c2)) as [|cp t]; [apply tb_rel_fail|].
      destruct (N.eqb_spec cp 10); [congruence|apply tb_rel_fail]. }
  destruct LF as [-> B3]. rewrite N.eqb_refl.
  eapply tb_rel_bind; [exact (first_loop_value len _ c3 (S (length (lossy (rest c3)))) B3 ltac:(lia))|].
  intros [[s1 p] c4] b [-> [B4 FP]].
  eapply tb_rel_bind; [exact (body_value len start p FP _ c4 (S (length (lossy (rest c4)))) B4 ltac:(lia))|].
  intros [s2 c5] b [-> B5]. cbn [fst snd].
  assert (CM : forall s, tb_rel block_at_cp (commit len start c5 (TTextBlock s)) (Ok (s, lossy (rest c5)))).
  { intros s. pose proof (commit_inv len start c5 (TTextBlock s) _ eq_refl) as CI.
    destruct (commit len start c5 (TTextBlock s)) as [x| | |]; try exact I; [|contradiction].
    destruct CI as [K E]. eexists. split; [reflexivity|]. split; [exact K|rewrite E; reflexivity]. }
  destruct strip; [|apply CM].
  pose proof (strip_last_lf_drop (s1 ++ s2)) as SL.
  destruct (strip_last_lf (s1 ++ s2)) as [actual| | |]; try exact I; [|discriminate SL].
  destruct SL as [b [E ->]]. inversion E; subst. apply CM.
Qed.

(* Text blocks, second stage: the code-point scanner, on lines joined by newlines,
   is the line-based transcription of the grammar *)

Fixpoint split_lines (cps : list N) : list N * list (list N) :=
  match cps with
  | [] => ([], [])
  | c :: r => let '(l, ls) := split_lines r in if c =? 10 then ([], l :: ls) else (c :: l, ls)
  end.

(* first line, then the lines that each follow a newline *)
Definition join_lines (l : list N) (ls : list (list N)) : list N :=
  l ++ flat_map (fun x => 10 :: x) ls.

Definition no_nl (l : list N) : Prop := Forall (fun c => c <> 10) l.

Lemma join_split cps :
  join_lines (fst (split_lines cps)) (snd (split_lines cps)) = cps /\
  no_nl (fst (split_lines cps)) /\ Forall no_nl (snd (split_lines cps)).
Proof.
  induction cps as [|c r IH]; cbn [split_lines]; [cbn; repeat split; constructor|].
  destruct (split_lines r) as [l ls]. cbn [fst snd] in *. destruct IH as [J [N1 N2]].
  destruct (N.eqb_spec c 10) as [->|Ne]; cbn [fst snd].
  - unfold join_lines in *. cbn [app flat_map]. rewrite J. repeat split; constructor; assumption.
  - unfold join_lines in *. cbn [app]. rewrite J. repeat split; try assumption. constructor; assumption.
Qed.

(* a line that is empty up to a carriage return *)
Definition is_blank_line (l : list N) : bool :=
  match l with
  | [] => true
  | [c] => c =? 13
  | _ => false
  end.

Definition cons_str (pre : list N) (r : tbres) : tbres :=
  do t <- r; let '(s, u) := t in Ok (pre ++ s, u).

(* the terminator line: optional blanks, three pipes; the rest of the line and
   the following lines remain to be lexed *)
Definition tbl_terminator (l : list N) (more : list (list N)) : tbres :=
  match strip_prefix [124; 124; 124] (snd (span_while is_blank l)) with
  | Some tail => Ok ([], join_lines tail more)
  | None => Err EInvalidTextBlockTermination
  end.

(* at the start of line [l] (followed by the lines [more]), indentation [prefix]:
   - a blank line ("" or CR) that is followed by a newline contributes itself and the newline;
   - a line starting with the prefix contributes the rest of the line and its newline
     (unfinished if the input ends inside it);
   - any other line must be the terminator *)
Fixpoint tbl_at_line (prefix l : list N) (more : list (list N)) : tbres :=
  match more with
  | [] =>
      match strip_prefix prefix l with
      | Some _ => Err EUnfinishedString
      | None => tbl_terminator l []
      end
  | l2 :: more2 =>
      if is_blank_line l then cons_str (l ++ [10]) (tbl_at_line prefix l2 more2)
      else
        match strip_prefix prefix l with
        | Some content => cons_str (content ++ [10]) (tbl_at_line prefix l2 more2)
        | None => tbl_terminator l more
        end
  end.

(* looking for the first non-blank line: its leading blanks are the prefix *)
Fixpoint tbl_leading (l : list N) (more : list (list N)) : tbres :=
  let '(p, content) := span_while is_blank l in
  match p with
  | [] =>
      match more with
      | l2 :: more2 =>
          if is_blank_line l then cons_str (l ++ [10]) (tbl_leading l2 more2)
          else Err EMissingWhitespaceTextBlockStart
      | [] => Err EMissingWhitespaceTextBlockStart
      end
  | _ =>
      match more with
      | [] => Err EUnfinishedString
      | l2 :: more2 => cons_str (content ++ [10]) (tbl_at_line p l2 more2)
      end
  end.

Definition textblock_lines (l0 : list N) (more : list (list N)) : tbres :=
  let '(strip, h) := match l0 with
                     | c :: h => if c =? 45 then (true, h) else (false, l0)
                     | [] => (false, l0)
                     end in
  if forallb is_blank_cr h then
    match more with
    | [] => Err EMissingLineBreakAfterTextBlockStart
    | l1 :: more1 =>
        do t <- tbl_leading l1 more1;
        let '(s, u) := t in Ok (if strip then drop_last_lf s else s, u)
    end
  else Err EMissingLineBreakAfterTextBlockStart.

(* the whole text block, [cps] = what follows the three opening pipes *)
Definition textblock_spec (cps : list N) : tbres :=
  textblock_lines (fst (split_lines cps)) (snd (split_lines cps)).

(* what follows a line: nothing, or a newline *)
Definition eol (R : list N) : Prop := R = [] \/ exists r, R = 10 :: r.

Lemma eol_lines more : eol (flat_map (fun x => 10 :: x) more).
Proof. destruct more; [left; reflexivity|right; eexists; reflexivity]. Qed.

Lemma span_while_app p l R : p 10 = false -> eol R ->
  span_while p (l ++ R) = (fst (span_while p l), snd (span_while p l) ++ R).
Proof.
  intros Hp HR. induction l as [|x l IH]; cbn [app span_while].
  - destruct HR as [->|[r ->]]; cbn [span_while]; [reflexivity|]. rewrite Hp. reflexivity.
  - destruct (p x); [|reflexivity]. rewrite IH. destruct (span_while p l). reflexivity.
Qed.

Lemma strip_prefix_app_line s l R : Forall (fun c => c <> 10) s -> eol R ->
  strip_prefix s (l ++ R) = match strip_prefix s l with Some t => Some (t ++ R) | None => None end.
Proof.
  intros Hs HR. revert l. induction Hs as [|x s Hx Hs IH]; intros l; cbn [strip_prefix]; [reflexivity|].
  destruct l as [|y l]; cbn [app].
  - destruct HR as [->|[r ->]]; [reflexivity|]. destruct (N.eqb_spec x 10); [congruence|reflexivity].
  - destruct (x =? y); [apply IH|reflexivity].
Qed.

Lemma strip_prefix_no_nl s : forall l t, strip_prefix s l = Some t -> no_nl l -> no_nl t /\ (length t <= length l)%nat.
Proof.
  induction s as [|x s IH]; intros l t H Hn; cbn [strip_prefix] in H; [inversion H; subst; split; [exact Hn|lia]|].
  destruct l as [|y l]; [discriminate|]. destruct (x =? y); [|discriminate].
  inversion Hn; subst. destruct (IH _ _ H H3) as [A B]. split; [exact A|cbn; lia].
Qed.

Lemma no_nl_app_r a b : no_nl (a ++ b) -> no_nl b.
Proof. intros H. apply Forall_app in H. tauto. Qed.

Lemma no_nl_blank p : Forall (fun x => is_blank x = true) p -> Forall (fun c => c <> 10) p.
Proof. intros H. eapply Forall_impl; [|exact H]. intros a Ha E. subst. discriminate. Qed.

Lemma join_cons l l2 more2 : join_lines l (l2 :: more2) = l ++ 10 :: join_lines l2 more2.
Proof. reflexivity. Qed.

Lemma join_nil l : join_lines l [] = l.
Proof. unfold join_lines. cbn. apply app_nil_r. Qed.

Lemma cons_str_cons_str a b r : cons_str a (cons_str b r) = cons_str (a ++ b) r.
Proof. unfold cons_str. destruct r as [[s u]| | |]; cbn [obind]; try reflexivity. rewrite app_assoc. reflexivity. Qed.

Lemma cons_str_nil r : cons_str [] r = r.
Proof. unfold cons_str. destruct r as [[s u]| | |]; reflexivity. Qed.

Lemma cp_body_content prefix : forall content f X, no_nl content -> (length content <= f)%nat ->
  cp_body f prefix (content ++ X) = cons_str content (cp_body (f - length content) prefix X).
Proof.
  induction content as [|c content IH]; intros f X Hn Hf; cbn [length app].
  - rewrite Nat.sub_0_r, cons_str_nil. reflexivity.
  - destruct f as [|f]; [cbn in Hf; lia|]. inversion Hn as [|? ? Hc Hr]; subst. cbn [cp_body Nat.sub].
    destruct (N.eqb_spec c 10); [congruence|]. rewrite (IH f X Hr) by (cbn in Hf; lia).
    unfold cons_str. destruct (cp_body _ prefix X) as [[s u]| | |]; reflexivity.
Qed.

Definition cp_line_start (f : nat) (prefix r1 : list N) : tbres :=
  let '(blank, r2) := cp_blank_lines r1 in
  match strip_prefix prefix r2 with
  | Some r3 => cons_str blank (cp_body f prefix r3)
  | None =>
      match strip_prefix [124; 124; 124] (snd (span_while is_blank r2)) with
      | Some r4 => Ok (blank, r4)
      | None => Err EInvalidTextBlockTermination
      end
  end.

Lemma cp_body_nl prefix f r1 : cp_body (S f) prefix (10 :: r1) = cons_str [10] (cp_line_start f prefix r1).
Proof.
  cbn [cp_body]. rewrite N.eqb_refl. unfold cp_line_start.
  destruct (cp_blank_lines r1) as [blank r2].
  destruct (strip_prefix prefix r2) as [r3|]; [rewrite cons_str_cons_str; reflexivity|].
  destruct (strip_prefix [124; 124; 124] (snd (span_while is_blank r2))); reflexivity.
Qed.

Lemma cp_blank_lines_line l R : no_nl l -> is_blank_line l = false ->
  cp_blank_lines (l ++ R) = ([], l ++ R).
Proof.
  intros Hn Hb. destruct l as [|x l]; [discriminate|]. inversion Hn as [|? ? Hx Hl]; subst.
  cbn [app cp_blank_lines]. destruct (N.eqb_spec x 10); [congruence|].
  destruct (N.eqb_spec x 13) as [->|]; [|reflexivity].
  destruct l as [|y l]; [discriminate|]. inversion Hl as [|? ? Hy _]; subst. cbn [app].
  destruct (N.eqb_spec y 10); [congruence|reflexivity].
Qed.

Lemma cp_blank_lines_last l : no_nl l -> cp_blank_lines l = ([], l).
Proof.
  intros Hn. destruct l as [|x l]; [reflexivity|]. inversion Hn as [|? ? Hx Hl]; subst.
  cbn [cp_blank_lines]. destruct (N.eqb_spec x 10); [congruence|].
  destruct (x =? 13); [|reflexivity]. destruct l as [|y l]; [reflexivity|].
  inversion Hl as [|? ? Hy _]; subst. destruct (N.eqb_spec y 10); [congruence|reflexivity].
Qed.

Lemma cp_line_start_blank f prefix l J : is_blank_line l = true ->
  cp_line_start f prefix (l ++ 10 :: J) = cons_str (l ++ [10]) (cp_line_start f prefix J).
Proof.
  intros BL. unfold cp_line_start.
  assert (E : cp_blank_lines (l ++ 10 :: J) = (l ++ 10 :: fst (cp_blank_lines J), snd (cp_blank_lines J))).
  { destruct l as [|x [|y l]]; try discriminate; cbn [app cp_blank_lines].
    - rewrite N.eqb_refl. destruct (cp_blank_lines J); reflexivity.
    - cbn in BL. apply N.eqb_eq in BL. subst x. change (13 =? 10) with false. rewrite !N.eqb_refl. cbv iota.
      destruct (cp_blank_lines J); reflexivity. }
  rewrite E. destruct (cp_blank_lines J) as [s t]. cbn [fst snd].
  destruct (strip_prefix prefix t) as [r3|].
  - rewrite cons_str_cons_str, <- app_assoc. reflexivity.
  - destruct (strip_prefix [124; 124; 124] _); cbn; [rewrite <- app_assoc|]; reflexivity.
Qed.

(* what the body scanner finds after the rest of a line *)
Definition after_line (prefix : list N) (more : list (list N)) : tbres :=
  match more with
  | [] => Err EUnfinishedString
  | l2 :: more2 => cons_str [10] (tbl_at_line prefix l2 more2)
  end.

(* inside a line the scanner copies it; at the start of a line it answers as tbl_at_line *)
Lemma lines_sim prefix : Forall (fun x => is_blank x = true) prefix -> forall more, Forall no_nl more ->
  (forall r f, no_nl r -> (length (join_lines r more) < f)%nat ->
     cp_body f prefix (join_lines r more) = cons_str r (after_line prefix more)) /\
  (forall l f, no_nl l -> (length (join_lines l more) < f)%nat ->
     cp_line_start f prefix (join_lines l more) = tbl_at_line prefix l more).
Proof.
  intros HP. pose proof (no_nl_blank _ HP) as HPn.
  induction more as [|l2 more2 IH]; intros Hm.
  - assert (BODY : forall r f, no_nl r -> (length (join_lines r []) < f)%nat ->
              cp_body f prefix (join_lines r []) = cons_str r (after_line prefix [])).
    { intros r f Hr F. rewrite join_nil in *. rewrite <- (app_nil_r r) at 1.
      rewrite cp_body_content by (assumption || lia).
      destruct (f - length r)%nat eqn:E; [lia|reflexivity]. }
    split; [exact BODY|]. intros l f Hl FS. rewrite join_nil in FS |- *.
    cbn [tbl_at_line]. unfold cp_line_start. rewrite (cp_blank_lines_last l Hl).
    destruct (strip_prefix prefix l) as [r3|] eqn:SP.
    + destruct (strip_prefix_no_nl _ _ _ SP Hl) as [N3 L3].
      pose proof (BODY r3 f N3) as E. rewrite join_nil in E. rewrite E by lia. reflexivity.
    + unfold tbl_terminator. destruct (strip_prefix [124; 124; 124] (snd (span_while is_blank l))) as [t|]; [|reflexivity].
      rewrite join_nil. reflexivity.
  - inversion Hm as [|? ? Hl2 Hm2]; subst. destruct (IH Hm2) as [_ START]. assert (START2 := fun f => START l2 f Hl2). clear START.
    set (J := join_lines l2 more2) in *.
    assert (HR : eol (10 :: J)) by (right; eexists; reflexivity).
    assert (BODY : forall r f, no_nl r -> (length (join_lines r (l2 :: more2)) < f)%nat ->
              cp_body f prefix (join_lines r (l2 :: more2)) = cons_str r (after_line prefix (l2 :: more2))).
    { intros r f Hr F. rewrite join_cons in *. fold J in F |- *. rewrite app_length in F. cbn [length] in F.
      rewrite cp_body_content by (assumption || lia).
      destruct (f - length r)%nat as [|f'] eqn:E; [lia|]. rewrite cp_body_nl, START2 by lia. reflexivity. }
    split; [exact BODY|]. intros l f Hl FS. rewrite join_cons in FS |- *. fold J in FS |- *.
    rewrite app_length in FS. cbn [length tbl_at_line] in FS |- *.
    destruct (is_blank_line l) eqn:BL; [rewrite (cp_line_start_blank _ _ _ _ BL), START2 by lia; reflexivity|].
    unfold cp_line_start. rewrite (cp_blank_lines_line l (10 :: J) Hl BL).
    rewrite (strip_prefix_app_line prefix l (10 :: J) HPn HR).
    destruct (strip_prefix prefix l) as [content|] eqn:SP.
    + destruct (strip_prefix_no_nl _ _ _ SP Hl) as [N3 L3].
      pose proof (BODY content f N3) as E. rewrite join_cons in E. fold J in E.
      rewrite E by (rewrite app_length; cbn [length]; lia).
      cbn [after_line]. rewrite cons_str_nil, cons_str_cons_str. reflexivity.
    + rewrite (span_while_app is_blank l (10 :: J) eq_refl HR). cbn [snd].
      rewrite (strip_prefix_app_line [124; 124; 124] _ (10 :: J) ltac:(repeat constructor; lia) HR).
      unfold tbl_terminator.
      destruct (strip_prefix [124; 124; 124] (snd (span_while is_blank l))) as [t|]; reflexivity.
Qed.

Definition cp_first_then_body (fs : nat) (cps : list N) : tbres :=
  do t <- cp_first_loop fs cps;
  let '(s1, p, r4) := t in
  do u <- cp_body (S (length r4)) p r4;
  let '(s2, r5) := u in Ok (s1 ++ s2, r5).

Lemma tbl_leading_eq l more :
  tbl_leading l more =
  let '(p, content) := span_while is_blank l in
  match p with
  | [] =>
      match more with
      | l2 :: more2 =>
          if is_blank_line l then cons_str (l ++ [10]) (tbl_leading l2 more2)
          else Err EMissingWhitespaceTextBlockStart
      | [] => Err EMissingWhitespaceTextBlockStart
      end
  | _ =>
      match more with
      | [] => Err EUnfinishedString
      | l2 :: more2 => cons_str (content ++ [10]) (tbl_at_line p l2 more2)
      end
  end.
Proof. destruct more; reflexivity. Qed.

(* one line of the search for the indentation; [IH] answers for the lines after a blank one *)
Lemma first_lines_step more l fs : no_nl l -> Forall no_nl more ->
  (forall l2 more2, more = l2 :: more2 ->
     cp_first_then_body fs (join_lines l2 more2) = tbl_leading l2 more2) ->
  cp_first_then_body (S fs) (join_lines l more) = tbl_leading l more.
Proof.
  intros Hl Hm IH. rewrite tbl_leading_eq. unfold cp_first_then_body at 1, join_lines. cbn [cp_first_loop].
  pose proof (eol_lines more) as HR. set (R := flat_map (fun x => 10 :: x) more) in *.
  rewrite (span_while_app is_blank l R eq_refl HR).
  pose proof (span_while_all is_blank l) as PA. pose proof (span_while_join is_blank l) as PJ.
  destruct (span_while is_blank l) as [p content]. cbn [fst snd] in *.
  destruct p as [|x p].
  - cbn [app] in PJ. subst content. destruct (is_blank_line l) eqn:BL.
    + (* "" or CR: with a newline after it, it is copied and the search goes on *)
      assert (E : match l ++ R with
                  | c :: r2 => if c =? 13 then ([13], r2) else ([], l ++ R)
                  | [] => ([], l ++ R)
                  end = (l, R)).
      { destruct l as [|c [|? ?]]; try discriminate; cbn [app].
        - destruct HR as [->|[r ->]]; reflexivity.
        - cbn in BL. rewrite BL. apply N.eqb_eq in BL. subst c. reflexivity. }
      rewrite E. destruct more as [|l2 more2]; [reflexivity|].
      subst R. cbn [flat_map app]. rewrite N.eqb_refl. fold (join_lines l2 more2).
      rewrite <- (IH l2 more2 eq_refl). unfold cp_first_then_body.
      destruct (cp_first_loop fs _) as [[[s pp] r]| | |]; cbn [obind]; try reflexivity.
      destruct (cp_body _ pp r) as [[s2 r5]| | |]; cbn [obind cons_str]; try reflexivity.
      rewrite <- !app_assoc. reflexivity.
    + (* neither blank nor indented *)
      destruct l as [|c l']; [discriminate|]. inversion Hl as [|? ? Hc Hl']; subst. cbn [app].
      destruct (N.eqb_spec c 13) as [->|N13].
      * destruct l' as [|c2 l'']; [discriminate|]. inversion Hl' as [|? ? Hc2 _]; subst. cbn [app].
        destruct (N.eqb_spec c2 10); [congruence|]. destruct more; reflexivity.
      * destruct (N.eqb_spec c 10); [congruence|]. destruct more; reflexivity.
  - (* the indentation is x :: p; an optional CR, then the body scanner takes the rest of the line *)
    assert (Nc : no_nl content) by (rewrite <- PJ in Hl; apply (no_nl_app_r _ _ Hl)).
    assert (CR : exists cr r2, match content ++ R with
                               | c :: r2 => if c =? 13 then ([13], r2) else ([], content ++ R)
                               | [] => ([], content ++ R)
                               end = (cr, r2 ++ R) /\ cr ++ r2 = content /\ no_nl r2).
    { destruct content as [|c content'].
      - exists [], []. split; [destruct HR as [->|[r ->]]; reflexivity|split; [reflexivity|constructor]].
      - cbn [app]. destruct (N.eqb_spec c 13) as [->|].
        + exists [13], content'. repeat split. inversion Nc; assumption.
        + exists [], (c :: content'). repeat split. exact Nc. }
    destruct CR as [cr [r2 [-> [E2 N2]]]]. cbn [obind]. subst R. fold (join_lines r2 more).
    assert (L2 : (length (join_lines r2 more) < S (length (join_lines r2 more)))%nat) by lia.
    rewrite (proj1 (lines_sim (x :: p) PA more Hm) r2 _ N2 L2).
    change (cons_str cr (cons_str r2 (after_line (x :: p) more)) =
            match more with
            | [] => Err EUnfinishedString
            | l2 :: more2 => cons_str (content ++ [10]) (tbl_at_line (x :: p) l2 more2)
            end).
    rewrite cons_str_cons_str, E2. destruct more; [reflexivity|]. cbn [after_line].
    rewrite cons_str_cons_str. reflexivity.
Qed.

Lemma first_lines : forall more l fs, no_nl l -> Forall no_nl more -> (length (join_lines l more) < fs)%nat ->
  cp_first_then_body fs (join_lines l more) = tbl_leading l more.
Proof.
  induction more as [|l2 more2 IH]; intros l fs Hl Hm FS; (destruct fs as [|fs]; [lia|]).
  - apply first_lines_step; try assumption. discriminate.
  - apply first_lines_step; try assumption. intros l3 more3 E. inversion E; subst. inversion Hm; subst.
    apply IH; try assumption. rewrite join_cons, app_length in FS. cbn [length] in FS. lia.
Qed.

Lemma forallb_span p l : forallb p l = true <-> snd (span_while p l) = [].
Proof.
  induction l as [|x l IH]; cbn [forallb span_while]; [tauto|].
  destruct (p x); cbn [andb]; [|split; discriminate].
  destruct (span_while p l). cbn [snd] in *. exact IH.
Qed.

Lemma span_while_no_nl p l : no_nl l -> no_nl (snd (span_while p l)).
Proof.
  intros H. pose proof (span_while_join p l) as J. rewrite <- J in H. apply (no_nl_app_r _ _ H).
Qed.

Theorem cp_text_block_lines l0 more : no_nl l0 -> Forall no_nl more ->
  cp_text_block (join_lines l0 more) = textblock_lines l0 more.
Proof.
  intros H0 Hm. unfold cp_text_block, textblock_lines.
  pose proof (eol_lines more) as HR.
  (* the optional dash *)
  assert (exists strip h, (match l0 with c :: h => if c =? 45 then (true, h) else (false, l0) | [] => (false, l0) end) = (strip, h) /\
           (match join_lines l0 more with c :: r => if c =? 45 then (true, r) else (false, join_lines l0 more) | [] => (false, join_lines l0 more) end)
           = (strip, join_lines h more) /\ no_nl h) as [strip [h [E1 [E2 Hh]]]].
  { destruct l0 as [|c h].
    - exists false, []. split; [reflexivity|]. split; [|constructor].
      unfold join_lines. cbn [app]. destruct HR as [->|[r ->]]; [reflexivity|]. reflexivity.
    - unfold join_lines. cbn [app]. destruct (c =? 45).
      + exists true, h. repeat split. inversion H0; assumption.
      + exists false, (c :: h). repeat split. exact H0. }
  rewrite E1, E2. clear E1 E2. unfold join_lines at 1.
  rewrite (span_while_app is_blank_cr h _ eq_refl HR). cbn [snd].
  pose proof (span_while_no_nl is_blank_cr h Hh) as Nb.
  destruct (forallb is_blank_cr h) eqn:FB.
  - apply forallb_span in FB. rewrite FB. cbn [app].
    destruct more as [|l1 more1]; [reflexivity|]. cbn [flat_map app]. rewrite N.eqb_refl.
    inversion Hm as [|? ? Hl1 Hm1]; subst.
    pose proof (first_lines more1 l1 (S (length (join_lines l1 more1))) Hl1 Hm1 ltac:(lia)) as FL.
    unfold cp_first_then_body in FL. unfold join_lines in FL |- *. rewrite <- FL.
    destruct (cp_first_loop _ _) as [[[s1 p] r4]| | |]; cbn [obind]; try reflexivity.
    destruct (cp_body _ p r4) as [[s2 r5]| | |]; cbn [obind]; reflexivity.
  - assert (snd (span_while is_blank_cr h) <> []) by (intros E; apply forallb_span in E; congruence).
    destruct (snd (span_while is_blank_cr h)) as [|x t]; [congruence|]. cbn [app].
    inversion Nb; subst. destruct (N.eqb_spec x 10); [congruence|reflexivity].
Qed.

Theorem textblock_value len start c : bytes_ok (rest c) ->
  match lex_text_block len start c with
  | Ok (t, c') => exists s, tok_kind t = TTextBlock s /\
                            textblock_spec (lossy (rest c)) = Ok (s, lossy (rest c'))
  | Err e => textblock_spec (lossy (rest c)) = Err (err_kind e)
  | _ => True
  end.
Proof.
  intros B. pose proof (text_block_cp len start c B) as A.
  unfold textblock_spec. destruct (join_split (lossy (rest c))) as [J [N0 Nm]].
  rewrite <- (cp_text_block_lines _ _ N0 Nm), J.
  destruct (lex_text_block len start c) as [[t c']|e| |]; auto.
  destruct A as [[s u] [-> [K V]]]. cbn [fst snd] in K, V. exists s. rewrite V. split; [exact K|reflexivity].
Qed.

(* Numbers: the state machine against a grammar on digit groups *)

(* a digit group as the scanner reads it: digits, a single underscore allowed
   between digits — and, as written, also after the last digit.  Returns the
   digits, whether the group ended right after an underscore, and the rest. *)
Fixpoint scan_group (us : bool) (r : list N) : list N * bool * list N :=
  match r with
  | [] => ([], us, r)
  | b :: r' =>
      if is_digit b then let '(d, u, t) := scan_group false r' in (b :: d, u, t)
      else if negb us && (b =? 95) then scan_group true r'
      else ([], us, r)
  end.

Definition dec_value (ds : list N) : N := fold_left (fun a d => a * 10 + (d - 48)) ds 0.

Definition in_i64 (z : Z) : bool := negb ((z <? i64_min)%Z || (i64_max <? z)%Z).

Notation numres := (outcome (list N * Z * list N) lex_error_kind).

Section NumSpec.
(* strict = true: the upstream grammar, an underscore must be followed by a digit;
   strict = false: what lexer/mod.rs does ('.' and 'e' are accepted after '_') *)
Variable strict : bool.

Definition after_us (us : bool) (k : numres) : numres :=
  if strict && us then Err EMissingDigitAfterUnderscore else k.

(* no further part: [X] is the explicit exponent's magnitude *)
Definition num_finish (di df : list N) (sign : bool) (X : N) (t : list N) : numres :=
  if (i64_max <? Z.of_N X)%Z then Err EExpOverflow
  else
    let e := ((if sign then - Z.of_N X else Z.of_N X) - Z.of_nat (length df))%Z in
    if in_i64 e then Ok (di ++ df, e, t) else Err EExpOverflow.

(* after e / E: optional sign, a digit group *)
Definition spec_exp (di df : list N) (r : list N) : numres :=
  let '(sign, r1) := match r with
                     | b :: r' => if b =? 43 then (false, r') else if b =? 45 then (true, r') else (false, r)
                     | [] => (false, r)
                     end in
  match r1 with
  | b :: r2 =>
      if is_digit b then
        let '(dx, us, t) := scan_group false r2 in
        if us then Err EMissingDigitAfterUnderscore else num_finish di df sign (dec_value (b :: dx)) t
      else Err EMissingExpDigits
  | [] => Err EMissingExpDigits
  end.

Definition spec_tail (di df : list N) (us : bool) (t : list N) : numres :=
  if us then Err EMissingDigitAfterUnderscore else num_finish di df false 0 t.

(* integer part [chr0 :: group], then optionally '.' group, then optionally e-part *)
Definition number_spec (chr0 : N) (r : list N) : numres :=
  let '(di, us1, r1) := scan_group false r in
  if (chr0 =? 48) && negb (match di with [] => true | _ => false end) then Err ELeadingZeroInNumber
  else
    let int_ds := chr0 :: di in
    match r1 with
    | b :: r2 =>
        if b =? 46 then
          after_us us1
            match r2 with
            | d :: r3 =>
                if is_digit d then
                  let '(df, us2, r4) := scan_group false r3 in
                  match r4 with
                  | b2 :: r5 => if is_e b2 then after_us us2 (spec_exp int_ds (d :: df) r5)
                                else spec_tail int_ds (d :: df) us2 r4
                  | [] => spec_tail int_ds (d :: df) us2 r4
                  end
                else Err EMissingFracDigits
            | [] => Err EMissingFracDigits
            end
        else if is_e b then after_us us1 (spec_exp int_ds [] r2)
        else spec_tail int_ds [] us1 r1
    | [] => spec_tail int_ds [] us1 r1
    end.
End NumSpec.

Definition stopped (u : bool) (t : list N) : Prop :=
  match t with
  | [] => True
  | b :: _ => is_digit b = false /\ negb u && (b =? 95) = false
  end.

(* the three digit groups (integer, fraction, exponent) are one loop *)
Inductive group := GInt | GFrac | GExp.

Definition gstate (g : group) : bool -> nstate :=
  match g with GInt => NInt | GFrac => NFrac | GExp => NExpDigits end.

Definition gpush (g : group) (a : nacc) (b : N) : nacc :=
  match g with
  | GInt => push_digit a b false
  | GFrac => push_digit a b true
  | GExp => set_expl a (exp_push (n_expl a) (b - 48))
  end.

(* the loop runs through a digit group as scan_group does (in the integer part only
   without a leading zero, which makes the first digit an error) *)
Lemma group_loop len lz g : (g = GInt -> lz = false) -> forall r ps us a,
  let '(d, u, t) := scan_group us r in
  stopped u t /\
  exists ps', num_loop len lz r ps (gstate g us) a = num_loop len lz t ps' (gstate g u) (fold_left (gpush g) d a).
Proof.
  intros LZ. induction r as [|b r IH]; intros ps us a; cbn [scan_group].
  - split; [exact I|]. exists ps. reflexivity.
  - destruct (is_digit b) eqn:D.
    + specialize (IH (ps + 1) false (gpush g a b)). destruct (scan_group false r) as [[d u] t].
      destruct IH as [ST [ps' E]]. split; [exact ST|]. exists ps'. cbn [num_loop fold_left]. rewrite <- E.
      destruct g; cbn [gstate num_step gpush]; rewrite D; [|reflexivity..].
      rewrite (LZ eq_refl), andb_false_r. reflexivity.
    + destruct (negb us && (b =? 95)) eqn:U; [|split; [split; assumption|exists ps; reflexivity]].
      specialize (IH (ps + 1) true a). destruct (scan_group true r) as [[d u] t].
      destruct IH as [ST [ps' E]]. split; [exact ST|]. exists ps'. cbn [num_loop]. rewrite <- E.
      destruct g; cbn [gstate num_step]; rewrite D, U; reflexivity.
Qed.

Definition exp_opt (v : N) : option N := if u64_max <? v then None else Some v.
Definition dec_step (a d : N) : N := a * 10 + (d - 48).

Lemma exp_opt_0 : Some 0 = exp_opt 0.
Proof. reflexivity. Qed.

Lemma exp_push_opt v d : exp_push (exp_opt v) d = exp_opt (v * 10 + d).
Proof.
  unfold exp_opt, exp_push.
  destruct (N.ltb_spec u64_max v) as [H|H].
  - destruct (N.ltb_spec u64_max (v * 10 + d)); [reflexivity|lia].
  - destruct (N.ltb_spec u64_max (v * 10)) as [H1|H1].
    + destruct (N.ltb_spec u64_max (v * 10 + d)); [reflexivity|lia].
    + reflexivity.
Qed.

(* the accumulator after the digits [ds], [k] of them fraction digits, with
   exponent sign [sign] and exponent magnitude [X] (as far as it fits u64) *)
Definition acc_is (a : nacc) (ds : list N) (k : nat) (sign : bool) (X : N) : Prop :=
  n_digits a = rev ds /\ n_impl a = (- Z.of_nat k)%Z /\ n_sign a = sign /\ n_expl a = exp_opt X.

Lemma fold_int d : forall a ds k s X, acc_is a ds k s X -> acc_is (fold_left (gpush GInt) d a) (ds ++ d) k s X.
Proof.
  induction d as [|b d IH]; intros a ds k s X H; cbn [fold_left]; [rewrite app_nil_r; exact H|].
  replace (ds ++ b :: d) with ((ds ++ [b]) ++ d) by (rewrite <- app_assoc; reflexivity). apply IH.
  destruct H as [A H]. split; [|exact H]. cbn. rewrite A, rev_unit. reflexivity.
Qed.

Lemma fold_frac d : forall a ds k s X, acc_is a ds k s X ->
  acc_is (fold_left (gpush GFrac) d a) (ds ++ d) (k + length d) s X.
Proof.
  induction d as [|b d IH]; intros a ds k s X H; cbn [fold_left length].
  - rewrite app_nil_r, Nat.add_0_r. exact H.
  - replace (ds ++ b :: d) with ((ds ++ [b]) ++ d) by (rewrite <- app_assoc; reflexivity).
    rewrite Nat.add_succ_r. apply (IH _ _ (S k)).
    destruct H as [A [B H]]. split; [cbn; rewrite A, rev_unit; reflexivity|]. split; [cbn; lia|exact H].
Qed.

Lemma fold_exp d : forall a ds k s X, acc_is a ds k s X ->
  acc_is (fold_left (gpush GExp) d a) ds k s (fold_left dec_step d X).
Proof.
  induction d as [|b d IH]; intros a ds k s X H; cbn [fold_left]; [exact H|]. apply IH.
  destruct H as [A [B [C D]]]. repeat split; try assumption.
  cbn [gpush set_expl n_expl]. rewrite D. apply exp_push_opt.
Qed.

Lemma eff_exp_finish a di df sign X t : acc_is a (di ++ df) (length df) sign X ->
  match eff_exp a with
  | Some e => num_finish di df sign X t = Ok (rev (n_digits a), e, t)
  | None => num_finish di df sign X t = Err EExpOverflow
  end.
Proof.
  intros [A [B [C D]]]. unfold eff_exp, num_finish. rewrite D, B, C, A, rev_involutive. unfold exp_opt.
  destruct (N.ltb_spec u64_max X) as [H|H].
  - replace (i64_max <? Z.of_N X)%Z with true; [reflexivity|].
    symmetry. apply Z.ltb_lt. unfold i64_max, u64_max in *. lia.
  - destruct (i64_max <? Z.of_N X)%Z; [reflexivity|].
    assert (E : (if sign then (- Z.of_nat (length df) - Z.of_N X)%Z else (- Z.of_nat (length df) + Z.of_N X)%Z)
                = ((if sign then (- Z.of_N X)%Z else Z.of_N X) - Z.of_nat (length df))%Z) by (destruct sign; lia).
    rewrite E. unfold in_i64. destruct (_ || _); reflexivity.
Qed.

(* results of the number loop, up to positions and spans *)
Definition finish_rel (r : res (nacc * cur)) (q : numres) : Prop :=
  match r with
  | Ok (a, c') =>
      match eff_exp a with
      | Some e => q = Ok (rev (n_digits a), e, rest c')
      | None => q = Err EExpOverflow
      end
  | Err e => q = Err (err_kind e)
  | _ => True
  end.

Lemma finish_rel_fail len k s e : finish_rel (fail len k s e) (Err k).
Proof.
  pose proof (fail_inv (A := nacc * cur) len k s e _ eq_refl) as H. unfold finish_rel.
  destruct (fail len k s e) as [[a c]| | |]; auto; [contradiction|congruence].
Qed.

(* every error of num_stop and num_loop has this form: a span reaching back from
   the cursor, by checked subtraction *)
Lemma finish_rel_usub_fail len k a b : forall f : N -> N * N,
  finish_rel (do s <- usub a b; fail len k (fst (f s)) (snd (f s))) (Err k).
Proof. intros f. unfold usub. destruct (a <? b); [exact I|]. cbn [obind]. apply finish_rel_fail. Qed.

Lemma stop_err len st a c k :
  (st = NDot /\ k = EMissingFracDigits) \/ ((st = NExp \/ st = NExpSign) /\ k = EMissingExpDigits) ->
  finish_rel (num_stop len st a c) (Err k).
Proof.
  intros [[-> ->]|[[->| ->] ->]]; exact (finish_rel_usub_fail len _ _ _ (fun s => (s, pos c))).
Qed.

(* at the end of a digit group: a trailing underscore is an error, otherwise the
   number ends here *)
Lemma group_stop len g u a c di df sign X : acc_is a (di ++ df) (length df) sign X ->
  finish_rel (num_stop len (gstate g u) a c)
    (if u then Err EMissingDigitAfterUnderscore else num_finish di df sign X (rest c)).
Proof.
  intros HA. pose proof (eff_exp_finish a di df sign X (rest c) HA) as E.
  destruct u.
  - destruct g; exact (finish_rel_usub_fail len _ _ _ (fun s => (s, pos c))).
  - destruct g; cbn [gstate num_stop finish_rel]; destruct (eff_exp a); exact E.
Qed.

Section Chain.
Variables (len : N) (lz : bool).

Lemma dec_value_cons b dx : dec_value (b :: dx) = fold_left dec_step dx (b - 48).
Proof. unfold dec_value. cbn [fold_left]. rewrite N.mul_0_l, N.add_0_l. reflexivity. Qed.

Lemma digit_exp_opt b : is_digit b = true -> Some (b - 48) = exp_opt (b - 48).
Proof.
  intros D. unfold is_digit in D. apply in_range_iff in D. unfold exp_opt.
  replace (u64_max <? b - 48) with false; [reflexivity|]. symmetry. apply N.ltb_ge. unfold u64_max. lia.
Qed.

Lemma expdigits_rel b r ps a di df sign X0 : acc_is a (di ++ df) (length df) sign X0 -> is_digit b = true ->
  finish_rel (num_loop len lz r ps (NExpDigits false) (set_expl a (Some (b - 48))))
    (let '(dx, us, t) := scan_group false r in
     if us then Err EMissingDigitAfterUnderscore else num_finish di df sign (dec_value (b :: dx)) t).
Proof.
  intros [A [B [C _]]] D. set (a1 := set_expl a (Some (b - 48))).
  assert (HA : acc_is a1 (di ++ df) (length df) sign (b - 48)).
  { split; [exact A|]. split; [exact B|]. split; [exact C|]. apply digit_exp_opt, D. }
  pose proof (group_loop len lz GExp ltac:(discriminate) r ps false a1) as G.
  destruct (scan_group false r) as [[dx u] t]. destruct G as [ST [ps' E]]. cbn [gstate] in E. rewrite E, dec_value_cons.
  (* nothing continues a number after its exponent digits *)
  replace (num_loop len lz t ps' (NExpDigits u) (fold_left (gpush GExp) dx a1))
    with (num_stop len (NExpDigits u) (fold_left (gpush GExp) dx a1) {| pos := ps'; rest := t |}).
  - apply (group_stop len GExp u _ {| pos := ps'; rest := t |} di df sign). apply fold_exp, HA.
  - destruct t as [|c t]; [reflexivity|]. destruct ST as [Dc U]. cbn [num_loop num_step]. rewrite Dc, U. reflexivity.
Qed.

Lemma exp_rel r ps a di df X0 : acc_is a (di ++ df) (length df) false X0 ->
  finish_rel (num_loop len lz r ps NExp a) (spec_exp di df r).
Proof.
  intros HA. unfold spec_exp.
  assert (SIGN : forall sign r1 ps' a', acc_is a' (di ++ df) (length df) sign X0 ->
            finish_rel (num_loop len lz r1 ps' NExpSign a')
              match r1 with
              | b :: r2 => if is_digit b then
                   let '(dx, us, t) := scan_group false r2 in
                   if us then Err EMissingDigitAfterUnderscore else num_finish di df sign (dec_value (b :: dx)) t
                 else Err EMissingExpDigits
              | [] => Err EMissingExpDigits
              end).
  { intros sign r1 ps' a' HA'. destruct r1 as [|b r2]; [apply stop_err; tauto|].
    cbn [num_loop num_step]. destruct (is_digit b) eqn:D; [apply (expdigits_rel _ _ _ _ _ _ _ X0); assumption|apply stop_err; tauto]. }
  destruct r as [|b r']; [apply stop_err; tauto|].
  cbn [num_loop num_step].
  destruct (N.eqb_spec b 43) as [->|N43]; [exact (SIGN false r' (ps + 1) a HA)|].
  destruct (N.eqb_spec b 45) as [->|N45].
  - apply (SIGN true r' (ps + 1) (set_sign a)). destruct HA as [A [B [C D]]]. repeat split; assumption.
  - destruct (is_digit b) eqn:D; [apply (expdigits_rel _ _ _ _ _ _ _ X0); assumption|apply stop_err; tauto].
Qed.

(* number_spec from the dot on, and from the end of the integer digits on *)
Definition spec_frac (int_ds r2 : list N) : numres :=
  match r2 with
  | d :: r3 =>
      if is_digit d then
        let '(df, us2, r4) := scan_group false r3 in
        match r4 with
        | b2 :: r5 => if is_e b2 then spec_exp int_ds (d :: df) r5 else spec_tail int_ds (d :: df) us2 r4
        | [] => spec_tail int_ds (d :: df) us2 r4
        end
      else Err EMissingFracDigits
  | [] => Err EMissingFracDigits
  end.

Definition spec_int (int_ds : list N) (u : bool) (t : list N) : numres :=
  match t with
  | b :: r2 =>
      if b =? 46 then spec_frac int_ds r2
      else if is_e b then spec_exp int_ds [] r2
      else spec_tail int_ds [] u t
  | [] => spec_tail int_ds [] u t
  end.

Lemma frac_rel r2 ps a int_ds : acc_is a int_ds 0 false 0 ->
  finish_rel (num_loop len lz r2 ps NDot a) (spec_frac int_ds r2).
Proof.
  intros HA0. unfold spec_frac. destruct r2 as [|d r3]; [apply stop_err; tauto|].
  cbn [num_loop num_step]. destruct (is_digit d) eqn:DD; [|apply stop_err; tauto].
  pose proof (group_loop len lz GFrac ltac:(discriminate) r3 (ps + 1) false (push_digit a d true)) as G.
  destruct (scan_group false r3) as [[df u] t]. destruct G as [ST [ps' E]]. cbn [gstate] in E. rewrite E.
  pose proof (fold_frac (d :: df) a int_ds 0 false 0 HA0) as HA. cbn [fold_left plus gpush] in HA.
  set (a' := fold_left (gpush GFrac) df (push_digit a d true)) in *.
  pose proof (group_stop len GFrac u a' {| pos := ps'; rest := t |} int_ds (d :: df) false 0 HA) as STOP.
  destruct t as [|b2 r5]; [exact STOP|].
  destruct ST as [ND U]. cbn [num_loop num_step]. rewrite ND, U.
  destruct (is_e b2); [|exact STOP].
  exact (exp_rel r5 (ps' + 1) _ int_ds (d :: df) 0 HA).
Qed.

Lemma int_after u t ps a int_ds : stopped u t -> acc_is a int_ds 0 false 0 ->
  finish_rel (num_loop len lz t ps (NInt u) a) (spec_int int_ds u t).
Proof.
  intros ST HA. unfold spec_int.
  assert (HA0 : acc_is a (int_ds ++ []) (length (@nil N)) false 0) by (rewrite app_nil_r; exact HA).
  pose proof (group_stop len GInt u a {| pos := ps; rest := t |} int_ds [] false 0 HA0) as STOP.
  destruct t as [|b r2]; [exact STOP|].
  destruct ST as [ND U]. cbn [num_loop num_step]. rewrite ND, U.
  destruct (b =? 46); [apply frac_rel, HA|].
  destruct (is_e b); [|exact STOP]. exact (exp_rel r2 (ps + 1) a int_ds [] 0 HA0).
Qed.
End Chain.

Definition acc0 (chr0 : N) : nacc := {| n_digits := [chr0]; n_impl := 0%Z; n_expl := Some 0; n_sign := false |}.

Lemma num_loop_spec len chr0 r ps :
  finish_rel (num_loop len (chr0 =? 48) r ps (NInt false) (acc0 chr0)) (number_spec false chr0 r).
Proof.
  unfold number_spec, after_us. cbn [andb].
  assert (HA : acc_is (acc0 chr0) [chr0] 0 false 0) by (repeat split).
  destruct (chr0 =? 48) eqn:LZ; cbn [andb].
  - (* leading zero: the first digit met in the integer part is an error *)
    assert (LZE : forall b r' ps' us, is_digit b = true ->
              finish_rel (num_loop len true (b :: r') ps' (NInt us) (acc0 chr0)) (Err ELeadingZeroInNumber)).
    { intros b r' ps' us D. cbn [num_loop num_step acc0 n_digits length Nat.eqb andb]. rewrite D.
      unfold usub. destruct (ps' + 1 <? 2); [exact I|]. cbn [obind].
      exact (finish_rel_usub_fail len _ _ _ (fun e => (ps' + 1 - 2, e))). }
    assert (US : forall r' ps', num_loop len true (95 :: r') ps' (NInt false) (acc0 chr0)
                              = num_loop len true r' (ps' + 1) (NInt true) (acc0 chr0)) by reflexivity.
    destruct r as [|b r']; [apply (int_after len true false [] ps (acc0 chr0) [chr0] I HA)|].
    cbn [scan_group]. destruct (is_digit b) eqn:D.
    + destruct (scan_group false r') as [[d u] t]. apply LZE, D.
    + cbn [negb andb]. destruct (N.eqb_spec b 95) as [->|N95].
      * (* one underscore, then the same question *)
        rewrite US. destruct r' as [|b' r'']; [apply (int_after len true true [] (ps + 1) (acc0 chr0) [chr0] I HA)|].
        cbn [scan_group]. destruct (is_digit b') eqn:D'.
        -- destruct (scan_group false r'') as [[d u] t]. apply LZE, D'.
        -- apply (int_after len true true (b' :: r'') (ps + 1) (acc0 chr0) [chr0]); [split; [exact D'|reflexivity]|exact HA].
      * apply (int_after len true false (b :: r') ps (acc0 chr0) [chr0]); [|exact HA].
        split; [exact D|]. apply N.eqb_neq in N95. cbn. exact N95.
  - pose proof (group_loop len false GInt (fun _ => eq_refl) r ps false (acc0 chr0)) as G.
    destruct (scan_group false r) as [[di u] t]. destruct G as [ST [ps' E]]. cbn [gstate] in E. rewrite E.
    apply (int_after len false u t ps' _ (chr0 :: di) ST). exact (fold_int di _ [chr0] 0 false 0 HA).
Qed.

Theorem number_value len start chr0 c : is_digit chr0 = true ->
  match lex_number len start chr0 c with
  | Ok (t, c') => exists digits e, tok_kind t = TNumber {| num_digits := digits; num_exp := e |} /\
                                   number_spec false chr0 (rest c) = Ok (digits, e, rest c')
  | Err er => number_spec false chr0 (rest c) = Err (err_kind er)
  | _ => True
  end.
Proof.
  intros D. unfold lex_number. rewrite D. cbn [negb].
  pose proof (num_loop_spec len chr0 (rest c) (pos c)) as R. fold (acc0 chr0).
  unfold finish_rel in R.
  destruct (num_loop len (chr0 =? 48) (rest c) (pos c) (NInt false) (acc0 chr0)) as [[a c1]|er| |]; cbn [obind]; auto.
  destruct (eff_exp a) as [e|].
  - pose proof (commit_inv len start c1 (TNumber {| num_digits := rev (n_digits a); num_exp := e |}) _ eq_refl) as CI.
    destruct (commit len start c1 _) as [[t c']| | |]; try exact I; [|contradiction].
    destruct CI as [K E]. cbn [fst snd] in K, E. subst c'. exists (rev (n_digits a)), e. split; [exact K|exact R].
  - pose proof (fail_inv (A := token * cur) len EExpOverflow start (pos c1) _ eq_refl) as FI.
    destruct (fail len EExpOverflow start (pos c1)) as [x|er| |]; auto; [contradiction|]. rewrite FI. exact R.
Qed.

Lemma dec_fold_shift b : forall v, fold_left dec_step b v = v * 10 ^ N.of_nat (length b) + fold_left dec_step b 0.
Proof.
  induction b as [|x b IH]; intros v; cbn [fold_left length].
  - cbn. lia.
  - rewrite (IH (dec_step v x)), (IH (dec_step 0 x)). unfold dec_step.
    rewrite Nat2N.inj_succ, N.pow_succ_r'. lia.
Qed.

(* underscores are ignored, the fraction digits follow the integer digits:
   value(int ++ frac) = value(int) * 10^|frac| + value(frac) *)
Lemma dec_value_app a b : dec_value (a ++ b) = dec_value a * 10 ^ N.of_nat (length b) + dec_value b.
Proof. unfold dec_value. change (fun a0 d => a0 * 10 + (d - 48)) with dec_step. rewrite fold_left_app. apply dec_fold_shift. Qed.

(* the upstream grammar is contained in what the code accepts *)
Lemma number_spec_strict_sub chr0 r x : number_spec true chr0 r = Ok x -> number_spec false chr0 r = Ok x.
Proof.
  unfold number_spec, after_us. cbn [andb].
  destruct (scan_group false r) as [[di us1] r1].
  destruct ((chr0 =? 48) && negb match di with [] => true | _ => false end); [discriminate|].
  destruct r1 as [|b r2]; [exact (fun H => H)|].
  destruct (b =? 46).
  - destruct us1; [discriminate|]. destruct r2 as [|d r3]; [exact (fun H => H)|].
    destruct (is_digit d); [|exact (fun H => H)].
    destruct (scan_group false r3) as [[df us2] r4]. destruct r4 as [|b2 r5]; [exact (fun H => H)|].
    destruct (is_e b2); [|exact (fun H => H)]. destruct us2; [discriminate|exact (fun H => H)].
  - destruct (is_e b); [|exact (fun H => H)]. destruct us1; [discriminate|exact (fun H => H)].
Qed.

(* THE DEVIATION, as facts about the code: after an underscore the state machine
   still accepts '.' and 'e' (the upstream grammar requires a digit) *)
Lemma number_underscore_deviation :
  (forall lz a, num_step lz (NInt true) a 46 = NGo NDot a) /\
  (forall lz a, num_step lz (NInt true) a 101 = NGo NExp a) /\
  (forall lz a, num_step lz (NFrac true) a 101 = NGo NExp a) /\
  (* 1_.5  1_e5  1.0_e1 : accepted by the code, rejected by the strict grammar *)
  number_spec false 49 [95; 46; 53] = Ok ([49; 53], (-1)%Z, []) /\
  number_spec true 49 [95; 46; 53] = Err EMissingDigitAfterUnderscore /\
  number_spec false 49 [95; 101; 53] = Ok ([49], 5%Z, []) /\
  number_spec true 49 [95; 101; 53] = Err EMissingDigitAfterUnderscore /\
  number_spec false 49 [46; 48; 95; 101; 49] = Ok ([49; 48], 0%Z, []) /\
  number_spec true 49 [46; 48; 95; 101; 49] = Err EMissingDigitAfterUnderscore /\
  (* 1_  and  1__0 : rejected by the code *)
  number_spec false 49 [95] = Err EMissingDigitAfterUnderscore /\
  number_spec false 49 [95; 95; 48] = Err EMissingDigitAfterUnderscore.
Proof. repeat split; vm_compute; reflexivity. Qed.
