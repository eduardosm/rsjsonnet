(* Proofs/Parser_rt5.v — round trip: suffix chains, main induction, top level *)
From RJ Require Import Base.Outcome Model.Token Model.Ast Model.Parser Model.Print
  Proofs.Parser_rt Proofs.Parser_rt2 Proofs.Parser_rt3 Proofs.Parser_rt4.
From Coq Require Import Lia.
Local Open Scope list_scope.
Local Open Scope N_scope.

(* suffix chains, from the unary level into the suffix loop of parse_suffix_expr: [Sform e c m]
   reads the printed [e], a primary followed by m suffixes, in c steps of the machine and m turns
   of the suffix loop, which then goes on with what follows ([rest], not beginning with `tailstrict`) *)
Definition nots (l : list token) : Prop :=
  match l with c :: _ => is_simple KTailstrict c = false | [] => True end.

Definition Sform (e : expr) (c m : nat) : Prop :=
  forall pexpr lf f stk rest R t' (X : expr) tf,
    pexpr_ok pexpr (List.length (print_expr e)) -> (List.length (print_expr e) <= lf)%nat -> rest <> [] ->
    nots rest ->
    run (suffix_loop pexpr (S lf) (S lf - m) (strip_spans e)) rest R t' ->
    run (pe_loop T pexpr (S lf) f (StParsed R) stk) t' X tf ->
    run (pe_loop T pexpr (S lf) (c + f) StUnary stk) (print_expr e ++ rest) X tf.

Definition elem_ok (n : nat) (x : expr) : Prop := (esize x < n)%nat /\ wpx 0 true x = true.

(* the round trip for all trees of size below n: the induction hypothesis of rt_all *)
Definition rt_upto (n : nat) : Prop := forall y, (esize y < n)%nat -> forall k last, (k <= 10)%nat ->
  wpx k last y = true -> exists c, (c <= 40 * List.length (print_expr y))%nat /\ Bform k last y c.

Definition items_toks (x1 : expr) (more : list expr) : list token :=
  print_expr x1 ++ flat_map (fun y => comma ++ print_expr y) more.

Lemma array_items n (IH : rt_upto n) :
  forall more x1, Forall (elem_ok n) (x1 :: more) ->
  exists c, (c <= 40 * (List.length (items_toks x1 more) + 1))%nat /\
    forall pexpr lf Lb f stk acc rest (X : expr) tf,
      pexpr_ok pexpr Lb -> (Lb <= lf)%nat -> (List.length (items_toks x1 more) <= Lb)%nat -> rest <> [] ->
      run (pe_loop T pexpr (S lf) f (StParsed (EArray sp0 (acc ++ map strip_spans (x1 :: more)))) stk) rest X tf ->
      run (pe_loop T pexpr (S lf) (c + f) (init_state T) (aitem acc :: stk))
          (items_toks x1 more ++ sim SRightBracket :: rest) X tf.
Proof.
  induction more as [|x2 more IHm]; intros x1 Hall;
    inversion Hall as [|? ? (Hs1 & Hw1) Hall']; subst;
    destruct (IH x1 Hs1 0%nat true ltac:(lia) Hw1) as (c1 & Hb1 & HB1).
  - exists (c1 + 2)%nat. unfold items_toks. cbn [flat_map]. rewrite app_nil_r. split; [lia|].
    intros pexpr lf Lb f stk acc rest X tf Hp Hlf HL Hr H.
    fuel_as (c1 + (2 + f))%nat. change (init_state T) with (enter 0).
    apply HB1; [eapply pexpr_ok_mono; [exact Hp|exact HL]|lia|reflexivity|intros _; reflexivity|].
    change (exit_ 0 (strip_spans x1)) with (StBinaryRhs (kind 0) (strip_spans x1)). cbn [Nat.add].
    apply pl_rhs_none; [reflexivity|]. apply pl_item_last; [exact Hr|exact H].
  - destruct (IHm x2 Hall') as (c' & Hb' & HB').
    destruct (print_head x2) as (ch & rh & Eh & Hst).
    exists (c1 + (2 + c'))%nat. unfold items_toks in *. cbn [flat_map]. unfold comma at 1 3.
    split; [revert Hb'; repeat (rewrite app_length; cbn [List.length]); lia|].
    intros pexpr lf Lb f stk acc rest X tf Hp Hlf HL Hr H.
    assert (HL1 : (List.length (print_expr x1) <= Lb)%nat) by (revert HL; repeat (rewrite app_length; cbn [List.length]); lia).
    assert (HL2 : (List.length (print_expr x2 ++ flat_map (fun y => comma ++ print_expr y) more) <= Lb)%nat)
      by (revert HL; repeat (rewrite app_length; cbn [List.length]); lia).
    norm_app.
    fuel_as (c1 + (2 + (c' + f)))%nat. change (init_state T) with (enter 0).
    apply HB1; [eapply pexpr_ok_mono; [exact Hp|exact HL1]|lia|reflexivity|intros _; reflexivity|].
    change (exit_ 0 (strip_spans x1)) with (StBinaryRhs (kind 0) (strip_spans x1)). cbn [Nat.add].
    apply pl_rhs_none; [reflexivity|].
    rewrite app_assoc.
    eapply pl_item_more; [apply app_eq_cons_l; exact Eh|exact Hst|].
    apply (HB' pexpr lf Lb); [exact Hp|exact Hlf|exact HL2|exact Hr|].
    rewrite <- app_assoc. exact H.
Qed.

Lemma sform n (IH : rt_upto n) :
  forall e, (esize e <= n)%nat -> wpx lv_postfix false e = true ->
  exists c m, (c + 30 <= 40 * List.length (print_expr e))%nat /\ (m <= List.length (print_expr e))%nat /\ Sform e c m.
Proof.
  induction e; intros Hsz Hwp;
    try (cbn [wpx andb] in Hwp; discriminate);
    try (cbn [wpx] in Hwp; destruct e3; cbn in Hwp; discriminate);
    try (lazymatch goal with |- exists c m, _ /\ _ /\ Sform ?E c m =>
         exists 3%nat, 0%nat; split; [cbn [print_expr List.length]; lia|]; split; [lia|];
         intros pexpr lf f stk rest R t' X tf _ _ Hr _ H1 H2; cbn [print_expr app Nat.add];
         apply pl_unary_miss; [try destruct b; reflexivity|];
         eapply (pl_primary_atom pexpr lf _ E); [reflexivity|exact Hr|];
         rewrite Nat.sub_0_r in H1; eapply pl_parsed_suffix_gen; [exact H1|exact H2] end).
  - (* EParen *)
    cbn [wpx] in Hwp. cbn [esize] in Hsz.
    destruct (IH e ltac:(lia) 0%nat true ltac:(lia) Hwp) as (cx & Hbx & Hx).
    exists (S (S (cx + 3))), 0%nat. split; [len_tac|]. split; [lia|].
    intros pexpr lf f stk rest R t' X tf Hp Hlf Hr _ H1 H2.
    cbn [print_expr strip_spans app]. rewrite <- app_assoc. cbn [app Nat.add].
    apply pl_unary_miss; [reflexivity|].
    apply pl_primary_paren; [auto with rt|].
    change (init_state T) with (enter 0).
    fuel_as (cx + (3 + f))%nat.
    apply Hx; [eapply pexpr_ok_mono; [exact Hp|len_tac]| revert Hlf; len_tac |reflexivity|intros _; reflexivity|].
    change (exit_ 0 (strip_spans e)) with (StBinaryRhs (kind 0) (strip_spans e)). cbn [Nat.add].
    apply pl_rhs_none; [reflexivity|].
    apply pl_parsed_paren; [exact Hr|].
    rewrite Nat.sub_0_r in H1. eapply pl_parsed_suffix_gen; [exact H1|exact H2].
  - (* EObject *)
    cbn [wpx] in Hwp.
    assert (Eprint : print_expr (EObject sp o) = sim SLeftBrace :: print_obj o ++ [sim SRightBrace]) by reflexivity.
    exists 3%nat, 0%nat. split; [rewrite Eprint; cbn [List.length]; lia|]. split; [lia|].
    intros pexpr lf f stk rest R t' X tf Hp Hlf Hr _ H1 H2.
    rewrite Eprint in *. change (strip_spans (EObject sp o)) with (EObject sp0 (strip_obj o)) in H1.
    cbn [List.length] in Hp, Hlf. rewrite app_length in Hp, Hlf. cbn [List.length] in Hp, Hlf.
    norm_app. cbn [Nat.add].
    apply pl_unary_miss; [reflexivity|]. apply pl_primary_brace; [auto with rt|].
    eapply run_bind; [apply (run_obj pexpr _ Hp (S lf) o rest); [exact Hwp|lia|lia|exact Hr]|].
    cbv beta iota. apply run_span0_then.
    rewrite Nat.sub_0_r in H1. eapply pl_parsed_suffix_gen; [exact H1|exact H2].
  - (* EArray *)
    cbn [wpx] in Hwp. cbn [esize] in Hsz.
    assert (Hall : Forall (elem_ok n) items).
    { apply Forall_forall. intros x Hin. rewrite forallb_forall in Hwp.
      pose proof (lsum_in esize items x Hin). split; [lia|apply Hwp; exact Hin]. }
    destruct items as [|x1 more].
    + exists 3%nat, 0%nat. split; [cbn [print_expr sep_by app List.length]; lia|]. split; [lia|].
      intros pexpr lf f stk rest R t' X tf Hp Hlf Hr _ H1 H2.
      cbn [print_expr sep_by strip_spans map app Nat.add].
      apply pl_unary_miss; [reflexivity|]. apply pl_primary_bracket; [discriminate|].
      apply run_alt_hit; [reflexivity|exact Hr|].
      apply run_span0_then.
      rewrite Nat.sub_0_r in H1. eapply pl_parsed_suffix_gen; [exact H1|exact H2].
    + destruct (array_items n IH more x1 Hall) as (c' & Hb' & HB').
      destruct (print_head x1) as (ch1 & rh1 & Eh1 & Hst1).
      assert (Eprint : print_expr (EArray sp (x1 :: more)) =
                       sim SLeftBracket :: items_toks x1 more ++ [sim SRightBracket]) by reflexivity.
      assert (Elen : List.length (print_expr (EArray sp (x1 :: more))) = (List.length (items_toks x1 more) + 2)%nat).
      { rewrite Eprint. cbn [List.length]. rewrite app_length. cbn [List.length]. lia. }
      exists (2 + (c' + 1))%nat, 0%nat. split; [lia|]. split; [lia|].
      intros pexpr lf f stk rest R t' X tf Hp Hlf Hr _ H1 H2. rewrite Elen in Hp, Hlf.
      rewrite Eprint. norm_app. cbn [Nat.add].
      apply pl_unary_miss; [reflexivity|]. apply pl_primary_bracket; [auto with rt|].
      assert (Eh : exists rr, items_toks x1 more = ch1 :: rr) by (unfold items_toks; rewrite Eh1; eexists; reflexivity).
      destruct Eh as (rr & Eh).
      eapply run_orelse_miss; [eapply run_eat_miss_app; [exact Eh|apply starter_not; [exact Hst1|reflexivity]]|].
      fuel_as (c' + (1 + f))%nat.
      eapply (HB' pexpr lf _ _ _ []); [exact Hp|lia|lia|exact Hr|].
      apply pl_parsed_suffix_gen with (R := R) (t1 := t'); [|exact H2].
      rewrite Nat.sub_0_r in H1. exact H1.
  - (* EArrayComp *)
    cbn [wpx] in Hwp. cbn [esize] in Hsz.
    apply andb_true_iff in Hwp as [Hwp Hws]. apply andb_true_iff in Hwp as [Hwx Hok].
    destruct (IH e ltac:(lia) 0%nat true ltac:(lia) Hwx) as (c1 & Hb1 & HB1).
    destruct (print_head e) as (ch1 & rh1 & Eh1 & Hst1).
    exists (2 + (c1 + 3))%nat, 0%nat.
    assert (Elen : List.length (print_expr (EArrayComp sp e specs)) =
                   (List.length (print_expr e) + List.length (flat_map print_spec specs) + 2)%nat).
    { change (print_expr (EArrayComp sp e specs))
        with (sim SLeftBracket :: print_expr e ++ flat_map print_spec specs ++ [sim SRightBracket]).
      cbn [List.length]. repeat (rewrite app_length; cbn [List.length]). lia. }
    split; [lia|]. split; [lia|].
    intros pexpr lf f stk rest R t' X tf Hp Hlf Hr _ H1 H2. rewrite Elen in Hp, Hlf.
    assert (Hall : Forall (spec_ok (List.length (print_expr e) + List.length (flat_map print_spec specs) + 2)) specs).
    { apply Forall_forall. intros sc Hin. rewrite forallb_forall in Hws. split; [apply (Hws sc Hin)|].
      pose proof (flat_map_len_in print_spec specs sc Hin). lia. }
    pose proof (flat_map_count print_spec specs (fun x _ => spec_nonempty x)) as Hsl.
    change (print_expr (EArrayComp sp e specs))
      with (sim SLeftBracket :: print_expr e ++ flat_map print_spec specs ++ [sim SRightBracket]).
    change (strip_spans (EArrayComp sp e specs)) with (EArrayComp sp0 (strip_spans e) (map strip_spec specs)) in H1.
    norm_app. cbn [Nat.add].
    apply pl_unary_miss; [reflexivity|]. apply pl_primary_bracket; [auto with rt|].
    eapply run_orelse_miss; [eapply run_eat_miss_app; [exact Eh1|apply starter_not; [exact Hst1|reflexivity]]|].
    change (init_state T) with (enter 0). fuel_as (c1 + (3 + f))%nat.
    destruct specs as [|[v y|y] more]; cbn [specs_ok] in Hok; try discriminate.
    apply HB1; [eapply pexpr_ok_mono; [exact Hp|lia]|lia|reflexivity|intros _; reflexivity|].
    change (exit_ 0 (strip_spans e)) with (StBinaryRhs (kind 0) (strip_spans e)). cbn [Nat.add].
    apply pl_rhs_none; [reflexivity|].
    eapply (pl_item0_comp pexpr lf _ _ _ (sim KFor)); [reflexivity| |exact Hr|].
    + apply (run_comp_spec pexpr _ Hp (S lf) (CFor v y :: more) (sim SRightBracket) rest);
        [reflexivity|lia|exact Hall|split; reflexivity|reflexivity|reflexivity].
    + rewrite Nat.sub_0_r in H1. eapply pl_parsed_suffix_gen; [exact H1|exact H2].
  - (* EField *)
    cbn [wpx] in Hwp. cbn [esize] in Hsz.
    destruct (IHe ltac:(lia) Hwp) as (c & m & Hbc & Hbm & HS).
    exists c, (S m). split; [len_tac|]. split; [len_tac|].
    intros pexpr lf f stk rest R t' X tf Hp Hlf Hr Hts H1 H2.
    cbn [print_expr strip_spans]. rewrite <- app_assoc. cbn [app].
    assert (Hl : (List.length (print_expr e) + 2 <= lf)%nat) by (revert Hlf; len_tac).
    eapply HS; [eapply pexpr_ok_mono; [exact Hp|len_tac]|lia|discriminate|reflexivity| |exact H2].
    replace (S lf - m)%nat with (S (S lf - S m)) by lia. cbn [suffix_loop].
    apply run_alt_hit; [reflexivity|discriminate|].
    eapply run_bind; [unfold id_tok, tk; apply run_expect_ident_hit; exact Hr|].
    rewrite strip_span0. apply run_span0_then. exact H1.
  - (* EIndex *)
    cbn [wpx] in Hwp. cbn [esize] in Hsz. apply andb_true_iff in Hwp as [Hwx Hwi].
    destruct (IHe1 ltac:(lia) Hwx) as (c & m & Hbc & Hbm & HS).
    exists c, (S m). split; [len_tac|]. split; [len_tac|].
    intros pexpr lf f stk rest R t' X tf Hp Hlf Hr Hts H1 H2.
    cbn [print_expr strip_spans]. norm_app.
    assert (Hl : (List.length (print_expr e1) + 2 <= lf)%nat) by (revert Hlf; len_tac).
    eapply HS; [eapply pexpr_ok_mono; [exact Hp|len_tac]|lia|discriminate|reflexivity| |exact H2].
    replace (S lf - m)%nat with (S (S lf - S m)) by lia. cbn [suffix_loop].
    apply run_alt_miss; [reflexivity|].
    apply run_alt_hit; [reflexivity|auto with rt|].
    eapply run_bind; [|exact H1].
    apply (run_index pexpr _ Hp); [exact Hwi|len_tac|apply strip_span0|exact Hr].
  - (* ESlice *)
    cbn [wpx] in Hwp. cbn [esize] in Hsz.
    apply andb_true_iff in Hwp as [Hwp Hwc]. apply andb_true_iff in Hwp as [Hwp Hwb].
    apply andb_true_iff in Hwp as [Hwx Hwa].
    destruct (IHe ltac:(lia) Hwx) as (c0 & m & Hbc & Hbm & HS).
    exists c0, (S m). split; [len_tac|]. split; [len_tac|].
    intros pexpr lf f stk rest R t' X tf Hp Hlf Hr Hts H1 H2.
    cbn [print_expr strip_spans]. norm_app.
    assert (Hl : (List.length (print_expr e) + 2 <= lf)%nat) by (revert Hlf; len_tac).
    eapply HS; [eapply pexpr_ok_mono; [exact Hp|len_tac]|lia|discriminate|reflexivity| |exact H2].
    replace (S lf - m)%nat with (S (S lf - S m)) by lia. cbn [suffix_loop].
    apply run_alt_miss; [reflexivity|].
    apply run_alt_hit; [reflexivity|auto with rt|].
    eapply run_bind; [|exact H1].
    change (match c with Some c' => sim SColon :: print_expr c' | None => [] end) with (ctoks c).
    apply (run_slice pexpr _ Hp); try assumption; try apply strip_span0;
      [destruct a; cbn [olen]; len_tac|destruct b; cbn [olen]; len_tac|destruct c; cbn [olen]; len_tac].
  - (* ESuperField *)
    exists 3%nat, 0%nat. split; [cbn [print_expr List.length]; lia|]. split; [lia|].
    intros pexpr lf f stk rest R t' X tf _ _ Hr _ H1 H2. cbn [print_expr strip_spans app Nat.add].
    apply pl_unary_miss; [reflexivity|]. apply pl_primary_super; [discriminate|].
    apply run_alt_hit; [reflexivity|discriminate|].
    eapply run_bind; [unfold id_tok, tk; apply run_expect_ident_hit; exact Hr|].
    apply run_span0_then.
    rewrite Nat.sub_0_r in H1. eapply pl_parsed_suffix_gen; [exact H1|exact H2].
  - (* ESuperIndex *)
    cbn [wpx] in Hwp.
    exists 3%nat, 0%nat. split; [len_tac|]. split; [lia|].
    intros pexpr lf f stk rest R t' X tf Hp _ Hr _ H1 H2. cbn [print_expr strip_spans]. norm_app. cbn [Nat.add].
    apply pl_unary_miss; [reflexivity|]. apply pl_primary_super; [discriminate|].
    apply run_alt_miss; [reflexivity|].
    apply run_alt_hit; [reflexivity|auto with rt|].
    eapply run_bind; [apply (pexpr_run Hp); [exact Hwp|len_tac|reflexivity|intros _; reflexivity]|].
    apply run_expect_then; [reflexivity|exact Hr|].
    apply run_span0_then.
    rewrite Nat.sub_0_r in H1. eapply pl_parsed_suffix_gen; [exact H1|exact H2].
  - (* ECall *)
    cbn [wpx] in Hwp. cbn [esize] in Hsz. apply andb_true_iff in Hwp as [Hwx Hwa].
    destruct (IHe ltac:(lia) Hwx) as (c & m & Hbc & Hbm & HS).
    exists c, (S m). split; [len_tac|]. split; [len_tac|].
    intros pexpr lf f stk rest R t' X tf Hp Hlf Hr Hts H1 H2.
    cbn [print_expr strip_spans]. norm_app.
    assert (Hl : (List.length (print_expr e) + 2 <= lf)%nat) by (revert Hlf; len_tac).
    eapply HS; [eapply pexpr_ok_mono; [exact Hp|len_tac]|lia|discriminate|reflexivity| |exact H2].
    replace (S lf - m)%nat with (S (S lf - S m)) by lia. cbn [suffix_loop].
    apply run_alt_miss; [reflexivity|].
    apply run_alt_miss; [reflexivity|].
    apply run_alt_hit; [reflexivity|auto with rt|].
    eapply run_bind.
    { apply (run_call_args pexpr _ Hp (S lf) args);
        [exact Hwa|len_tac|revert Hlf; len_tac|destruct tailstrict; [discriminate|exact Hr]]. }
    cbv beta iota. destruct tailstrict; cbn [app].
    + apply run_eat_then; [reflexivity|exact Hr|].
      cbv beta iota. rewrite strip_span0. apply run_span0_then. exact H1.
    + destruct rest as [|c0 rest0]; [congruence|]. cbn in Hts.
      eapply run_bind; [apply run_eat_miss; exact Hts|].
      cbv beta iota. rewrite strip_span0. apply run_span0_then. exact H1.
  - (* EBinary *) cbn [wpx] in Hwp. destruct op; cbn in Hwp; discriminate.
  - (* EObjExt *)
    cbn [wpx] in Hwp. cbn [esize] in Hsz. apply andb_true_iff in Hwp as [Hwx Hwo].
    destruct (IHe ltac:(lia) Hwx) as (c & m & Hbc & Hbm & HS).
    assert (Eprint : print_expr (EObjExt sp e o obj_sp) =
                     print_expr e ++ sim SLeftBrace :: print_obj o ++ [sim SRightBrace]) by reflexivity.
    assert (Elen : List.length (print_expr (EObjExt sp e o obj_sp)) =
                   (List.length (print_expr e) + List.length (print_obj o) + 2)%nat).
    { rewrite Eprint. repeat (rewrite app_length; cbn [List.length]). lia. }
    exists c, (S m). split; [lia|]. split; [lia|].
    intros pexpr lf f stk rest R t' X tf Hp Hlf Hr Hts H1 H2. rewrite Elen in Hp, Hlf.
    rewrite Eprint. change (strip_spans (EObjExt sp e o obj_sp)) with (EObjExt sp0 (strip_spans e) (strip_obj o) sp0) in H1.
    norm_app.
    eapply HS; [eapply pexpr_ok_mono; [exact Hp|lia]|lia|discriminate|reflexivity| |exact H2].
    replace (S lf - m)%nat with (S (S lf - S m)) by lia. cbn [suffix_loop].
    apply run_alt_miss; [reflexivity|].
    apply run_alt_miss; [reflexivity|].
    apply run_alt_miss; [reflexivity|].
    apply run_alt_hit; [reflexivity|auto with rt|].
    eapply run_bind; [apply (run_obj pexpr _ Hp (S lf) o rest); [exact Hwo|lia|lia|exact Hr]|].
    cbv beta iota. rewrite strip_span0.
    apply run_span0_then. apply run_span0_then. exact H1.
Qed.

Lemma suffix_case n (IH : rt_upto n) e k last : (esize e <= n)%nat -> wpx lv_postfix false e = true -> (k <= 10)%nat ->
  exists c, (c <= 40 * List.length (print_expr e))%nat /\ Bform k last e c.
Proof.
  intros Hsz Hw11 Hk. pose proof (steps_fin_le k) as Hfin.
  destruct (sform n IH e Hsz Hw11) as (c & m & Hbc & Hbm & HS).
  exists ((10 - k) + c + steps_fin k)%nat. split; [lia|].
  apply wrap; [exact Hk|].
  intros pexpr lf f stk fo r x tf Hp Hlf Hn _ _ H.
  destruct (nosfx_inv fo Hn) as (_ & _ & _ & _ & Hts).
  eapply HS; [exact Hp|exact Hlf|discriminate|exact Hts| |exact H].
  replace (S lf - m)%nat with (S (lf - m)) by lia. apply suffix_none; exact Hn.
Qed.

Theorem rt_all : forall n, rt_upto n.
Proof.
  induction n as [|n IH]; [intros y Hy; lia|].
  intros e Hsz k last Hk Hwp.
  (* atoms, parentheses, brackets, braces, `super` and whatever ends in a suffix stand at the
     postfix level: for them wpx looks at neither k nor last *)
  destruct e; try (apply (suffix_case n IH); [cbn [esize] in *; lia|exact Hwp|exact Hk]).
  - (* ELocal *)
    cbn [esize] in Hsz. cbn [wpx] in Hwp.
    apply andb_true_iff in Hwp as [Hwp Hwb]. apply andb_true_iff in Hwp as [Hwp Hwbs].
    apply andb_true_iff in Hwp as [Hl Hne].
    destruct binds as [|b0 more]; [discriminate Hne|]. clear Hne.
    assert (Eprint : print_expr (ELocal sp (b0 :: more) e) =
              sim KLocal :: (print_bind b0 ++ flat_map (fun b => comma ++ print_bind b) more) ++ sim SSemicolon :: print_expr e)
      by reflexivity.
    apply (open_case k last _ KLocal _ Hk Hl Eprint eq_refl).
    intros pexpr lf f stk fo r v tf Hp Hlf Hs Hel H.
    set (Lb := List.length (print_expr (ELocal sp (b0 :: more) e))) in *.
    assert (Hbl : forall b, In b (b0 :: more) -> (List.length (print_bind b) + 2 <= Lb)%nat).
    { intros b Hin. pose proof (sep_by_len print_bind (b0 :: more) b Hin) as Hle. unfold Lb. rewrite Eprint.
      unfold sep_by in Hle. cbn [List.length]. repeat (rewrite app_length; cbn [List.length]).
      rewrite app_length in Hle. lia. }
    assert (Hall : Forall (fun b => bind_ok Lb b /\ (List.length (print_bind b) <= S lf)%nat) (b0 :: more)).
    { apply Forall_forall. intros b Hin. rewrite forallb_forall in Hwbs. specialize (Hbl b Hin).
      split; [|lia]. split; [apply (Hwbs b Hin)|lia]. }
    inversion Hall as [|? ? (Hok0 & Hl0) Hall']; subst.
    change (strip_spans (ELocal sp (b0 :: more) e))
      with (ELocal sp0 (strip_bind b0 :: map strip_bind more) (strip_spans e)) in H.
    norm_app. apply pl_primary_local; [auto with rt|].
    destruct (binds_follow more (sim SSemicolon) (print_expr e ++ fo :: r) (conj eq_refl eq_refl)) as (t0 & r0 & E0 & Hf0).
    rewrite E0.
    eapply run_bind; [apply (run_bind_ pexpr Lb Hp (S lf) b0 t0 r0 Hok0 Hl0 Hf0)|].
    rewrite <- E0.
    eapply run_bind.
    { apply (run_binds_loop pexpr Lb Hp (S lf) more [strip_bind b0] (S lf)); [|exact Hall'|split; reflexivity|reflexivity].
      pose proof (flat_len print_bind more). unfold Lb in Hlf. rewrite Eprint in Hlf. revert Hlf.
      cbn [List.length]. repeat (rewrite app_length; cbn [List.length]). lia. }
    cbn [app].
    apply run_expect_then; [reflexivity|auto with rt|].
    eapply run_bind; [apply (pexpr_run Hp); [exact Hwb| |exact Hs|exact Hel]|].
    { unfold Lb. rewrite Eprint. cbn [List.length]. repeat (rewrite app_length; cbn [List.length]). lia. }
    rewrite strip_span0. apply run_span0_then. exact H.
  - (* EIf *)
    cbn [esize] in Hsz.
    destruct e3 as [e3|]; cbn [wpx] in Hwp.
    + apply andb_true_iff in Hwp as [Hwp Hw3]. apply andb_true_iff in Hwp as [Hwp Hdg].
      apply andb_true_iff in Hwp as [Hwp Hw2]. apply andb_true_iff in Hwp as [Hl Hw1].
      apply negb_true_iff in Hdg.
      apply (open_case k last (EIf sp e1 e2 (Some e3)) KIf
               (print_expr e1 ++ sim KThen :: print_expr e2 ++ sim KElse :: print_expr e3)
               Hk Hl eq_refl eq_refl).
      intros pexpr lf f stk fo r v tf Hp Hlf Hs Hel H.
      cbn [strip_spans option_map] in H. norm_app. apply pl_primary_if; [auto with rt|].
      eapply run_bind; [apply (pexpr_run Hp); [exact Hw1|len_tac|reflexivity|intros _; reflexivity]|].
      apply run_expect_then; [reflexivity|auto with rt|].
      eapply run_bind; [apply (pexpr_run Hp); [exact Hw2|len_tac|reflexivity|intros Hd; congruence]|].
      apply run_eat_then; [reflexivity|auto with rt|].
      cbn [opt_expr].
      eapply run_bind; [eapply run_bind; [apply (pexpr_run Hp); [exact Hw3|len_tac|exact Hs|exact Hel]|apply run_ret]|].
      cbv beta iota; rewrite ?strip_span0. apply run_span0_then. exact H.
    + apply andb_true_iff in Hwp as [Hwp Hw2]. apply andb_true_iff in Hwp as [Hl Hw1].
      apply (open_case k last _ KIf (print_expr e1 ++ sim KThen :: print_expr e2) Hk Hl).
      { cbn [print_expr]. rewrite app_nil_r. reflexivity. }
      { reflexivity. }
      intros pexpr lf f stk fo r v tf Hp Hlf Hs Hel H.
      cbn [strip_spans option_map] in H. norm_app. apply pl_primary_if; [auto with rt|].
      eapply run_bind; [apply (pexpr_run Hp); [exact Hw1|len_tac|reflexivity|intros _; reflexivity]|].
      apply run_expect_then; [reflexivity|auto with rt|].
      eapply run_bind; [apply (pexpr_run Hp); [exact Hw2|len_tac|exact Hs|intros _; apply Hel; reflexivity]|].
      eapply run_bind; [apply run_eat_miss; apply Hel; reflexivity|].
      cbn [opt_expr]. eapply run_bind; [apply run_ret|].
      cbv beta iota; rewrite ?strip_span0. apply run_span0_then. exact H.
  - (* EBinary *)
    cbn [wpx] in Hwp. cbn [esize] in Hsz.
    apply andb_true_iff in Hwp as [Hwp Hw2]. apply andb_true_iff in Hwp as [Hkj Hw1].
    apply Nat.leb_le in Hkj. pose proof (level_le9 op) as Hj9.
    set (j := binop_level op) in *.
    destruct (IH e1 ltac:(lia) j false ltac:(lia) Hw1) as (c1 & Hb1 & H1).
    destruct (IH e2 ltac:(lia) (S j) last ltac:(lia) Hw2) as (c2 & Hb2 & H2).
    exists ((j - k) + (c1 + (1 + (c2 + ((if (S j <? 10)%nat then 2 else 1) + (2 * (j - k)))))))%nat.
    split; [destruct (S j <? 10)%nat; len_tac|].
    intros pexpr lf f stk fo r x tf Hp Hlf Hfc Hel H.
    pose proof (fcond_nosfx _ _ _ Hfc) as Hn. pose proof (fcond_noop _ _ _ Hfc) as Ho.
    cbn [print_expr strip_spans]. rewrite <- app_assoc. cbn [app].
    fuel_as ((j - k) + (c1 + (1 + (c2 + ((if (S j <? 10)%nat then 2 else 1) + (2 * (j - k) + f))))))%nat.
    assert (Ek : enter k = StBinary (kind k)).
    { unfold enter. replace (k <? 10)%nat with true by (symmetry; apply Nat.ltb_lt; lia). reflexivity. }
    apply descend; [lia|]. replace (k + (j - k))%nat with j by lia.
    apply H1; [eapply pexpr_ok_mono; [exact Hp|len_tac]| revert Hlf; len_tac
              |split; [apply optok_nosfx|apply optok_noop]
              |intros _; destruct op; reflexivity|].
    unfold exit_. replace (j <? 10)%nat with true by (symmetry; apply Nat.ltb_lt; lia).
    cbn [Nat.add].
    apply pl_rhs_op; [auto with rt| apply print_in_ok |].
    apply H2; [eapply pexpr_ok_mono; [exact Hp|len_tac]| revert Hlf; len_tac
              | destruct last; cbn in Hfc |- *; [exact Hfc|split; [tauto|apply (noop_above_mono k); [tauto|lia]]]
              | exact Hel |].
    assert (Hback : run (pe_loop T pexpr (S lf) (1 + (2 * (j - k) + f)) (StParsed (strip_spans e2))
                         (SiBinaryRhs (kind j) (strip_spans e1) op :: lhs_up k (j - k) ++ stk)) (fo :: r) x tf).
    { cbn [Nat.add]. apply pl_parsed_rhs; [apply strip_span0|apply strip_span0|].
      pose proof (ascend pexpr (S lf) (j - k) k f (EBinary sp0 (strip_spans e1) op (strip_spans e2)) stk fo r x tf
                    ltac:(lia) Ho) as Ha.
      replace (k + (j - k))%nat with j in Ha by lia. apply Ha.
      unfold exit_ in H. replace (k <? 10)%nat with true in H by (symmetry; apply Nat.ltb_lt; lia). exact H. }
    unfold exit_. destruct (S j <? 10)%nat eqn:Ej.
    + cbn [Nat.add]. apply pl_rhs_none; [apply (noop_above_at k); [exact Ho|apply Nat.ltb_lt in Ej; lia]|].
      exact Hback.
    + exact Hback.
  - (* EUnary *)
    cbn [wpx] in Hwp. cbn [esize] in Hsz.
    apply andb_true_iff in Hwp as [_ Hwx].
    destruct (IH e ltac:(lia) 10%nat last ltac:(lia) Hwx) as (cx & Hbx & Hx).
    pose proof (steps_fin_le k) as Hfin.
    exists ((10 - k) + (S (cx + 1)) + steps_fin k)%nat. split; [len_tac|].
    intros pexpr lf f stk fo r x tf Hp Hlf Hfc Hel H.
    pose proof (fcond_nosfx _ _ _ Hfc) as Hn. pose proof (fcond_noop _ _ _ Hfc) as Ho.
    fuel_as ((10 - k) + (S (cx + (1 + (steps_fin k + f)))))%nat.
    apply descend; [lia|]. replace (k + (10 - k))%nat with 10%nat by lia.
    change (enter 10) with StUnary.
    cbn [print_expr strip_spans app Nat.add].
    apply pl_unary_hit; [auto with rt|].
    change StUnary with (enter 10).
    apply Hx; [eapply pexpr_ok_mono; [exact Hp|len_tac]| revert Hlf; len_tac
              | destruct last; cbn in Hfc |- *; [exact Hfc|split; [tauto|reflexivity]] | exact Hel |].
    change (exit_ 10 (strip_spans e)) with (StParsed (strip_spans e)). cbn [Nat.add].
    apply pl_parsed_unary; [apply strip_span0|].
    apply finish; [exact Hk|exact Ho|exact H].
  - (* EFunc *)
    cbn [esize] in Hsz. cbn [wpx] in Hwp.
    apply andb_true_iff in Hwp as [Hwp Hwb]. apply andb_true_iff in Hwp as [Hl Hwps].
    assert (Eprint : print_expr (EFunc sp params e) =
              sim KFunction :: sim SLeftParen :: sep_by comma print_param params ++ sim SRightParen :: print_expr e)
      by reflexivity.
    apply (open_case k last _ KFunction _ Hk Hl Eprint eq_refl).
    intros pexpr lf f stk fo r v tf Hp Hlf Hs Hel H.
    set (Lb := List.length (print_expr (EFunc sp params e))) in *.
    assert (Elen : Lb = (List.length (sep_by comma print_param params) + List.length (print_expr e) + 3)%nat).
    { unfold Lb. rewrite Eprint. cbn [List.length]. rewrite app_length. cbn [List.length]. lia. }
    change (strip_spans (EFunc sp params e)) with (EFunc sp0 (map strip_param params) (strip_spans e)) in H.
    norm_app. apply pl_primary_function; [discriminate|].
    apply run_expect_then; [reflexivity|auto with rt|].
    eapply run_bind; [apply (run_params pexpr Lb Hp (S lf) params); [exact Hwps|lia|lia|auto with rt]|].
    cbv beta iota.
    eapply run_bind; [apply (pexpr_run Hp); [exact Hwb|lia|exact Hs|exact Hel]|].
    rewrite strip_span0. apply run_span0_then. exact H.
  - (* EAssert *)
    cbn [esize] in Hsz. cbn [wpx] in Hwp.
    apply andb_true_iff in Hwp as [Hwa Hwb]. apply andb_true_iff in Hwa as [Hl Hwa].
    destruct a as [asp ac am].
    apply (open_case k last (EAssert sp (MkAssert asp ac am) e) KAssert
             ((print_expr ac ++ match am with Some m => sim SColon :: print_expr m | None => [] end) ++
              sim SSemicolon :: print_expr e) Hk Hl eq_refl eq_refl).
    intros pexpr lf f stk fo r v tf Hp Hlf Hs Hel H.
    rewrite <- app_assoc. cbn [app]. eapply pl_primary_assert.
    + apply (run_assert pexpr _ Hp false (MkAssert asp ac am) (sim SSemicolon) (print_expr e ++ fo :: r));
        [split; [exact Hwa|]|split; reflexivity|reflexivity].
      change (print_expr (EAssert sp (MkAssert asp ac am) e))
        with (print_assert (MkAssert asp ac am) ++ sim SSemicolon :: print_expr e).
      rewrite app_length. cbn [List.length]. lia.
    + apply run_expect_then; [reflexivity|auto with rt|].
      eapply run_bind; [apply (pexpr_run Hp); [exact Hwb|len_tac|exact Hs|exact Hel]|].
      cbv beta iota; rewrite ?strip_span0. apply run_span0_then. exact H.
  - (* EImport *)
    cbn [wpx] in Hwp. apply andb_true_iff in Hwp as [Hl Hwx].
    apply (prefix_case k last _ e KImport EImport Hk Hl); [cbn; tauto|reflexivity|reflexivity|reflexivity|exact Hwx].
  - (* EImportStr *)
    cbn [wpx] in Hwp. apply andb_true_iff in Hwp as [Hl Hwx].
    apply (prefix_case k last _ e KImportstr EImportStr Hk Hl); [cbn; tauto|reflexivity|reflexivity|reflexivity|exact Hwx].
  - (* EImportBin *)
    cbn [wpx] in Hwp. apply andb_true_iff in Hwp as [Hl Hwx].
    apply (prefix_case k last _ e KImportbin EImportBin Hk Hl); [cbn; tauto|reflexivity|reflexivity|reflexivity|exact Hwx].
  - (* EError *)
    cbn [wpx] in Hwp. apply andb_true_iff in Hwp as [Hl Hwx].
    apply (prefix_case k last _ e KError EError Hk Hl); [cbn; tauto|reflexivity|reflexivity|reflexivity|exact Hwx].
  - (* EInSuper *)
    cbn [wpx] in Hwp. cbn [esize] in Hsz.
    apply andb_true_iff in Hwp as [Hk6 Hwx]. apply Nat.leb_le in Hk6. unfold lv_ordcmp in *.
    destruct (IH e ltac:(lia) 6%nat false ltac:(lia) Hwx) as (cx & Hbx & Hx).
    exists ((6 - k) + (cx + (1 + (2 * (6 - k)))))%nat. split; [len_tac|].
    intros pexpr lf f stk fo r x tf Hp Hlf Hfc Hel H.
    pose proof (fcond_nosfx _ _ _ Hfc) as Hn. pose proof (fcond_noop _ _ _ Hfc) as Ho.
    cbn [print_expr strip_spans]. rewrite <- app_assoc. cbn [app].
    fuel_as ((6 - k) + (cx + (1 + (2 * (6 - k) + f))))%nat.
    apply descend; [lia|]. replace (k + (6 - k))%nat with 6%nat by lia.
    apply Hx; [eapply pexpr_ok_mono; [exact Hp|len_tac]| revert Hlf; len_tac
              |split; reflexivity|intros _; reflexivity|].
    change (exit_ 6 (strip_spans e)) with (StBinaryRhs (kind 6) (strip_spans e)). cbn [Nat.add].
    apply pl_rhs_insuper; [apply strip_span0|exact Hn|].
    pose proof (ascend pexpr (S lf) (6 - k) k f (EInSuper sp0 (strip_spans e) sp0) stk fo r x tf
                  ltac:(lia) Ho) as Ha.
    replace (k + (6 - k))%nat with 6%nat in Ha by lia. apply Ha.
    unfold exit_ in H. replace (k <? 10)%nat with true in H by (symmetry; apply Nat.ltb_lt; lia). exact H.
Qed.

Theorem rt_main : forall n e, (esize e < n)%nat -> core_expr e = true ->
  forall k last, (k <= 10)%nat -> wpx k last e = true ->
  exists c, (c <= 40 * List.length (print_expr e))%nat /\ Bform k last e c.
Proof. intros n e Hsz _. exact (rt_all n e Hsz). Qed.

Lemma run_parse_expr f0 t (a : expr) t' :
  run (pe_loop T (parse_expr T f0) f0 f0 (init_state T) []) t a t' -> run (parse_expr T (S f0)) t a t'.
Proof. intros H. exact (run_call _ _ _ _ H). Qed.

Lemma run_parse_root fuel c0 r0 (e : expr) :
  run (parse_expr T fuel) (c0 :: r0) e [eof_tok] ->
  omap fst (parse_fuel T fuel (c0 :: r0)) = Ok e.
Proof.
  intros H. unfold parse_fuel, parse_root_expr.
  destruct (H (init_pst c0 r0) eq_refl) as (s' & E & Ts).
  unfold bindP. rewrite E. destruct s' as [c r ex dc dm]. unfold toks_of in Ts; cbn in Ts.
  injection Ts as -> ->. reflexivity.
Qed.

(* self.parse_expr() with enough fuel parses every well-parenthesised sub-expression *)
Theorem parse_expr_ok : forall L y fuel fo r, (List.length (print_expr y) < L)%nat ->
  core_expr y = true -> wp y = true -> (41 * List.length (print_expr y) + 3 <= fuel)%nat ->
  stopper fo = true -> else_ok y fo ->
  run (parse_expr T fuel) (print_expr y ++ fo :: r) (strip_spans y) (fo :: r).
Proof.
  induction L as [|L IH]; [intros; lia|].
  intros y fuel fo r HL Hc Hw Hf Hs He. unfold wp in Hw.
  destruct (rt_main (S (esize y)) y ltac:(lia) Hc 0%nat true ltac:(lia) Hw) as (c & Hb & HB).
  destruct fuel as [|f0]; [lia|].
  apply run_parse_expr.
  assert (Hlf : exists lf, f0 = S lf /\ (List.length (print_expr y) <= lf)%nat).
  { exists (f0 - 1)%nat. split; lia. }
  destruct Hlf as (lf & Elf & Hlf). rewrite Elf at 2.
  assert (Hg : exists g, f0 = (c + S (S g))%nat) by (exists (f0 - c - 2)%nat; lia).
  destruct Hg as (g & Eg). rewrite Eg at 2.
  change (init_state T) with (enter 0).
  apply HB; [|exact Hlf|exact Hs|exact He|].
  - intros z fo' r' Hcz Hwz Hlz Hsz Hez. apply (IH z f0 fo' r'); [lia|exact Hcz|exact Hwz|lia|exact Hsz|exact Hez].
  - change (exit_ 0 (strip_spans y)) with (StBinaryRhs (kind 0) (strip_spans y)).
    apply pl_rhs_none; [apply stopper_op0; exact Hs|]. apply pl_parsed_done.
Qed.

Theorem roundtrip : forall e, wp e = true -> omap fst (parse T (print_tokens e)) = Ok (strip_spans e).
Proof.
  intros e Hw.
  unfold parse, print_tokens, default_fuel.
  destruct (print_head e) as (c0 & r0 & Ep & _).
  assert (Et : print_expr e ++ [eof_tok] = c0 :: (r0 ++ [eof_tok])) by (rewrite Ep; reflexivity).
  rewrite Et. apply run_parse_root. rewrite <- Et.
  apply (parse_expr_ok (S (List.length (print_expr e))));
    [lia|exact (wpx_core _ _ _ Hw)|exact Hw| |reflexivity|intros _; reflexivity].
  rewrite app_length. cbn [List.length]. lia.
Qed.

Lemma wp_core : forall n e, (esize e < n)%nat -> forall k last, wpx k last e = true -> core_expr e = true.
Proof. intros n e _ k last. apply wpx_core. Qed.
